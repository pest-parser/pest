(* C04 - wf_for: wfq with the char boundaries and length of an input; whole: such a queue is the token list of one
   ordered forest, which forest_of recovers.  (The statements of C04 are assembled in props/C04.v, not here.) *)
From Coq Require Import String List Arith Lia Bool.
Import ListNotations.
Require Import PV.Iter.Queue PV.Iter.QueueFacts PV.Iter.Model.
Open Scope list_scope.
Open Scope nat_scope.

Arguments Nat.mul : simpl never.
Arguments Nat.sub : simpl never.
Arguments Nat.add : simpl never.

Definition wf_for (input : string) (q : list qtoken) : Prop :=
  wfq (is_char_boundary input) (String.length input) q.

Section Proofs.
Variable input : string.
Variable q : list qtoken.
Hypothesis Hwf : wf_for input q.

Notation fok := (forest_ok (is_char_boundary input) (String.length input)).

Lemma whole : exists F, Win q 0 F /\ length q = 2 * fsize F /\ fok F /\ forest_of q 0 (length q) = F.
Proof.
  destruct (proj1 (wfq_iff _ _ _) Hwf) as (F & E & H). exists F. rewrite E.
  split; [apply Win_tokens_of|]. split; [apply length_tokens_at|]. split; [exact H|apply forest_of_tokens_of].
Qed.

End Proofs.
