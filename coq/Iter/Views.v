(* C04 - the views of a Pairs / Pair value that are not iterators are the corresponding structural functions of the
   forest: as_str, concat, single, tokens, find_tagged, line_col, Display ({} and {:#}), Debug, to_json (as_span and
   flatten are in Machines.v / FlatTokens.v, into_inner and node tags in PairsProofs.v).  Where a repair matters (single, to_json) the lemma covers both versions
   of the code and says where they differ; the statements that are false of the code as it is are in Refuted.v. *)
From Coq Require Import String List Arith Lia Bool.
Import ListNotations.
Require Import PV.Iter.Queue PV.Iter.QueueFacts PV.Iter.Model PV.Iter.Spec PV.Iter.PairsProofs PV.Iter.Machines PV.Iter.FlatTokens.
Open Scope list_scope.
Open Scope nat_scope.

Arguments Nat.mul : simpl never.
Arguments Nat.sub : simpl never.
Arguments Nat.add : simpl never.

Section V.
Variable q : list qtoken.
Variable input : string.
Variable rname : nat -> string.
Variable tname : nat -> string.
Variable esc : string -> string.
Notation fok := (forest_ok (is_char_boundary input) (String.length input)).
Notation wf := (wfq (is_char_boundary input) (String.length input) q).

Lemma Rep_fok {p f} : wf -> Rep q p f -> fok f.
Proof. intros Hwf (W & _ & _). exact (Win_forest_ok Hwf W). Qed.

Lemma fuel0_enough {p f} : Rep q p f -> fsize f <= fuel0 q.
Proof. intros (W & _ & _). apply Win_bound in W. unfold fuel0. lia. Qed.

Lemma Rep_ends {p t f0} : Rep q p (t :: f0) ->
  exists u, last_error (t :: f0) = Some u /\ (p_start p <? p_end p) = true /\
    pos_at q (p_start p) = Ok (t_start t) /\ csub (p_end p) 1 = Ok (p_end p - 1) /\
    pos_at q (p_end p - 1) = Ok (t_end u).
Proof.
  intros (W & E & _). destruct (list_snoc_cases (t :: f0)) as [E0|(f' & u & E')]; [discriminate|]. exists u.
  assert (Hs : pos_at q (p_start p) = Ok (t_start t)).
  { exact (pos_at_start _ (Win_single W)). }
  rewrite E' in *. destruct u as [r tg ps pe ch]. destruct (Win_snoc W) as (A & _).
  rewrite fsize_app, fsize_cons in E. cbn [fsize] in E.
  split; [apply last_error_snoc|]. split; [apply Nat.ltb_lt; lia|]. split; [exact Hs|]. split; [apply csub_ok; lia|].
  replace (p_end p - 1) with (S (p_start p + 2 * fsize f') + 2 * fsize ch) by lia.
  unfold pos_at. rewrite (qget_nth _ A). reflexivity.
Qed.

Lemma Rep_empty_lt {p} : Rep q p [] -> (p_start p <? p_end p) = false.
Proof. intros (_ & E & _). apply Nat.ltb_ge. rewrite E. cbn [fsize]. lia. Qed.

Lemma fok_first_last {t f0 u} : fok (t :: f0) -> last_error (t :: f0) = Some u ->
  t_start t <= t_end u /\ is_char_boundary input (t_start t) = true /\ is_char_boundary input (t_end u) = true.
Proof.
  intros H EL. destruct (list_snoc_cases (t :: f0)) as [E0|(f' & u' & E)]; [discriminate|].
  rewrite E, last_error_snoc in EL. inversion EL; subst u'.
  pose proof (forest_ok_nested H) as N. rewrite E in N.
  destruct (fnested_first_last _ _ _ u t N) as (_ & A & _); [rewrite <- E; reflexivity|].
  split; [exact A|]. split.
  - exact (proj1 (proj2 (fok_node _ H))).
  - rewrite E in H. apply forest_ok_app in H. exact (proj1 (proj2 (proj2 (fok_node _ (proj2 H))))).
Qed.

Theorem pairs_as_str_ok {p f} : Rep q p f -> fok f -> pairs_as_str q input p = Ok (forest_str input f).
Proof.
  intros R H. unfold pairs_as_str. destruct f as [|t f0].
  - rewrite (Rep_empty_lt R). reflexivity.
  - destruct (Rep_ends R) as (u & EL & A & B & C & D). rewrite A, B. cbn [bind]. rewrite C. cbn [bind].
    rewrite D. cbn [bind]. destruct (fok_first_last H EL) as (X & Y & Z).
    rewrite (slice_ok input _ _ X Y Z). unfold forest_str. rewrite EL. reflexivity.
Qed.

Lemma collect_split {p f} : Rep q p f -> fok f ->
  exists idxs, pairs_collect q (fuel0 q) p = Ok idxs /\ Forall2 (fun i t => PairAt q i t /\ fok [t]) idxs f.
Proof.
  intros R H. destruct (pairs_collect_fuel0 _ R) as (idxs & E & F2). exists idxs. split; [exact E|].
  exact (Forall2_and_r _ _ _ _ F2 (fok_each _ _ H)).
Qed.

Theorem pairs_concat_ok {p f} : Rep q p f -> fok f -> pairs_concat q input p = Ok (forest_concat input f).
Proof.
  intros R H. unfold pairs_concat. destruct (collect_split R H) as (idxs & E & F2). rewrite E. cbn [bind].
  rewrite (mapM_Forall2 (pair_as_str q input) (tree_str input) idxs f).
  - reflexivity.
  - eapply Forall2_imp; [|exact F2]. intros i t [W Ht]. exact (pair_as_str_ok _ _ W Ht).
Qed.

Theorem pairs_single_ok fx i t : PairAt q i t ->
  exists p, pairs_single fx q i = Ok p /\ RepS q (if fix_single fx then 0 else 1) p [t].
Proof.
  intros W. unfold pairs_single. rewrite (pair_end_ok _ W). cbn [bind].
  apply pairs_new_short; [exact W|destruct (fix_single fx); lia|].
  destruct t. rewrite fsize_cons. cbn [fsize t_children]. destruct (fix_single fx); lia.
Qed.

Theorem pair_line_col_ok li {i t} : PairAt q i t -> pair_line_col q input li i = li_line_col li input (t_start t).
Proof.
  intros W. unfold pair_line_col. rewrite (pos_at_start _ W). reflexivity.
Qed.

Theorem pairs_tokens_ok p f : wf -> Rep q p f ->
  exists k, pairs_tokens q input p = Ok k /\ RepT q input k (token_list f).
Proof.
  intros Hwf R. pose proof (Rep_fok Hwf R) as H. destruct R as (W & E & _).
  unfold pairs_tokens. rewrite (tokens_new_ok q input _ _ Hwf), E.
  eexists. split; [reflexivity|]. exact (window_RepT q input _ _ W H).
Qed.

Theorem pair_tokens_ok i t : wf -> PairAt q i t ->
  exists k, pair_tokens q input i = Ok k /\ RepT q input k (token_list [t]).
Proof.
  intros Hwf W. pose proof (Win_forest_ok Hwf W) as H. unfold pair_tokens.
  rewrite (pair_end_ok _ W). cbn [bind]. rewrite (tokens_new_ok q input _ _ Hwf).
  eexists. split; [reflexivity|].
  replace (S i + 2 * fsize (t_children t) + 1) with (i + 2 * fsize [t]) by (destruct t; rewrite fsize_cons; cbn [fsize t_children]; lia).
  exact (window_RepT q input _ _ W H).
Qed.

Lemma tag_matches_ok tg {i t} : PairAt q i t -> tag_matches q tg i = Ok (has_tag tg t).
Proof.
  intros W. unfold tag_matches. rewrite (pair_as_node_tag_ok _ W). reflexivity.
Qed.

Lemma find_tagged_next_ok tg L : forall fuel fl, RepF q input fl L -> length L < fuel ->
  exists fl' o, find_tagged_next q fuel tg fl = Ok (fl', o) /\
    match filter (has_tag tg) L with
    | [] => o = None /\ RepF q input fl' []
    | t :: rest => exists i L', o = Some i /\ PairAt q i t /\ RepF q input fl' L' /\ filter (has_tag tg) L' = rest
    end.
Proof.
  induction L as [|t L IH]; intros fuel fl R Hf; (destruct fuel as [|k]; [cbn [length] in Hf; lia|]).
  - cbn [find_tagged_next filter]. rewrite (flat_next_nil _ _ R). cbn [bind]. eauto.
  - cbn [find_tagged_next]. destruct (flat_next_cons _ _ R) as (fl1 & E & [W _] & R1).
    rewrite E. cbn [bind]. rewrite (tag_matches_ok tg W). cbn [bind filter].
    destruct (has_tag tg t).
    + exists fl1, (Some (f_start fl)). split; [reflexivity|]. exists (f_start fl), L. auto.
    + cbn [length] in Hf. destruct (IH k fl1 R1) as (fl' & o & E2 & M); [lia|]. eauto.
Qed.

Theorem pairs_find_first_tagged_ok tg {p f} : Rep q p f -> fok f ->
  exists o, pairs_find_first_tagged q tg p = Ok o /\
    match forest_find_tagged tg f with
    | [] => o = None
    | t :: _ => exists i, o = Some i /\ PairAt q i t
    end.
Proof.
  intros R H. pose proof (flatten_RepF q input p f R H) as RF.
  destruct (find_tagged_next_ok tg _ (fuel0 q) _ RF (RepF_length _ _ RF)) as (fl' & o & E & M).
  unfold pairs_find_first_tagged. rewrite E. cbn [bind snd]. exists o. split; [reflexivity|].
  unfold forest_find_tagged. destruct (filter (has_tag tg) (preorder f)) as [|t rest].
  - exact (proj1 M).
  - destruct M as (i & L' & -> & W & _). exists i. split; [reflexivity|exact W].
Qed.

Lemma find_tagged_collect_ok tg : forall n fuel fl L, RepF q input fl L ->
  length (filter (has_tag tg) L) = n -> n < fuel ->
  exists idxs, find_tagged_collect q fuel tg fl = Ok idxs /\ Forall2 (PairAt q) idxs (filter (has_tag tg) L).
Proof.
  induction n as [|n IH]; intros fuel fl L R Hn Hf; (destruct fuel as [|k]; [lia|]); cbn [find_tagged_collect];
    destruct (find_tagged_next_ok tg _ (fuel0 q) _ R (RepF_length _ _ R)) as (fl' & o & E & M);
    rewrite E; cbn [bind]; destruct (filter (has_tag tg) L) as [|t rest]; try discriminate.
  - destruct M as [-> _]. exists []. split; [reflexivity|constructor].
  - destruct M as (i & L' & -> & W & R' & EL). cbn [length] in Hn.
    destruct (IH k fl' L' R') as (idxs & E2 & F2); [rewrite EL; lia|lia|].
    rewrite E2. cbn [bind]. exists (i :: idxs). split; [reflexivity|]. constructor; [exact W|]. rewrite <- EL. exact F2.
Qed.

Theorem pairs_find_tagged_ok tg {p f} : Rep q p f -> fok f ->
  exists idxs, pairs_find_tagged q tg p = Ok idxs /\ Forall2 (PairAt q) idxs (forest_find_tagged tg f).
Proof.
  intros R H. pose proof (flatten_RepF q input p f R H) as RF. unfold pairs_find_tagged, forest_find_tagged.
  apply (find_tagged_collect_ok tg (length (filter (has_tag tg) (preorder f)))); [exact RF|reflexivity|].
  pose proof (RepF_length _ _ RF). pose proof (filter_len_le (has_tag tg) (preorder f)). lia.
Qed.

Lemma debug_node k i t : PairAt q i t -> fok [t] ->
  (forall idxs, Forall2 (PairAt q) idxs (t_children t) ->
     mapM (debug_pair q input rname tname esc k) idxs = Ok (map (debug_tree input rname tname esc) (t_children t))) ->
  debug_pair q input rname tname esc (1 + k) i = Ok (debug_tree input rname tname esc t).
Proof.
  intros W H IH. change (1 + k) with (S k). cbn [debug_pair].
  destruct (fok_node _ H) as (A & B & C & _).
  rewrite (pair_as_rule_ok _ W). cbn [bind].
  rewrite (pair_as_node_tag_ok _ W). cbn [bind].
  rewrite (pair_as_span_ok _ _ W H). cbn [bind fst snd].
  unfold debug_span. rewrite (slice_ok input _ _ A B C). cbn [bind].
  destruct (inner_collect _ W) as (inner & ci & E1 & _ & E2 & F3).
  rewrite E1. cbn [bind]. rewrite E2. cbn [bind]. rewrite (IH ci F3). destruct t; reflexivity.
Qed.

Theorem debug_pairs_ok {p f} : Rep q p f -> fok f ->
  debug_pairs q input rname tname esc p = Ok (debug_forest input rname tname esc f).
Proof.
  intros R H. unfold debug_pairs. destruct (pairs_collect_fuel0 _ R) as (idxs & E & F2). rewrite E. cbn [bind].
  rewrite (fold_forest q input 1 _ _ debug_node f idxs (fuel0 q)); [reflexivity| |exact F2|exact H].
  pose proof (fuel0_enough R). lia.
Qed.

Theorem debug_pair_ok {i t} : PairAt q i t -> fok [t] ->
  debug_pair q input rname tname esc (fuel0 q) i = Ok (debug_tree input rname tname esc t).
Proof.
  intros W H. apply (fold_pair q input 1 _ _ debug_node); [pose proof (tsize_fuel0 _ W); lia|exact W|exact H].
Qed.

Lemma alt_node k i t : PairAt q i t -> fok [t] ->
  (forall idxs, Forall2 (PairAt q) idxs (t_children t) ->
     mapM (alt_pair q rname k) idxs = Ok (map (alt_tree rname) (t_children t))) ->
  alt_pair q rname (1 + k) i = Ok (alt_tree rname t).
Proof.
  (* `{:#}` never slices the input: the span condition that fold_forest offers is not needed *)
  intros W _ IH. change (1 + k) with (S k). cbn [alt_pair].
  rewrite (pair_as_rule_ok _ W). cbn [bind].
  rewrite (pos_at_start _ W). cbn [bind].
  rewrite (pair_end_ok _ W). cbn [bind].
  rewrite (pos_at_end _ W). cbn [bind].
  destruct (pair_into_inner_ok _ W) as (inner & E1 & R).
  rewrite E1. cbn [bind]. destruct t as [r tg ps pe [|c ch']]; cbn [t_children] in *.
  - rewrite (pairs_next_nil _ 0 R (Nat.le_0_l 1)). reflexivity.
  - destruct (pairs_next_cons _ 0 R (Nat.le_0_l 1)) as (inner' & E2 & R' & Wc). rewrite E2. cbn [bind].
    destruct (pairs_collect_fuel0 _ R') as (l & E3 & F3). rewrite E3. cbn [bind].
    rewrite (IH (p_start inner :: l)); [reflexivity|constructor; assumption].
Qed.

Theorem alt_pair_ok {i t} : PairAt q i t -> fok [t] -> alt_pair q rname (fuel0 q) i = Ok (alt_tree rname t).
Proof.
  intros W H. apply (fold_pair q input 1 _ _ alt_node); [pose proof (tsize_fuel0 _ W); lia|exact W|exact H].
Qed.

Theorem display_pairs_ok alternate {p f} : Rep q p f -> fok f ->
  display_pairs q input rname alternate p = Ok (display_forest input rname alternate f).
Proof.
  intros R H. unfold display_pairs. destruct (collect_split R H) as (idxs & E & F2). rewrite E. cbn [bind].
  rewrite (mapM_Forall2 _ (fun t => if alternate then alt_tree rname t else tree_str input t) idxs f).
  - reflexivity.
  - eapply Forall2_imp; [|exact F2]. intros i t [W Ht]. destruct alternate.
    + exact (alt_pair_ok W Ht).
    + exact (pair_as_str_ok _ _ W Ht).
Qed.

(* the "pos" field of Serialize for Pairs: the repaired code guards the empty window as as_str does *)
Definition json_ends (fx : fixes) (p : pairs) : res (nat * nat) :=
  let ends := s <- pos_at q (p_start p) ;; i <- csub (p_end p) 1 ;; e <- pos_at q i ;; Ok (s, e) in
  if fix_json fx then if p_start p <? p_end p then ends else Ok (0, 0) else ends.

(* unfolding equations of the mutual fixpoint (cbn would expose the raw fix) *)
Lemma json_pair_S fx k i :
  json_pair fx q input rname (S k) i =
  bind (pos_at q i) (fun s =>
  bind (pair_end q i) (fun ei =>
  bind (pos_at q ei) (fun e =>
  bind (pair_as_rule q i) (fun r =>
  bind (pair_into_inner q i) (fun inner =>
  match pairs_peek inner with
  | None => bind (pair_as_str q input i) (fun str =>
            Ok (JObj [json_pos s e; ("rule"%string, JStr (rname r)); ("inner"%string, JStr str)]))
  | Some _ => bind (json_pairs fx q input rname k inner) (fun j =>
              Ok (JObj [json_pos s e; ("rule"%string, JStr (rname r)); ("inner"%string, j)]))
  end))))).
Proof. reflexivity. Qed.

Lemma json_pairs_S fx k p :
  json_pairs fx q input rname (S k) p =
  bind (json_ends fx p) (fun se =>
  bind (pairs_collect q (fuel0 q) p) (fun l =>
  bind (mapM (json_pair fx q input rname k) l) (fun js =>
  Ok (JObj [json_pos (fst se) (snd se); ("pairs"%string, JArr js)])))).
Proof. reflexivity. Qed.

Lemma json_ends_ok fx {p f} : Rep q p f -> (f <> [] \/ fix_json fx = true) -> json_ends fx p = Ok (forest_pos f).
Proof.
  intros R Hfx. unfold json_ends. destruct f as [|t f0].
  - destruct Hfx as [Hn|Hn]; [congruence|]. rewrite Hn, (Rep_empty_lt R). reflexivity.
  - destruct (Rep_ends R) as (u & EL & A & B & C & D). rewrite A, B. cbn [bind]. rewrite C. cbn [bind].
    rewrite D. cbn [bind]. unfold forest_pos. rewrite EL. destruct (fix_json fx); reflexivity.
Qed.

Lemma json_node fx k i t : PairAt q i t -> fok [t] ->
  (forall idxs, Forall2 (PairAt q) idxs (t_children t) ->
     mapM (json_pair fx q input rname k) idxs = Ok (map (json_tree input rname) (t_children t))) ->
  json_pair fx q input rname (2 + k) i = Ok (json_tree input rname t).
Proof.
  intros W H IH. change (2 + k) with (S (S k)). rewrite json_pair_S.
  rewrite (pos_at_start _ W). cbn [bind].
  rewrite (pair_end_ok _ W). cbn [bind].
  rewrite (pos_at_end _ W). cbn [bind].
  rewrite (pair_as_rule_ok _ W). cbn [bind].
  destruct (pair_into_inner_ok _ W) as (inner & E1 & R).
  rewrite E1. cbn [bind]. rewrite (pairs_peek_ok _ 0 R (Nat.le_0_l 1)).
  destruct t as [r tg ps pe [|c ch']]; cbn [t_children] in *.
  - rewrite (pair_as_str_ok _ _ W H). reflexivity.
  - rewrite json_pairs_S, (json_ends_ok fx R) by (left; discriminate). cbn [bind].
    destruct (pairs_collect_fuel0 _ R) as (l & E3 & F3). rewrite E3. cbn [bind]. rewrite (IH l F3). cbn [bind].
    destruct (Rep_ends R) as (u & EL & _). cbn [json_tree]. unfold forest_pos. rewrite EL. reflexivity.
Qed.

Theorem pair_to_json_ok fx {i t} : PairAt q i t -> fok [t] ->
  pair_to_json fx q input rname i = Ok (json_tree input rname t).
Proof.
  intros W H. apply (fold_pair q input 2 _ _ (json_node fx)); [pose proof (tsize_fuel0 _ W); lia|exact W|exact H].
Qed.

(* holds for the code as it is on every non-empty Pairs, and for the repaired code on all *)
Theorem pairs_to_json_ok fx {p f} : Rep q p f -> fok f -> (f <> [] \/ fix_json fx = true) ->
  pairs_to_json fx q input rname p = Ok (json_forest input rname f).
Proof.
  intros R H Hfx. unfold pairs_to_json.
  replace (2 * fuel0 q) with (S (S (2 * length q))) by (unfold fuel0; lia).
  rewrite json_pairs_S, (json_ends_ok fx R Hfx). cbn [bind].
  destruct (pairs_collect_fuel0 _ R) as (l & E3 & F3). rewrite E3. cbn [bind].
  rewrite (fold_forest q input 2 _ _ (json_node fx) f l (S (2 * length q))); [reflexivity| |exact F3|exact H].
  destruct R as (W & _ & _). apply Win_bound in W. lia.
Qed.

End V.
