(* C04 - Tokens and FlatPairs under every interleaving.
   Both are an index window [start, end) over the queue in which some indices carry an item (every index for
   Tokens, the Start tokens for FlatPairs); one lemma set about such windows (RepW) serves both. *)
From Coq Require Import String List Arith Lia Bool.
Import ListNotations.
Require Import PV.Iter.Queue PV.Iter.QueueFacts PV.Iter.Model PV.Iter.Spec PV.Iter.PairsProofs PV.Iter.Machines.
Open Scope list_scope.
Open Scope nat_scope.

Arguments Nat.mul : simpl never.
Arguments Nat.sub : simpl never.
Arguments Nat.add : simpl never.

Definition sub {X} (l : list X) (s e : nat) : list X := firstn (e - s) (skipn s l).

Lemma sub_all {X} (l : list X) : sub l 0 (length l) = l.
Proof. unfold sub. rewrite Nat.sub_0_r. cbn [skipn]. apply firstn_all. Qed.

Lemma Forall2_len {A B} (P : A -> B -> Prop) l1 l2 : Forall2 P l1 l2 -> length l1 = length l2.
Proof. induction 1; cbn [length]; congruence. Qed.

Lemma filter_len_le {A} (p : A -> bool) l : length (filter p l) <= length l.
Proof. induction l as [|a l IH]; [reflexivity|]. cbn [filter]. destruct (p a); cbn [length]; lia. Qed.

Lemma filter_none {A} (p : A -> bool) l : (forall x, In x l -> p x = false) -> filter p l = [].
Proof.
  induction l as [|a l IH]; intros H; [reflexivity|]. cbn [filter]. rewrite (H a (or_introl eq_refl)).
  apply IH. intros x Hx. apply H. right. exact Hx.
Qed.

Section Window.
Context {X : Type} (item : nat -> bool) (P : nat -> X -> Prop).

Definition items (s e : nat) : list nat := filter item (seq s (e - s)).

Lemma items_split s m e : s <= m -> m <= e -> items s e = items s m ++ items m e.
Proof.
  intros H1 H2. unfold items. replace (e - s) with ((m - s) + (e - m)) by lia.
  rewrite seq_app, filter_app. replace (s + (m - s)) with m by lia. reflexivity.
Qed.

Lemma items_none s e : (forall j, s <= j < e -> item j = false) -> items s e = [].
Proof. intros H. apply filter_none. intros j Hj. apply in_seq in Hj. apply H. lia. Qed.

Lemma items_one s : item s = true -> items s (S s) = [s].
Proof. intros H. unfold items. replace (S s - s) with 1 by lia. cbn [seq filter]. rewrite H. reflexivity. Qed.

Lemma items_length s e : length (items s e) <= e - s.
Proof. unfold items. rewrite <- (seq_length (e - s) s) at 2. apply filter_len_le. Qed.

(* the window [s, e) stands for L: its items carry the elements of L, and s is at an item unless it is empty *)
Definition RepW (s e : nat) (L : list X) : Prop :=
  s <= e /\ (s < e -> item s = true) /\ Forall2 P (items s e) L.

Lemma RepW_first {s e L} : RepW s e L -> s < e -> exists x L', L = x :: L' /\ P s x /\ Forall2 P (items (S s) e) L'.
Proof.
  intros (_ & H2 & H3) Hlt. rewrite (items_split s (S s) e), (items_one s (H2 Hlt)) in H3 by lia.
  inversion H3; subst. eauto.
Qed.

Lemma RepW_empty {s e} : RepW s e [] -> e <= s.
Proof.
  intros R. destruct (Nat.le_gt_cases e s) as [H|H]; [exact H|].
  destruct (RepW_first R H) as (x & L' & E & _). discriminate.
Qed.

Lemma RepW_nonempty {s e L} : RepW s e L -> L <> [] -> s < e.
Proof.
  intros (H1 & _ & H3) Hne. destruct (Nat.eq_dec s e) as [->|]; [|lia].
  rewrite items_none in H3 by (intros; lia). inversion H3; congruence.
Qed.

(* Next: the item at s goes; the new start s' is the next item, or e *)
Lemma RepW_next {s e x L} s' : RepW s e (x :: L) -> s < s' -> s' <= e ->
  (forall j, s < j < s' -> item j = false) -> (s' < e -> item s' = true) -> P s x /\ RepW s' e L.
Proof.
  intros R A B C D. assert (Hlt : s < e) by lia.
  destruct (RepW_first R Hlt) as (x' & L' & E & Hx & F). inversion E; subst x' L'.
  rewrite (items_split (S s) s' e), (items_none (S s) s') in F by (try lia; intros; apply C; lia).
  split; [exact Hx|]. split; [exact B|]. split; [exact D|exact F].
Qed.

(* NextBack: the last item e' goes and becomes the new end *)
Lemma RepW_back {s e L x} e' : RepW s e (L ++ [x]) -> s <= e' -> e' < e -> item e' = true ->
  (forall j, e' < j < e -> item j = false) -> P e' x /\ RepW s e' L.
Proof.
  intros (H1 & H2 & H3) A B C D.
  rewrite (items_split s e' e), (items_split e' (S e') e), (items_one e' C), (items_none (S e') e) in H3
    by (try lia; intros; apply D; lia).
  apply Forall2_app_inv_l in H3. destruct H3 as (L1 & L2 & F1 & F2 & E).
  inversion F2 as [|? b ? ? Hb F3]; subst. inversion F3; subst. apply app_inj_tail in E. destruct E as [-> ->].
  split; [exact Hb|]. split; [exact A|]. split; [|exact F1]. intros Hlt. apply H2. lia.
Qed.

Lemma RepW_length {s e L} : RepW s e L -> length L = length (items s e).
Proof. intros (_ & _ & H). symmetry. exact (Forall2_len _ _ _ H). Qed.

End Window.

Lemma items_all s e : items (fun _ => true) s e = seq s (e - s).
Proof. unfold items. induction (seq s (e - s)) as [|a l IH]; [reflexivity|]. cbn [filter]. rewrite IH. reflexivity. Qed.

Section T.
Variable q : list qtoken.
Variable input : string.
Notation fok := (forest_ok (is_char_boundary input) (String.length input)).
Notation wf := (wfq (is_char_boundary input) (String.length input) q).

Lemma tokens_new_ok s e : wf -> tokens_new q input s e = Ok {| k_start := s; k_end := e |}.
Proof.
  intros (_ & _ & Fo). unfold tokens_new.
  replace (forallb (fun t => is_char_boundary input (qpos t)) q) with true; [reflexivity|].
  symmetry. apply forallb_forall. intros t Ht. rewrite Forall_forall in Fo.
  destruct (Fo (qpos t)) as [A _]; [apply in_map; exact Ht|exact A].
Qed.

Lemma position_ok p : is_char_boundary input p = true -> position_new_internal input p = Ok p.
Proof. intros H. unfold position_new_internal. rewrite H. reflexivity. Qed.

Definition TokAt (i : nat) (tk : tok) : Prop := create_token q input i = Ok tk.

Lemma tokens_window f : forall s, Win q s f -> fok f -> Forall2 TokAt (seq s (2 * fsize f)) (token_list f).
Proof.
  induction f as [|r tg ps pe ch f IHc IHf] using forest_ind; intros s W Hok; [constructor|].
  destruct (Win_cons W) as (A & B & Wc & Wf).
  destruct (fok_node _ Hok) as (_ & Bs & Be & Hc & Hf).
  rewrite fsize_cons, token_list_cons.
  replace (2 * (S (fsize ch) + fsize f)) with (S (2 * fsize ch + S (2 * fsize f))) by lia.
  cbn [seq]. rewrite seq_app. cbn [seq]. constructor; [|apply Forall2_app; [exact (IHc _ Wc Hc)|constructor]].
  - unfold TokAt, create_token. rewrite (qget_nth _ A). cbn [bind]. rewrite (qget_nth _ B). cbn [bind].
    rewrite position_ok by exact Bs. reflexivity.
  - unfold TokAt, create_token. rewrite (qget_nth _ B). cbn [bind]. rewrite position_ok by exact Be. reflexivity.
  - replace (S (S s + 2 * fsize ch)) with (S (S s) + 2 * fsize ch) by lia. exact (IHf _ Wf Hf).
Qed.

Definition RepT (k : tokens) (l : list tok) : Prop :=
  k_end k <= length q /\ RepW (fun _ => true) TokAt (k_start k) (k_end k) l.

Lemma window_RepT s f : Win q s f -> fok f -> RepT {| k_start := s; k_end := s + 2 * fsize f |} (token_list f).
Proof.
  intros W H. pose proof (Win_bound W) as HB. split; [exact HB|]. cbn [k_start k_end].
  split; [lia|]. split; [reflexivity|]. rewrite items_all.
  replace (s + 2 * fsize f - s) with (2 * fsize f) by lia. exact (tokens_window f s W H).
Qed.

Lemma tokens_next_cons {k x l} : RepT k (x :: l) ->
  tokens_next q input k = Ok ({| k_start := k_start k + 1; k_end := k_end k |}, Some x) /\
  RepT {| k_start := k_start k + 1; k_end := k_end k |} l.
Proof.
  intros [HB R]. assert (Hlt := RepW_nonempty _ _ R ltac:(discriminate)).
  destruct (RepW_next _ _ (k_start k + 1) R) as [Hx R']; try reflexivity; try lia.
  unfold tokens_next. destruct (Nat.leb_spec (k_end k) (k_start k)); [lia|]. rewrite Hx.
  split; [reflexivity|split; assumption].
Qed.

Theorem tokens_run_refines k l ops : RepT k l -> run_tokens q input k ops = Ok (run_list l ops).
Proof.
  intros H. unfold run_tokens.
  apply (run_refines_on _ _ (tokens_step q input) RepT (fun _ => True)); [..|apply Forall_True|exact H]; clear.
  - intros k o _ Ho [_ R]. apply RepW_empty, Nat.leb_le in R.
    destruct o; cbn [tokens_step]; unfold tokens_next, tokens_next_back; rewrite ?R; [reflexivity..|congruence|reflexivity].
  - intros k x l _ R. destruct (tokens_next_cons R) as [E R']. cbn [tokens_step]. rewrite E. cbn [bind fst snd]. eauto.
  - intros k x l _ R. destruct (tokens_next_cons R) as [E _]. cbn [tokens_step]. rewrite E. reflexivity.
  - intros k l x _ [HB R]. assert (Hlt := RepW_nonempty _ _ R ltac:(destruct l; discriminate)).
    destruct (RepW_back _ _ (k_end k - 1) R) as [Hx R']; try reflexivity; try lia.
    cbn [tokens_step]. unfold tokens_next_back. destruct (Nat.leb_spec (k_end k) (k_start k)); [lia|].
    rewrite csub_ok by lia. cbn [bind]. rewrite Hx. cbn [bind fst snd].
    eexists. split; [reflexivity|]. split; [cbn [k_end]; lia|exact R'].
  - intros k l _ [HB R]. rewrite (RepW_length _ _ R), items_all, seq_length.
    cbn [tokens_step]. unfold tokens_len. rewrite csub_ok by apply R. reflexivity.
Qed.

Definition is_start_at (i : nat) : bool :=
  match nth_error q i with Some t => is_startb t | None => false end.

Lemma flat_is_start_ok i : i < length q -> flat_is_start q i = Ok (is_start_at i).
Proof.
  intros H. unfold flat_is_start, is_start_at, qget.
  destruct (nth_error q i) eqn:E; [reflexivity|]. apply nth_error_None in E. lia.
Qed.

Lemma scan_up_ok k : forall s, s + k <= length q ->
  exists s', scan_up q s k = Ok s' /\ s <= s' /\ s' <= s + k /\
             (forall j, s <= j < s' -> is_start_at j = false) /\ (s' < s + k -> is_start_at s' = true).
Proof.
  induction k as [|k IH]; intros s H.
  - exists s. cbn [scan_up]. repeat split; intros; lia.
  - cbn [scan_up]. rewrite flat_is_start_ok by lia. cbn [bind]. destruct (is_start_at s) eqn:E.
    + exists s. repeat split; intros; try lia. exact E.
    + destruct (IH (s + 1)) as (s' & E1 & A & B & C & D); [lia|]. exists s'. rewrite E1.
      repeat split; try lia; [|intros; apply D; lia].
      intros j Hj. destruct (Nat.eq_dec j s) as [->|]; [exact E|]. apply C. lia.
Qed.

Lemma scan_down_ok k : forall e, k <= e + 1 -> e < length q ->
  (exists i, e + 1 - k <= i /\ i <= e /\ is_start_at i = true) ->
  exists e', scan_down q e k = Ok e' /\ e + 1 - k <= e' /\ e' <= e /\ is_start_at e' = true /\
             (forall j, e' < j <= e -> is_start_at j = false).
Proof.
  induction k as [|k IH]; intros e Hk He (i & A & B & C).
  - lia.
  - cbn [scan_down]. rewrite flat_is_start_ok by lia. cbn [bind]. destruct (is_start_at e) eqn:E.
    + exists e. repeat split; try lia. exact E.
    + assert (i <> e) by (intros ->; congruence).
      rewrite csub_ok by lia. cbn [bind].
      destruct (IH (e - 1)) as (e' & E1 & A' & B' & C' & D'); [lia|lia|exists i; repeat split; try lia; exact C|].
      exists e'. rewrite E1. repeat split; try lia; [exact C'|].
      intros j Hj. destruct (Nat.eq_dec j e) as [->|]; [exact E|]. apply D'. lia.
Qed.

Lemma count_starts_ok k : forall s, s + k <= length q ->
  count_starts q s k = Ok (length (filter is_start_at (seq s k))).
Proof.
  induction k as [|k IH]; intros s H; [reflexivity|].
  cbn [count_starts]. rewrite flat_is_start_ok by lia. cbn [bind].
  replace (s + 1) with (S s) by lia. rewrite IH by lia. cbn [bind seq filter].
  destruct (is_start_at s); reflexivity.
Qed.

Definition RepF (fl : flat) (L : list tree) : Prop :=
  f_end fl <= length q /\ RepW is_start_at (fun i t => PairAt q i t /\ fok [t]) (f_start fl) (f_end fl) L.

Lemma flat_next_nil {fl} : RepF fl [] -> flat_next q fl = Ok (fl, None).
Proof. intros [_ R]. apply RepW_empty, Nat.leb_le in R. unfold flat_next. rewrite R. reflexivity. Qed.

Lemma flat_next_cons {fl t L} : RepF fl (t :: L) ->
  exists fl', flat_next q fl = Ok (fl', Some (f_start fl)) /\ (PairAt q (f_start fl) t /\ fok [t]) /\ RepF fl' L.
Proof.
  intros [HB R]. assert (Hlt := RepW_nonempty _ _ R ltac:(discriminate)).
  destruct (scan_up_ok (f_end fl - (f_start fl + 1)) (f_start fl + 1)) as (s' & E & A & B & C & D); [lia|].
  destruct (RepW_next _ _ s' R) as [Ht R']; [lia|lia|intros; apply C; lia|intros; apply D; lia|].
  unfold flat_next. destruct (Nat.leb_spec (f_end fl) (f_start fl)); [lia|]. rewrite E.
  eexists. split; [reflexivity|]. split; [exact Ht|split; assumption].
Qed.

Lemma flat_next_back_nil {fl} : RepF fl [] -> flat_next_back q fl = Ok (fl, None).
Proof. intros [_ R]. apply RepW_empty, Nat.leb_le in R. unfold flat_next_back. rewrite R. reflexivity. Qed.

Lemma flat_next_back_snoc {fl L t} : RepF fl (L ++ [t]) ->
  exists fl' i, flat_next_back q fl = Ok (fl', Some i) /\ (PairAt q i t /\ fok [t]) /\ RepF fl' L.
Proof.
  intros [HB R]. assert (Hlt := RepW_nonempty _ _ R ltac:(destruct L; discriminate)).
  destruct (scan_down_ok (f_end fl - 1 + 1 - f_start fl) (f_end fl - 1)) as (e' & E & A & B & C & D);
    [lia|lia|exists (f_start fl); repeat split; try lia; apply R; exact Hlt|].
  destruct (RepW_back _ _ e' R) as [Ht R']; [lia|lia|exact C|intros; apply D; lia|].
  unfold flat_next_back. destruct (Nat.leb_spec (f_end fl) (f_start fl)); [lia|].
  rewrite csub_ok by lia. cbn [bind]. rewrite E.
  eexists. eexists. split; [reflexivity|]. split; [exact Ht|]. split; [cbn [f_end]; lia|exact R'].
Qed.

Lemma flat_len_ok {fx fl L} : fix_flatlen fx = true -> RepF fl L -> flat_len fx q fl = Ok (length L).
Proof.
  intros Hfx [HB R]. unfold flat_len. rewrite Hfx, (RepW_length _ _ R).
  apply count_starts_ok. destruct R. lia.
Qed.

Lemma RepF_length {fl L} : RepF fl L -> length L < fuel0 q.
Proof.
  intros [HB R]. rewrite (RepW_length _ _ R). pose proof (items_length is_start_at (f_start fl) (f_end fl)).
  unfold fuel0. lia.
Qed.

Theorem flat_run_refines_on fx fl L ops : Forall (fun o => o <> Len \/ fix_flatlen fx = true) ops -> RepF fl L ->
  run_flat fx q input fl ops = Ok (run_list L ops).
Proof.
  intros HA H. unfold run_flat.
  apply (run_refines_on _ _ (flat_step fx q input) RepF (fun o => o <> Len \/ fix_flatlen fx = true));
    [..|exact HA|exact H]; clear.
  - intros fl o _ Ho R. destruct o; cbn [flat_step]; rewrite ?(flat_next_nil R), ?(flat_next_back_nil R);
      [reflexivity..|congruence|reflexivity].
  - intros fl t L _ R. destruct (flat_next_cons R) as (fl' & E & [W Ht] & R'). cbn [flat_step].
    rewrite E. cbn [bind fst snd]. rewrite (obs_pair_ok _ _ W Ht). cbn [bind]. eauto.
  - intros fl t L _ R. destruct (flat_next_cons R) as (fl' & E & [W Ht] & _). cbn [flat_step].
    rewrite E. cbn [bind fst snd]. rewrite (obs_pair_ok _ _ W Ht). reflexivity.
  - intros fl L t _ R. destruct (flat_next_back_snoc R) as (fl' & i & E & [W Ht] & R'). cbn [flat_step].
    rewrite E. cbn [bind fst snd]. rewrite (obs_pair_ok _ _ W Ht). cbn [bind]. eauto.
  - intros fl L [Ha|Ha] R; [congruence|]. cbn [flat_step]. rewrite (flat_len_ok Ha R). reflexivity.
Qed.

Lemma fok_preorder f : fok f -> Forall (fun t => fok [t]) (preorder f).
Proof.
  induction f as [|r tg ps pe ch f IHc IHf] using forest_ind; intros H; [constructor|].
  rewrite preorder_cons. destruct (fok_node _ H) as (_ & _ & _ & Hc & Hf).
  constructor; [exact (proj1 (fok_hd _ H))|]. apply Forall_app. split; auto.
Qed.

Lemma starts_preorder f : forall s, Win q s f ->
  Forall2 (PairAt q) (items is_start_at s (s + 2 * fsize f)) (preorder f).
Proof.
  induction f as [|r tg ps pe ch f IHc IHf] using forest_ind; intros s W.
  - rewrite items_none by (cbn [fsize]; intros; lia). constructor.
  - destruct (Win_cons W) as (A & B & Wc & Wf).
    assert (Hs : is_start_at s = true) by (unfold is_start_at; rewrite A; reflexivity).
    assert (He : is_start_at (S s + 2 * fsize ch) = false) by (unfold is_start_at; rewrite B; reflexivity).
    rewrite fsize_cons, preorder_cons.
    rewrite (items_split _ s (S s)), (items_one _ s Hs), (items_split _ (S s) (S s + 2 * fsize ch)),
      (items_split _ (S s + 2 * fsize ch) (S (S s) + 2 * fsize ch)), (items_none _ (S s + 2 * fsize ch))
      by (try lia; intros j Hj; replace j with (S s + 2 * fsize ch) by lia; exact He).
    cbn [app]. constructor; [exact (Win_single W)|]. apply Forall2_app; [exact (IHc _ Wc)|].
    replace (s + 2 * (S (fsize ch) + fsize f)) with (S (S s) + 2 * fsize ch + 2 * fsize f) by lia. exact (IHf _ Wf).
Qed.

Lemma flatten_RepF p f : Rep q p f -> fok f -> RepF (pairs_flatten p) (preorder f).
Proof.
  intros (W & E & _) H. unfold RepF, pairs_flatten. cbn [f_start f_end]. rewrite E.
  split; [exact (Win_bound W)|]. split; [lia|]. split.
  - intros Hlt. destruct f as [|[r tg ps pe ch] f]; [cbn [fsize] in Hlt; lia|].
    destruct (Win_cons W) as (A & _). unfold is_start_at. rewrite A. reflexivity.
  - apply Forall2_and_r; [exact (starts_preorder f _ W)|exact (fok_preorder f H)].
Qed.

End T.
