(* C04 - Pairs / Pair: the window arithmetic refines the plain forest.
   Rep p f : the Pairs value p stands for the forest f;  PairAt i t : the Pair with start index i stands for tree t. *)
From Coq Require Import List Arith Lia Bool.
Import ListNotations.
Require Import PV.Iter.Queue PV.Iter.QueueFacts PV.Iter.Model PV.Iter.Spec.
Open Scope list_scope.
Open Scope nat_scope.

Arguments Nat.mul : simpl never.
Arguments Nat.sub : simpl never.
Arguments Nat.add : simpl never.

Lemma bind_ok {A B} (a : A) (k : A -> res B) : bind (Ok a) k = k a.
Proof. reflexivity. Qed.

Lemma csub_ok a b : b <= a -> csub a b = Ok (a - b).
Proof. intros H. unfold csub. apply Nat.leb_le in H. rewrite H. reflexivity. Qed.

Lemma mapM_Forall2 {A B C} (g : A -> res B) (h : C -> B) idxs f :
  Forall2 (fun i t => g i = Ok (h t)) idxs f -> mapM g idxs = Ok (map h f).
Proof.
  induction 1 as [|i t idxs f H _ IH]; [reflexivity|].
  cbn [mapM map]. rewrite H. cbn [bind]. rewrite IH. reflexivity.
Qed.

Lemma mapM_Forall2_id {A B} (g : A -> res B) idxs f :
  Forall2 (fun i t => g i = Ok t) idxs f -> mapM g idxs = Ok f.
Proof.
  intros H. rewrite (mapM_Forall2 g (fun x => x) idxs f H). rewrite map_id. reflexivity.
Qed.

Lemma length_le_fsize f : length f <= fsize f.
Proof.
  induction f as [|t f IH]; [reflexivity|]. cbn [length fsize]. pose proof (tsize_pos t). lia.
Qed.

Section P.
Variable q : list qtoken.

Definition PairAt (i : nat) (t : tree) : Prop := Win q i [t].

Definition Rep (p : pairs) (f : list tree) : Prop :=
  Win q (p_start p) f /\ p_end p = p_start p + 2 * fsize f /\ p_count p = length f.

(* A Pairs value whose end index lies d tokens before the end of its forest; RepS 0 is Rep, by computation.
   Pairs::single as it is passes the End index as the exclusive bound (pair.rs:313) and so builds d = 1,
   which next, len and peek never notice: they only ask whether start < end. *)
Definition RepS (d : nat) (p : pairs) (f : list tree) : Prop :=
  Win q (p_start p) f /\ d + p_end p = p_start p + 2 * fsize f /\ p_count p = length f.

Lemma qget_nth {i t} : nth_error q i = Some t -> qget q i = Ok t.
Proof. intros H. unfold qget. rewrite H. reflexivity. Qed.

Lemma PairAt_facts {i t} : PairAt i t ->
  nth_error q i = Some (QStart (S i + 2 * fsize (t_children t)) (t_start t)) /\
  nth_error q (S i + 2 * fsize (t_children t)) = Some (QEnd i (t_rule t) (t_tag t) (t_end t)) /\
  Win q (S i) (t_children t) /\ S (S i) + 2 * fsize (t_children t) <= length q.
Proof.
  destruct t as [r tg ps pe ch]. cbn [t_rule t_tag t_start t_end t_children].
  intros W. destruct (Win_cons W) as (A & B & C & D).
  apply Win_bound in W. rewrite fsize_cons in W. cbn [fsize] in W. repeat split; auto. lia.
Qed.

Lemma pair_end_ok {i t} : PairAt i t -> pair_end q i = Ok (S i + 2 * fsize (t_children t)).
Proof.
  intros W. destruct (PairAt_facts W) as (A & _). unfold pair_end. rewrite (qget_nth A). reflexivity.
Qed.

Lemma pos_at_start {i t} : PairAt i t -> pos_at q i = Ok (t_start t).
Proof.
  intros W. destruct (PairAt_facts W) as (A & _). unfold pos_at. rewrite (qget_nth A). reflexivity.
Qed.

Lemma pos_at_end {i t} : PairAt i t -> pos_at q (S i + 2 * fsize (t_children t)) = Ok (t_end t).
Proof.
  intros W. destruct (PairAt_facts W) as (_ & B & _). unfold pos_at. rewrite (qget_nth B). reflexivity.
Qed.

Lemma pair_as_rule_ok {i t} : PairAt i t -> pair_as_rule q i = Ok (t_rule t).
Proof.
  intros W. destruct (PairAt_facts W) as (_ & B & _). unfold pair_as_rule.
  rewrite (pair_end_ok W). cbn [bind]. rewrite (qget_nth B). reflexivity.
Qed.

Lemma pair_as_node_tag_ok {i t} : PairAt i t -> pair_as_node_tag q i = Ok (t_tag t).
Proof.
  intros W. destruct (PairAt_facts W) as (_ & B & _). unfold pair_as_node_tag.
  rewrite (pair_end_ok W). cbn [bind]. rewrite (qget_nth B). reflexivity.
Qed.

(* the loop leaves the window as soon as the cursor reaches e, so an end that is one short counts the same trees *)
Lemma pairs_new_loop_ok d f : forall fuel s e c,
  Win q s f -> length f <= fuel -> d <= 1 -> d + e = s + 2 * fsize f ->
  pairs_new_loop q fuel s e c = Ok (c + length f).
Proof.
  induction f as [|[r tg ps pe ch] f IH]; intros fuel s e c W Hf Hd He.
  - cbn [fsize length] in *. destruct fuel; cbn [pairs_new_loop]; (destruct (Nat.ltb_spec s e); [lia|]);
      f_equal; lia.
  - cbn [length] in *. destruct fuel as [|k]; [lia|].
    destruct (Win_cons W) as (A & _ & _ & Wf).
    rewrite fsize_cons in He. cbn [pairs_new_loop]. destruct (Nat.ltb_spec s e); [|lia].
    rewrite (qget_nth A). cbn [bind].
    replace (S s + 2 * fsize ch + 1) with (S (S s) + 2 * fsize ch) by lia.
    rewrite IH; [f_equal; lia|exact Wf|lia|exact Hd|lia].
Qed.

Lemma pairs_new_short d s e f : Win q s f -> d <= 1 -> d + e = s + 2 * fsize f ->
  exists p, pairs_new q s e = Ok p /\ RepS d p f.
Proof.
  intros W Hd He. unfold pairs_new. rewrite (pairs_new_loop_ok d f); [|exact W| |exact Hd|exact He].
  - cbn [bind]. eexists. split; [reflexivity|]. unfold RepS. cbn [p_start p_end p_count]. auto.
  - pose proof (Win_bound W). pose proof (length_le_fsize f). lia.
Qed.

Lemma pairs_new_ok s f : Win q s f ->
  exists p, pairs_new q s (s + 2 * fsize f) = Ok p /\ Rep p f.
Proof. intros W. exact (pairs_new_short 0 s _ f W (Nat.le_0_l 1) eq_refl). Qed.

Lemma pair_into_inner_ok {i t} : PairAt i t -> exists p, pair_into_inner q i = Ok p /\ Rep p (t_children t).
Proof.
  intros W. destruct (PairAt_facts W) as (_ & _ & Wc & _). unfold pair_into_inner.
  rewrite (pair_end_ok W). cbn [bind]. replace (i + 1) with (S i) by lia. exact (pairs_new_ok _ _ Wc).
Qed.

Lemma pairs_peek_ok d {p f} : RepS d p f -> d <= 1 ->
  pairs_peek p = match f with [] => None | _ :: _ => Some (p_start p) end.
Proof.
  intros (W & E & C) Hd. unfold pairs_peek. destruct f as [|t f]; cbn [fsize] in E.
  - destruct (Nat.ltb_spec (p_start p) (p_end p)); [lia|reflexivity].
  - pose proof (tsize_pos t). destruct (Nat.ltb_spec (p_start p) (p_end p)); [reflexivity|lia].
Qed.

Lemma pairs_next_nil d {p} : RepS d p [] -> d <= 1 -> pairs_next q p = Ok (p, None).
Proof. intros R Hd. unfold pairs_next. rewrite (pairs_peek_ok _ R Hd). reflexivity. Qed.

Lemma pairs_next_cons d {p t f} : RepS d p (t :: f) -> d <= 1 ->
  exists p', pairs_next q p = Ok (p', Some (p_start p)) /\ RepS d p' f /\ PairAt (p_start p) t.
Proof.
  intros R Hd. unfold pairs_next. rewrite (pairs_peek_ok _ R Hd). destruct R as (W & E & C).
  destruct t as [r tg ps pe ch].
  pose proof (Win_single W) as W1.
  rewrite (pair_end_ok W1). cbn [bind t_children]. cbn [length] in C.
  rewrite csub_ok by lia. cbn [bind]. eexists. split; [reflexivity|]. split; [|exact W1].
  destruct (Win_cons W) as (_ & _ & _ & Wf).
  unfold RepS. cbn [p_start p_end p_count]. rewrite fsize_cons in E.
  replace (S (p_start p) + 2 * fsize ch + 1) with (S (S (p_start p)) + 2 * fsize ch) by lia.
  repeat split; [exact Wf|lia|lia].
Qed.

Lemma pairs_next_back_nil {p} : Rep p [] -> pairs_next_back q p = Ok (p, None).
Proof.
  intros (W & E & C). unfold pairs_next_back. cbn [fsize] in E.
  destruct (Nat.leb_spec (p_end p) (p_start p)); [reflexivity|lia].
Qed.

Lemma pairs_next_back_snoc {p f t} : Rep p (f ++ [t]) ->
  exists p' i, pairs_next_back q p = Ok (p', Some i) /\ Rep p' f /\ PairAt i t.
Proof.
  intros (W & E & C). destruct t as [r tg ps pe ch].
  destruct (Win_snoc W) as (A & B & Wf & W1).
  rewrite fsize_app, fsize_cons in E. cbn [fsize] in E.
  rewrite app_length in C. cbn [length] in C.
  unfold pairs_next_back. destruct (Nat.leb_spec (p_end p) (p_start p)); [lia|].
  rewrite csub_ok by lia. cbn [bind].
  replace (p_end p - 1) with (S (p_start p + 2 * fsize f) + 2 * fsize ch) by lia.
  rewrite (qget_nth A). cbn [bind]. rewrite csub_ok by lia. cbn [bind].
  eexists. eexists. split; [reflexivity|]. split; [|exact W1].
  unfold Rep. cbn [p_start p_end p_count]. repeat split; [exact Wf|lia].
Qed.

(* the count is right wherever the end lies *)
Lemma pairs_len_ok d {p f} : RepS d p f -> pairs_len p = length f.
Proof. intros (_ & _ & C). exact C. Qed.

Lemma pairs_is_empty_ok {p f} : Rep p f -> pairs_is_empty p = match f with [] => true | _ => false end.
Proof. intros (_ & _ & C). unfold pairs_is_empty. rewrite C. destruct f; reflexivity. Qed.

Lemma pairs_collect_ok f : forall fuel p,
  Rep p f -> length f < fuel ->
  exists idxs, pairs_collect q fuel p = Ok idxs /\ Forall2 PairAt idxs f.
Proof.
  induction f as [|t f IH]; intros fuel p R Hf; (destruct fuel as [|k]; [cbn [length] in Hf; lia|]).
  - cbn [pairs_collect]. rewrite (pairs_next_nil 0 R (Nat.le_0_l 1)). cbn [bind]. exists []. split; [reflexivity|constructor].
  - cbn [pairs_collect]. destruct (pairs_next_cons 0 R (Nat.le_0_l 1)) as (p' & E & R' & W1). rewrite E. cbn [bind].
    cbn [length] in Hf. destruct (IH k p' R') as (idxs & E2 & F2); [lia|].
    rewrite E2. cbn [bind]. eexists. split; [reflexivity|]. constructor; assumption.
Qed.

Lemma Rep_bound p f : Rep p f -> length f < fuel0 q.
Proof.
  intros (W & _ & _). apply Win_bound in W. pose proof (length_le_fsize f). unfold fuel0. lia.
Qed.

Lemma pairs_collect_fuel0 {p f} : Rep p f ->
  exists idxs, pairs_collect q (fuel0 q) p = Ok idxs /\ Forall2 PairAt idxs f.
Proof. intros R. apply pairs_collect_ok; [exact R|]. exact (Rep_bound _ _ R). Qed.

Lemma inner_collect {i t} : PairAt i t ->
  exists inner idxs, pair_into_inner q i = Ok inner /\ Rep inner (t_children t) /\
                     pairs_collect q (fuel0 q) inner = Ok idxs /\ Forall2 PairAt idxs (t_children t).
Proof.
  intros W. destruct (pair_into_inner_ok W) as (inner & E & R).
  destruct (pairs_collect_fuel0 R) as (idxs & E2 & F2). eauto 8.
Qed.

Lemma PairAt_size {i t} : PairAt i t -> 2 * tsize t <= length q.
Proof. intros W. apply Win_bound in W. cbn [fsize] in W. lia. Qed.

End P.
