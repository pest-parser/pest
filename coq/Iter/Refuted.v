(* C04 - the three statements that are FALSE of the code as it is (fixes_none), each
     - refuted by a kernel-evaluated witness (replayed on the real code by the harness),
     - proved for the repaired code (fixes_all, fixes/C04-*.patch),
     - and proved for the code as it is outside a decidable class (no next_back on Pairs::single;
       no len on FlatPairs; to_json only of a non-empty Pairs),
   so that any other violation still breaks a proof or the correspondence. *)
From Coq Require Import String List Arith Lia Bool.
Import ListNotations.
Require Import PV.Iter.Queue PV.Iter.QueueFacts PV.Iter.Model PV.Iter.Spec PV.Iter.PairsProofs PV.Iter.Machines
               PV.Iter.FlatTokens PV.Iter.Views PV.Iter.Top.
Open Scope list_scope.
Open Scope nat_scope.

Arguments Nat.mul : simpl never.
Arguments Nat.sub : simpl never.
Arguments Nat.add : simpl never.

(* Pairs::single(p) is the one-element forest [p] *)
Definition single_statement (fx : fixes) (allowed : iter_op -> Prop) : Prop :=
  forall (input : string) (q : list qtoken) (i : nat) (t : tree),
    wf_for input q -> PairAt q i t ->
    exists p, pairs_single fx q i = Ok p /\
      forall ops, Forall allowed ops -> run_pairs q input p ops = Ok (run_list [t] ops).

(* flatten() is the pre-order of the forest, under every interleaving incl. len *)
Definition flat_statement (fx : fixes) (allowed : iter_op -> Prop) : Prop :=
  forall (input : string) (q : list qtoken) (p : pairs) (f : list tree),
    wf_for input q -> Rep q p f ->
    forall ops, Forall allowed ops -> run_flat fx q input (pairs_flatten p) ops = Ok (run_list (preorder f) ops).

(* to_json is the JSON of the forest *)
Definition json_statement (fx : fixes) (allowed : list tree -> Prop) : Prop :=
  forall (input : string) (rname : nat -> string) (q : list qtoken) (p : pairs) (f : list tree),
    wf_for input q -> Rep q p f -> allowed f ->
    pairs_to_json fx q input rname p = Ok (json_forest input rname f).

Definition any_op (o : iter_op) : Prop := True.
Definition any_forest (f : list tree) : Prop := True.

Definition not_next_back (o : iter_op) : Prop := o <> NextBack.
Definition not_len (o : iter_op) : Prop := o <> Len.
Definition non_empty (f : list tree) : Prop := f <> [].

(* Pairs::single as it is stops one token short; forward iteration, len and peek are right *)
Theorem single_holds fx (allowed : iter_op -> Prop) : (forall o, allowed o -> o <> NextBack \/ fix_single fx = true) ->
  single_statement fx allowed.
Proof.
  intros Ha input q i t Hwf W. destruct (pairs_single_ok q fx i t W) as (p & E & R). exists p. split; [exact E|].
  intros ops HA. apply (pairs_run_refines q input _ p [t] ops) with (3 := R);
    [destruct (fix_single fx); lia| |exact (Win_forest_ok Hwf W)].
  eapply Forall_impl; [|exact HA]. intros o Ho. destruct (Ha o Ho) as [H|H]; [left; exact H|right; rewrite H; reflexivity].
Qed.

Theorem flat_holds fx (allowed : iter_op -> Prop) : (forall o, allowed o -> o <> Len \/ fix_flatlen fx = true) ->
  flat_statement fx allowed.
Proof.
  intros Ha input q p f Hwf R ops HA. apply flat_run_refines_on; [eapply Forall_impl; [exact Ha|exact HA]|].
  apply flatten_RepF; [exact R|exact (Rep_fok _ _ Hwf R)].
Qed.

Theorem json_holds fx (allowed : list tree -> Prop) : (forall f, allowed f -> f <> [] \/ fix_json fx = true) ->
  json_statement fx allowed.
Proof.
  intros Ha input rname q p f Hwf R Hf. apply pairs_to_json_ok; [exact R|exact (Rep_fok _ _ Hwf R)|exact (Ha f Hf)].
Qed.

Theorem single_fixed : single_statement fixes_all any_op.
Proof. apply single_holds. right. reflexivity. Qed.

Theorem flat_fixed : flat_statement fixes_all any_op.
Proof. apply flat_holds. right. reflexivity. Qed.

Theorem json_fixed : json_statement fixes_all any_forest.
Proof. apply json_holds. right. reflexivity. Qed.

Definition w_input : string := "ab"%string.

(* witness 1: a leaf pair a(0,1); single(p).next_back() hits `unreachable!()` *)
Definition w1_tree : tree := Node 0 None 0 1 [].
Definition w1_q : list qtoken := tokens_of [w1_tree].

Lemma w1_wf : wf_for w_input w1_q.
Proof. apply wfqb_iff. vm_compute. reflexivity. Qed.

Theorem C04_single_refuted : ~ single_statement fixes_none any_op.
Proof.
  intros H. destruct (H w_input w1_q 0 w1_tree w1_wf (Win_tokens_of [w1_tree])) as (p & E & HR).
  vm_compute in E. inversion E; subst p. specialize (HR [NextBack] (Forall_cons _ I (Forall_nil _))).
  vm_compute in HR. discriminate.
Qed.

(* witness 2: a(0,2,[b(0,1)]); flatten(), next_back(), len(): 0 instead of 1 *)
Definition w2_forest : list tree := [Node 0 None 0 2 [Node 1 None 0 1 []]].
Definition w2_q : list qtoken := tokens_of w2_forest.
Definition w2_p : pairs := {| p_start := 0; p_end := 4; p_count := 1 |}.

Lemma w2_wf : wf_for w_input w2_q.
Proof. apply wfqb_iff. vm_compute. reflexivity. Qed.

Lemma w2_rep : Rep w2_q w2_p w2_forest.
Proof. split; [exact (Win_tokens_of w2_forest)|]. split; reflexivity. Qed.

Theorem C04_flat_len_refuted : ~ flat_statement fixes_none any_op.
Proof.
  intros H. specialize (H w_input w2_q w2_p w2_forest w2_wf w2_rep [NextBack; Len]).
  specialize (H (Forall_cons _ I (Forall_cons _ I (Forall_nil _)))). vm_compute in H. discriminate.
Qed.

(* witness 3: the empty queue (the Ok result of a silent rule): to_json indexes out of bounds *)
Definition w3_p : pairs := {| p_start := 0; p_end := 0; p_count := 0 |}.

Lemma w3_wf : wf_for EmptyString [].
Proof. apply wfqb_iff. vm_compute. reflexivity. Qed.

Lemma w3_rep : Rep [] w3_p [].
Proof. split; [exact (Win_tokens_of [])|]. split; reflexivity. Qed.

Theorem C04_json_empty_refuted : ~ json_statement fixes_none any_forest.
Proof.
  intros H. specialize (H EmptyString (fun _ => EmptyString) [] w3_p [] w3_wf w3_rep I).
  vm_compute in H. discriminate.
Qed.

