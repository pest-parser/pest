(* C04 - a well-formed queue is the token list of a forest.  Forests are taken apart as binary trees (forest_ind);
   a window Win q s f says where the tokens of f sit in q; forest_of inverts tokens_at on every window; positions that
   never decrease are exactly spans that nest (fnested); the boolean checker decides wfq. *)
From Coq Require Import List Arith Lia Bool.
Import ListNotations.
Require Import PV.Iter.Queue.

Arguments Nat.mul : simpl never.
Arguments Nat.sub : simpl never.

Lemma tsize_eq r tg s e ch : tsize (Node r tg s e ch) = S (fsize ch).
Proof.
  reflexivity.
Qed.

Lemma ttoks_eq b r tg s e ch :
  ttoks b (Node r tg s e ch) = QStart (S b + 2 * fsize ch) s :: tokens_at (S b) ch ++ [QEnd b r tg e].
Proof.
  reflexivity.
Qed.

Lemma tposl_eq r tg s e ch : tposl (Node r tg s e ch) = s :: fposl ch ++ [e].
Proof.
  reflexivity.
Qed.

Lemma preorder_t_eq r tg s e ch : preorder_t (Node r tg s e ch) = Node r tg s e ch :: preorder ch.
Proof.
  reflexivity.
Qed.

Lemma token_list_t_eq r tg s e ch :
  token_list_t (Node r tg s e ch) = TStart r s :: token_list ch ++ [TEnd r e].
Proof.
  reflexivity.
Qed.

Lemma fsize_cons r tg s e ch f : fsize (Node r tg s e ch :: f) = S (fsize ch) + fsize f.
Proof. cbn [fsize]. rewrite tsize_eq. reflexivity. Qed.

Lemma fsize_app f1 f2 : fsize (f1 ++ f2) = fsize f1 + fsize f2.
Proof. induction f1 as [|t f1 IH]; [reflexivity|]. cbn [app fsize]. rewrite IH. lia. Qed.

Lemma tsize_pos t : 1 <= tsize t.
Proof. destruct t. rewrite tsize_eq. lia. Qed.

(* a forest is a binary tree: first child / next sibling *)
Lemma forest_ind (P : list tree -> Prop) :
  P [] ->
  (forall r tg s e ch f, P ch -> P f -> P (Node r tg s e ch :: f)) ->
  forall f, P f.
Proof.
  intros H0 H1 f. remember (fsize f) as n eqn:E. revert f E.
  induction n as [n IH] using lt_wf_ind. intros [|[r tg s e ch] f'] E; [exact H0|].
  rewrite fsize_cons in E. apply H1; eapply IH; try reflexivity; lia.
Qed.

Lemma tokens_at_cons b r tg s e ch f :
  tokens_at b (Node r tg s e ch :: f) =
  QStart (S b + 2 * fsize ch) s :: tokens_at (S b) ch ++ QEnd b r tg e :: tokens_at (S (S b) + 2 * fsize ch) f.
Proof.
  cbn [tokens_at]. rewrite ttoks_eq, tsize_eq. cbn [app]. rewrite <- app_assoc. cbn [app].
  replace (b + 2 * S (fsize ch)) with (S (S b) + 2 * fsize ch) by lia. reflexivity.
Qed.

Lemma fposl_cons r tg s e ch f : fposl (Node r tg s e ch :: f) = s :: fposl ch ++ e :: fposl f.
Proof. cbn [fposl]. rewrite tposl_eq. cbn [app]. rewrite <- app_assoc. reflexivity. Qed.

Lemma preorder_cons r tg s e ch f :
  preorder (Node r tg s e ch :: f) = Node r tg s e ch :: preorder ch ++ preorder f.
Proof. cbn [preorder]. rewrite preorder_t_eq. reflexivity. Qed.

Lemma token_list_cons r tg s e ch f :
  token_list (Node r tg s e ch :: f) = TStart r s :: token_list ch ++ TEnd r e :: token_list f.
Proof. cbn [token_list]. rewrite token_list_t_eq. cbn [app]. rewrite <- app_assoc. reflexivity. Qed.

Lemma length_tokens_at f : forall b, length (tokens_at b f) = 2 * fsize f.
Proof.
  induction f as [|r tg s e ch f IHc IHf] using forest_ind; intros b; [reflexivity|].
  rewrite tokens_at_cons, fsize_cons. cbn [length]. rewrite app_length. cbn [length]. rewrite IHc, IHf. lia.
Qed.

Lemma tokens_at_app f1 : forall b f2,
  tokens_at b (f1 ++ f2) = tokens_at b f1 ++ tokens_at (b + 2 * fsize f1) f2.
Proof.
  induction f1 as [|t f1 IH]; intros b f2.
  - cbn [app tokens_at fsize]. f_equal. lia.
  - cbn [app tokens_at fsize]. rewrite IH, <- app_assoc.
    replace (b + 2 * (tsize t + fsize f1)) with (b + 2 * tsize t + 2 * fsize f1) by lia. reflexivity.
Qed.

Lemma map_qpos_tokens_at f : forall b, map qpos (tokens_at b f) = fposl f.
Proof.
  induction f as [|r tg s e ch f IHc IHf] using forest_ind; intros b; [reflexivity|].
  rewrite tokens_at_cons, fposl_cons. cbn [map qpos]. rewrite map_app. cbn [map qpos].
  rewrite IHc, IHf. reflexivity.
Qed.

Lemma length_fposl f : length (fposl f) = 2 * fsize f.
Proof. rewrite <- (map_qpos_tokens_at f 0), map_length. apply length_tokens_at. Qed.

Lemma length_preorder f : length (preorder f) = fsize f.
Proof.
  induction f as [|r tg s e ch f IHc IHf] using forest_ind; [reflexivity|].
  rewrite preorder_cons, fsize_cons. cbn [length]. rewrite app_length. lia.
Qed.

Lemma length_token_list f : length (token_list f) = 2 * fsize f.
Proof.
  induction f as [|r tg s e ch f IHc IHf] using forest_ind; [reflexivity|].
  rewrite token_list_cons, fsize_cons. cbn [length]. rewrite app_length. cbn [length]. lia.
Qed.

(* fposl, preorder and token_list are flat_map of their per-tree function, by computation *)
Lemma fposl_app f1 f2 : fposl (f1 ++ f2) = fposl f1 ++ fposl f2.
Proof. exact (flat_map_app tposl f1 f2). Qed.

Lemma preorder_app f1 f2 : preorder (f1 ++ f2) = preorder f1 ++ preorder f2.
Proof. exact (flat_map_app preorder_t f1 f2). Qed.

Lemma token_list_app f1 f2 : token_list (f1 ++ f2) = token_list f1 ++ token_list f2.
Proof. exact (flat_map_app token_list_t f1 f2). Qed.

Definition seg {A} (q : list A) (s : nat) (l : list A) : Prop :=
  exists pre post, q = pre ++ l ++ post /\ length pre = s.

Lemma app_eq_length {A} (a a' b b' : list A) : length a = length a' -> a ++ b = a' ++ b' -> a = a' /\ b = b'.
Proof.
  revert a'. induction a as [|x a IH]; intros [|y a'] L E; try discriminate; [auto|].
  injection E as -> E. injection L as L. destruct (IH _ L E) as [-> ->]. auto.
Qed.

Lemma seg_cons {A} (q : list A) s x l : seg q s (x :: l) -> nth_error q s = Some x /\ seg q (S s) l.
Proof.
  intros (pre & post & -> & <-). split; [rewrite nth_error_app2, Nat.sub_diag by lia; reflexivity|].
  exists (pre ++ [x]), post. rewrite app_length, <- app_assoc. split; [reflexivity|cbn [length]; lia].
Qed.

Lemma seg_app {A} (q : list A) s l1 l2 : seg q s (l1 ++ l2) <-> seg q s l1 /\ seg q (s + length l1) l2.
Proof.
  split.
  - intros (pre & post & -> & L). split.
    + exists pre, (l2 ++ post). rewrite <- app_assoc. auto.
    + exists (pre ++ l1), post. rewrite app_length, <- !app_assoc. split; [reflexivity|lia].
  - intros [(pre & post & E & L) (pre2 & post2 & E2 & L2)]. exists pre, post2. split; [|exact L].
    (* both decompositions cut q at s + |l1| *)
    rewrite E, app_assoc in E2. apply app_eq_length in E2; [|rewrite app_length; lia].
    destruct E2 as [_ ->]. rewrite E, <- app_assoc. reflexivity.
Qed.

(* the tokens of forest f sit in q from index s on *)
Definition Win (q : list qtoken) (s : nat) (f : list tree) : Prop :=
  exists pre post, q = pre ++ tokens_at s f ++ post /\ length pre = s.

Lemma Win_seg q s f : Win q s f = seg q s (tokens_at s f).
Proof. reflexivity. Qed.

Lemma Win_bound {q s f} : Win q s f -> s + 2 * fsize f <= length q.
Proof. intros (pre & post & -> & L). rewrite !app_length, length_tokens_at. lia. Qed.

Lemma Win_nil q s : s <= length q -> Win q s [].
Proof.
  intros H. exists (firstn s q), (skipn s q). split.
  - cbn [tokens_at app]. symmetry. apply firstn_skipn.
  - apply firstn_length_le. exact H.
Qed.

Lemma Win_app q s f1 f2 : Win q s (f1 ++ f2) -> Win q s f1 /\ Win q (s + 2 * fsize f1) f2.
Proof.
  intros W. rewrite Win_seg, tokens_at_app in W. apply seg_app in W. rewrite length_tokens_at in W. exact W.
Qed.

Lemma Win_app_intro q s f1 f2 : Win q s f1 -> Win q (s + 2 * fsize f1) f2 -> Win q s (f1 ++ f2).
Proof.
  intros W1 W2. rewrite Win_seg, tokens_at_app. apply seg_app. rewrite length_tokens_at. split; assumption.
Qed.

Lemma Win_cons {q s r tg ps pe ch f} :
  Win q s (Node r tg ps pe ch :: f) ->
  nth_error q s = Some (QStart (S s + 2 * fsize ch) ps) /\
  nth_error q (S s + 2 * fsize ch) = Some (QEnd s r tg pe) /\
  Win q (S s) ch /\
  Win q (S (S s) + 2 * fsize ch) f.
Proof.
  intros W. rewrite Win_seg, tokens_at_cons in W.
  apply seg_cons in W. destruct W as [A W]. apply seg_app in W. destruct W as [Wc W].
  rewrite length_tokens_at in W. apply seg_cons in W. destruct W as [B Wf]. auto.
Qed.

Lemma Win_single {q s t f} : Win q s (t :: f) -> Win q s [t].
Proof. intros H. change (t :: f) with ([t] ++ f) in H. apply Win_app in H. tauto. Qed.

Lemma Win_snoc {q s f r tg ps pe ch} :
  Win q s (f ++ [Node r tg ps pe ch]) ->
  let si := s + 2 * fsize f in
  nth_error q (S si + 2 * fsize ch) = Some (QEnd si r tg pe) /\
  nth_error q si = Some (QStart (S si + 2 * fsize ch) ps) /\
  Win q s f /\ Win q si [Node r tg ps pe ch].
Proof.
  intros H si. apply Win_app in H. destruct H as [H1 H2]. fold si in H2.
  destruct (Win_cons H2) as (A & B & _ & _). auto.
Qed.

Lemma forest_fuel_Win q f : forall fuel s,
  fsize f <= fuel -> Win q s f -> forest_fuel fuel q s (s + 2 * fsize f) = f.
Proof.
  induction f as [|r tg ps pe ch f IHc IHf] using forest_ind; intros fuel s Hf W.
  - destruct fuel; [reflexivity|]. cbn [forest_fuel fsize]. destruct (Nat.ltb_spec s (s + 2 * 0)); [lia|reflexivity].
  - rewrite fsize_cons in *. destruct fuel as [|k]; [lia|].
    destruct (Win_cons W) as (A & B & Wc & Wf).
    cbn [forest_fuel]. destruct (Nat.ltb_spec s (s + 2 * (S (fsize ch) + fsize f))); [|lia].
    rewrite A, B. f_equal; [f_equal|].
    + apply IHc; [lia|exact Wc].
    + replace (s + 2 * (S (fsize ch) + fsize f)) with (S (S s) + 2 * fsize ch + 2 * fsize f) by lia.
      apply IHf; [lia|exact Wf].
Qed.

Lemma forest_of_Win q s f : Win q s f -> forest_of q s (s + 2 * fsize f) = f.
Proof.
  intros W. unfold forest_of. apply forest_fuel_Win; [lia|exact W].
Qed.

Lemma Win_tokens_of f : Win (tokens_of f) 0 f.
Proof. exists [], []. split; [|reflexivity]. unfold tokens_of. cbn [app]. rewrite app_nil_r. reflexivity. Qed.

Theorem forest_of_tokens_of f : forest_of (tokens_of f) 0 (length (tokens_of f)) = f.
Proof.
  unfold tokens_of at 2. rewrite length_tokens_at.
  exact (forest_of_Win _ 0 f (Win_tokens_of f)).
Qed.

Lemma chain_weaken lo lo' l : lo' <= lo -> chain lo l -> chain lo' l.
Proof. destruct l as [|x r]; cbn [chain]; [auto|]. intros H [A B]. split; [lia|exact B]. Qed.

Lemma chain_app_snoc l1 : forall lo x l2,
  chain lo ((l1 ++ [x]) ++ l2) <-> chain lo (l1 ++ [x]) /\ chain x l2.
Proof.
  induction l1 as [|y l1 IH]; intros lo x l2; cbn [app chain].
  - tauto.
  - rewrite (IH y x l2). tauto.
Qed.

Lemma chain_app l1 : forall lo l2, chain lo (l1 ++ l2) -> chain lo l1 /\ chain 0 l2.
Proof.
  induction l1 as [|y l1 IH]; intros lo l2; cbn [app chain].
  - intros H. split; [exact I|]. eapply chain_weaken; [|exact H]. lia.
  - intros [A B]. destruct (IH _ _ B). tauto.
Qed.

Lemma chain_Forall lo l : chain lo l -> Forall (fun x => lo <= x) l.
Proof.
  revert lo. induction l as [|x r IH]; intros lo; cbn [chain]; [constructor|].
  intros [A B]. constructor; [exact A|]. eapply Forall_impl; [|apply IH; exact B]. cbn. intros; lia.
Qed.

Lemma chainb_spec lo l : chainb lo l = true <-> chain lo l.
Proof.
  revert lo. induction l as [|x r IH]; intros lo; cbn [chainb chain]; [tauto|].
  rewrite andb_true_iff, Nat.leb_le, IH. tauto.
Qed.

Lemma pos_okb_spec bounds len p : pos_okb bounds len p = true <-> pos_ok bounds len p.
Proof. unfold pos_okb, pos_ok. rewrite andb_true_iff, Nat.leb_le. tauto. Qed.

Lemma forallb_pos_ok bounds len l :
  forallb (pos_okb bounds len) l = true <-> Forall (pos_ok bounds len) l.
Proof.
  rewrite forallb_forall, Forall_forall. split; intros H x Hx.
  - apply pos_okb_spec. auto.
  - apply pos_okb_spec. auto.
Qed.

Lemma forest_okb_spec bounds len f : forest_okb bounds len f = true <-> forest_ok bounds len f.
Proof. unfold forest_okb, forest_ok. rewrite andb_true_iff, chainb_spec, forallb_pos_ok. tauto. Qed.

(* the spans of f lie, in order and without overlap, between lo and hi;
   children lie inside their parent *)
Inductive fnested : nat -> list tree -> nat -> Prop :=
| fn_nil lo hi : lo <= hi -> fnested lo [] hi
| fn_cons lo hi r tg s e ch f :
    lo <= s -> fnested s ch e -> fnested e f hi -> fnested lo (Node r tg s e ch :: f) hi.

Lemma chain_fnested f : forall lo hi, chain lo (fposl f ++ [hi]) <-> fnested lo f hi.
Proof.
  induction f as [|r tg s e ch f IHc IHf] using forest_ind; intros lo hi.
  - cbn [fposl app chain]. split.
    + intros [H _]. constructor. exact H.
    + intros H. inversion H. tauto.
  - rewrite fposl_cons. cbn [app chain].
    replace ((fposl ch ++ e :: fposl f) ++ [hi]) with ((fposl ch ++ [e]) ++ (fposl f ++ [hi]))
      by (rewrite <- !app_assoc; reflexivity).
    rewrite chain_app_snoc, IHc, IHf. split.
    + intros (A & B & C). constructor; assumption.
    + intros H. inversion H; subst. tauto.
Qed.

Lemma fnested_le lo f hi : fnested lo f hi -> lo <= hi.
Proof.
  induction 1 as [lo hi H|lo hi r tg s e ch f H1 _ IH1 _ IH2]; lia.
Qed.

Lemma fnested_weaken lo lo' hi hi' f : lo' <= lo -> hi <= hi' -> fnested lo f hi -> fnested lo' f hi'.
Proof.
  intros Hl Hh H. revert lo' hi' Hl Hh.
  induction H as [lo hi H|lo hi r tg s e ch f H1 Hc IHc Hf IHf]; intros lo' hi' Hl Hh.
  - constructor. lia.
  - constructor; [lia|exact Hc|]. apply IHf; lia.
Qed.

Lemma chain_snoc lo l hi : chain lo l -> Forall (fun x => x <= hi) l -> lo <= hi -> chain lo (l ++ [hi]).
Proof.
  revert lo. induction l as [|x r IH]; intros lo; cbn [chain app]; [tauto|].
  intros [A B] F _. inversion F; subst. split; [exact A|]. apply IH; assumption.
Qed.

Lemma forest_ok_nested {bounds len f} : forest_ok bounds len f -> fnested 0 f len.
Proof.
  intros [C F]. apply chain_fnested, chain_snoc; [exact C| |lia].
  eapply Forall_impl; [|exact F]. intros x [_ H]. exact H.
Qed.

Lemma forest_ok_cons bounds len r tg s e ch f :
  forest_ok bounds len (Node r tg s e ch :: f) ->
  s <= e /\ pos_ok bounds len s /\ pos_ok bounds len e /\ forest_ok bounds len ch /\ forest_ok bounds len f.
Proof.
  intros [C F]. rewrite fposl_cons in *. cbn [chain] in C. destruct C as [_ C].
  pose proof (chain_Forall _ _ C) as G. apply Forall_app in G. destruct G as [_ G]. inversion G as [|? ? Hse _]; subst.
  apply chain_app in C. destruct C as [Cc [_ Cf]].
  inversion F as [|? ? Fs F']; subst. apply Forall_app in F'. destruct F' as [Fc Fe]. inversion Fe as [|? ? Fe1 Ff]; subst.
  apply (chain_weaken _ 0) in Cc, Cf; try lia. unfold forest_ok. tauto.
Qed.

Lemma forest_ok_app bounds len f1 f2 :
  forest_ok bounds len (f1 ++ f2) -> forest_ok bounds len f1 /\ forest_ok bounds len f2.
Proof.
  intros [C F]. rewrite fposl_app in *. apply chain_app in C. apply Forall_app in F.
  unfold forest_ok. tauto.
Qed.

Lemma fnested_first_last lo hi f u t : fnested lo (f ++ [u]) hi -> hd_error (f ++ [u]) = Some t ->
  lo <= t_start t /\ t_start t <= t_end u /\ t_end u <= hi.
Proof.
  revert lo t. induction f as [|a f IH]; intros lo t H Ht;
    inversion H as [|? ? r tg s e ch f0 H1 Hc Hf]; subst; injection Ht as <-; apply fnested_le in Hc.
  - inversion Hf. cbn [t_start t_end]. lia.
  - cbn [app] in *. destruct (f ++ [u]) as [|t2 g] eqn:E; [destruct f; discriminate|].
    destruct (IH e t2 Hf eq_refl) as (A & B & C). cbn [t_start]. lia.
Qed.

Lemma wfq_iff bounds len q : wfq bounds len q <-> exists F, q = tokens_of F /\ forest_ok bounds len F.
Proof.
  unfold wfq, forest_ok. split.
  - intros ((F & ->) & H). exists F. unfold tokens_of in H. rewrite map_qpos_tokens_at in H. auto.
  - intros (F & -> & H). unfold tokens_of. rewrite map_qpos_tokens_at. eauto.
Qed.

Lemma Win_forest_ok {bounds len q s f} : wfq bounds len q -> Win q s f -> forest_ok bounds len f.
Proof.
  intros (_ & C & Fo) (pre & post & -> & L).
  rewrite !map_app, map_qpos_tokens_at in *. split.
  - apply chain_app in C. destruct C as [_ C]. apply chain_app in C. tauto.
  - apply Forall_app in Fo. destruct Fo as [_ Fo]. apply Forall_app in Fo. tauto.
Qed.

Lemma wfq_pos_ok bounds len q i t : wfq bounds len q -> nth_error q i = Some t -> pos_ok bounds len (qpos t).
Proof.
  intros (_ & _ & Fo) H. rewrite Forall_forall in Fo. apply Fo. apply in_map. eapply nth_error_In. exact H.
Qed.

Lemma opt_nat_eqb_eq a b : opt_nat_eqb a b = true <-> a = b.
Proof.
  destruct a, b; cbn [opt_nat_eqb]; try (split; [discriminate|discriminate]); try tauto.
  rewrite Nat.eqb_eq. split; [intros ->; reflexivity|intros H; inversion H; reflexivity].
Qed.

Lemma qtoken_eqb_eq a b : qtoken_eqb a b = true <-> a = b.
Proof.
  destruct a, b; cbn [qtoken_eqb]; try (split; [discriminate|discriminate]).
  - rewrite andb_true_iff, !Nat.eqb_eq. split; [intros [-> ->]; reflexivity|intros H; inversion H; auto].
  - rewrite !andb_true_iff, !Nat.eqb_eq, opt_nat_eqb_eq.
    split; [intros [[[-> ->] ->] ->]; reflexivity|intros H; inversion H; auto].
Qed.

Lemma list_eqb_eq {A} (eqb : A -> A -> bool) (H : forall a b, eqb a b = true <-> a = b) l1 :
  forall l2, list_eqb eqb l1 l2 = true <-> l1 = l2.
Proof.
  induction l1 as [|x r IH]; intros [|y r2]; cbn [list_eqb]; try (split; [discriminate|discriminate]); try tauto.
  rewrite andb_true_iff, H, IH. split; [intros [-> ->]; reflexivity|intros E; inversion E; auto].
Qed.

Theorem wfqb_iff bounds len q : wfqb bounds len q = true <-> wfq bounds len q.
Proof.
  unfold wfqb, wfq. rewrite !andb_true_iff, (list_eqb_eq _ qtoken_eqb_eq), chainb_spec, forallb_pos_ok. split.
  - intros [[E C] Fo]. split; [eexists; exact E|tauto].
  - intros ((F & ->) & C & Fo). rewrite forest_of_tokens_of. tauto.
Qed.

(* an equivalent grammar-style reading of "balanced, properly nested, cross-links correct":
   the queue segment starting at index b is a sequence of  Start .. inner segment .. End  groups
   whose Start points at its End and vice versa *)
Inductive wf_seg : nat -> list qtoken -> Prop :=
| wf_seg_nil b : wf_seg b []
| wf_seg_node b inner rest r tg p1 p2 :
    wf_seg (S b) inner -> wf_seg (S (S b) + length inner) rest ->
    wf_seg b (QStart (S b + length inner) p1 :: inner ++ QEnd b r tg p2 :: rest).

Lemma wf_seg_tokens_at f : forall b, wf_seg b (tokens_at b f).
Proof.
  induction f as [|r tg s e ch f IHc IHf] using forest_ind; intros b; [constructor|].
  rewrite tokens_at_cons. rewrite <- (length_tokens_at ch (S b)). constructor; [apply IHc|].
  rewrite length_tokens_at. apply IHf.
Qed.

Lemma wf_seg_inv b l : wf_seg b l -> exists f, l = tokens_at b f.
Proof.
  induction 1 as [b|b inner rest r tg p1 p2 H1 IH1 H2 IH2].
  - exists []. reflexivity.
  - destruct IH1 as [fc E1]. destruct IH2 as [fr E2]. subst inner rest.
    exists (Node r tg p1 p2 fc :: fr). rewrite tokens_at_cons, length_tokens_at. reflexivity.
Qed.

Theorem balanced_iff q : (exists f, q = tokens_of f) <-> wf_seg 0 q.
Proof.
  split.
  - intros [f ->]. apply wf_seg_tokens_at.
  - apply wf_seg_inv.
Qed.

Lemma wfq_intro bounds len f :
  chain 0 (fposl f) -> Forall (pos_ok bounds len) (fposl f) -> wfq bounds len (tokens_of f).
Proof. intros C Fo. apply wfq_iff. exists f. split; [reflexivity|split; assumption]. Qed.

(* a closed rule: Start at index b' = b + 2|f|, its children after it, then the End *)
Lemma tokens_at_snoc b f r tg s e ch :
  tokens_at b (f ++ [Node r tg s e ch]) =
  tokens_at b f ++ QStart (S (b + 2 * fsize f) + 2 * fsize ch) s :: tokens_at (S (b + 2 * fsize f)) ch
               ++ [QEnd (b + 2 * fsize f) r tg e].
Proof. rewrite tokens_at_app, tokens_at_cons. cbn [tokens_at]. reflexivity. Qed.

(* tag_node rewrites the tag of the last End token *)
Lemma tokens_at_retag_last b f r tg tg' s e ch :
  tokens_at b (f ++ [Node r tg' s e ch]) =
  removelast (tokens_at b (f ++ [Node r tg s e ch])) ++ [QEnd (b + 2 * fsize f) r tg' e].
Proof.
  rewrite !tokens_at_snoc, !app_comm_cons, !app_assoc, removelast_last. reflexivity.
Qed.

Lemma fposl_snoc f r tg s e ch : fposl (f ++ [Node r tg s e ch]) = fposl f ++ s :: fposl ch ++ [e].
Proof. rewrite fposl_app, fposl_cons. cbn [fposl]. reflexivity. Qed.
