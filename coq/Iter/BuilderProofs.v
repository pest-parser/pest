(* C04 - PairsBuilder: push_node / build produce exactly tokens_at of the node list (or panic exactly when
   some span is not an ascending range on char boundaries); on ordered spans the result is a wfq queue
   whose forest_of is the node list; every node list is reachable by a call sequence. *)
From Coq Require Import String List Arith Lia Bool.
Import ListNotations.
Require Import PV.Iter.Queue PV.Iter.QueueFacts PV.Iter.Model PV.Iter.Spec PV.Iter.PairsProofs PV.Iter.Machines.
Open Scope list_scope.
Open Scope nat_scope.

Arguments Nat.mul : simpl never.
Arguments Nat.sub : simpl never.
Arguments Nat.add : simpl never.

Section B.
Variable input : string.
Notation fok := (forest_ok (is_char_boundary input) (String.length input)).

(* every node's span passes the assert! in push_node *)
Fixpoint spans_okb_t (t : tree) : bool :=
  match t with
  | Node _ _ s e ch =>
    (match str_get input s e with Some _ => true | None => false end) &&
    (fix go (l : list tree) : bool := match l with [] => true | c :: l' => spans_okb_t c && go l' end) ch
  end.
Fixpoint spans_okb (f : list tree) : bool :=
  match f with [] => true | t :: f' => spans_okb_t t && spans_okb f' end.

Lemma spans_okb_cons r tg s e ch f :
  spans_okb (Node r tg s e ch :: f) =
  (match str_get input s e with Some _ => true | None => false end) && spans_okb ch && spans_okb f.
Proof. reflexivity. Qed.

Lemma push_node_eq acc r tg s e ch :
  push_node input acc (Node r tg s e ch) =
  match str_get input s e with
  | None => Panic
  | Some _ =>
    bind (push_nodes input ch (acc ++ [QStart 0 s])) (fun q2 =>
    bind (set_end q2 (length acc) (length q2)) (fun q3 =>
    Ok (q3 ++ [QEnd (length acc) r tg e])))
  end.
Proof. reflexivity. Qed.

Lemma set_end_mid acc : forall p rest ei,
  set_end (acc ++ QStart 0 p :: rest) (length acc) ei = Ok (acc ++ QStart ei p :: rest).
Proof.
  induction acc as [|a acc IH]; intros p rest ei; [reflexivity|].
  cbn [app length set_end]. rewrite IH. destruct a; reflexivity.
Qed.

Theorem push_nodes_spec f : forall acc,
  push_nodes input f acc = if spans_okb f then Ok (acc ++ tokens_at (length acc) f) else Panic.
Proof.
  induction f as [|r tg s e ch f IHc IHf] using forest_ind; intros acc.
  - cbn [push_nodes spans_okb tokens_at]. rewrite app_nil_r. reflexivity.
  - cbn [push_nodes]. rewrite push_node_eq, spans_okb_cons.
    destruct (str_get input s e) as [x|]; [|reflexivity]. cbn [andb].
    rewrite IHc. destruct (spans_okb ch); [|reflexivity]. cbn [bind andb].
    rewrite app_length. cbn [length].
    replace ((acc ++ [QStart 0 s]) ++ tokens_at (length acc + 1) ch)
      with (acc ++ QStart 0 s :: tokens_at (length acc + 1) ch) by (rewrite <- app_assoc; reflexivity).
    rewrite set_end_mid. cbn [bind]. rewrite IHf. destruct (spans_okb f); [|reflexivity].
    f_equal. rewrite tokens_at_cons. rewrite !app_length. cbn [length]. rewrite length_tokens_at.
    rewrite <- ?app_assoc. cbn [app]. rewrite <- ?app_assoc. cbn [app].
    replace (length acc + 1) with (S (length acc)) by lia.
    replace (length acc + S (2 * fsize ch)) with (S (length acc) + 2 * fsize ch) by lia.
    replace (length acc + S (2 * fsize ch + 1)) with (S (S (length acc)) + 2 * fsize ch) by lia.
    replace (S (length acc) + 2 * fsize ch + 1) with (S (S (length acc)) + 2 * fsize ch) by lia.
    reflexivity.
Qed.

Lemma fok_spans_ok f : fok f -> spans_okb f = true.
Proof.
  induction f as [|r tg s e ch f IHc IHf] using forest_ind; intros H; [reflexivity|].
  destruct (fok_node _ H) as (A & B & C & Hc & Hf).
  rewrite spans_okb_cons, (str_get_ok input s e A B C), IHc, IHf by assumption. reflexivity.
Qed.

(* PairsBuilder::build on nodes whose spans are ordered boundaries *)
Theorem build_ok f : fok f ->
  exists p, build input f = Ok (tokens_of f, p) /\ Rep (tokens_of f) p f /\
            wfq (is_char_boundary input) (String.length input) (tokens_of f) /\
            forest_of (tokens_of f) 0 (length (tokens_of f)) = f.
Proof.
  intros H. unfold build, build_queue. rewrite push_nodes_spec, (fok_spans_ok _ H). cbn [app length bind].
  fold (tokens_of f).
  destruct (pairs_new_ok (tokens_of f) 0 f (Win_tokens_of f)) as (p & E & R).
  exists p. split; [|split; [exact R|split; [apply wfq_iff; eauto|apply forest_of_tokens_of]]].
  replace (length (tokens_of f)) with (0 + 2 * fsize f) by (symmetry; apply length_tokens_at). rewrite E. reflexivity.
Qed.

(* the documented panic of push_node, exactly *)
Theorem build_panics_iff f : build_queue input f = Panic <-> spans_okb f = false.
Proof.
  unfold build_queue. rewrite push_nodes_spec. destruct (spans_okb f); split; intros; congruence.
Qed.

End B.

Lemma run_bop_with_eq r s e inner nodes :
  run_bop (BRuleWith r s e inner) nodes =
  bind (run_bops inner []) (fun ch => Ok (nodes ++ [Node r None s e ch])).
Proof. reflexivity. Qed.

Lemma set_last_tag_cons2 n m l t :
  set_last_tag (n :: m :: l) t = bind (set_last_tag (m :: l) t) (fun rest' => Ok (n :: rest')).
Proof. destruct n. reflexivity. Qed.

Lemma set_last_tag_snoc nodes : forall r tg s e ch t,
  set_last_tag (nodes ++ [Node r tg s e ch]) t = Ok (nodes ++ [Node r (Some t) s e ch]).
Proof.
  induction nodes as [|n nodes IH]; intros r tg s e ch t; [reflexivity|].
  cbn [app]. destruct (nodes ++ [Node r tg s e ch]) eqn:E; [destruct nodes; discriminate|].
  rewrite set_last_tag_cons2, <- E, IH. reflexivity.
Qed.

Lemma run_bops_app l1 : forall l2 acc,
  run_bops (l1 ++ l2) acc = bind (run_bops l1 acc) (fun acc' => run_bops l2 acc').
Proof.
  induction l1 as [|o l1 IH]; intros l2 acc; [reflexivity|].
  cbn [app run_bops]. destruct (run_bop o acc); cbn [bind]; [apply IH|reflexivity|reflexivity].
Qed.

(* the canonical call sequence of a node list: rule_with(..) [.tag(..)] per node *)
Fixpoint bops_of_tree (t : tree) : list bop :=
  match t with
  | Node r tg s e ch =>
    BRuleWith r s e ((fix go (l : list tree) : list bop := match l with [] => [] | c :: l' => bops_of_tree c ++ go l' end) ch)
    :: match tg with Some x => [BTag x] | None => [] end
  end.
Fixpoint bops_of (f : list tree) : list bop :=
  match f with [] => [] | t :: f' => bops_of_tree t ++ bops_of f' end.

Lemma bops_of_cons r tg s e ch f :
  bops_of (Node r tg s e ch :: f) =
  (BRuleWith r s e (bops_of ch) :: match tg with Some x => [BTag x] | None => [] end) ++ bops_of f.
Proof. reflexivity. Qed.

Theorem run_bops_of f : forall acc, run_bops (bops_of f) acc = Ok (acc ++ f).
Proof.
  induction f as [|r tg s e ch f IHc IHf] using forest_ind; intros acc.
  - cbn [bops_of run_bops]. rewrite app_nil_r. reflexivity.
  - rewrite bops_of_cons, run_bops_app.
    assert (E : run_bops (BRuleWith r s e (bops_of ch) :: match tg with Some x => [BTag x] | None => [] end) acc
                = Ok (acc ++ [Node r tg s e ch])).
    { cbn [run_bops]. rewrite run_bop_with_eq, IHc. cbn [bind app].
      destruct tg as [x|]; cbn [run_bops run_bop]; [|reflexivity].
      rewrite set_last_tag_snoc. reflexivity. }
    rewrite E. cbn [bind]. rewrite IHf, <- app_assoc. reflexivity.
Qed.

(* every node list is the result of some PairsBuilder call sequence *)
Corollary builder_reaches_every_forest f : exists ops, run_bops ops [] = Ok f.
Proof. exists (bops_of f). apply run_bops_of. Qed.

(* `.tag()` before any rule panics *)
Lemma tag_before_rule_panics t rest : run_bops (BTag t :: rest) [] = Panic.
Proof. reflexivity. Qed.
