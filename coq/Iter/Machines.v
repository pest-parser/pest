(* C04 - the interleaving theorems: under every finite sequence of Next / NextBack / Len / Peek the Pairs,
   FlatPairs and Tokens machines return what the plain list machine returns on the forest, its pre-order
   and its token list, and never panic.  Here: the refinement theorem for any double-ended machine, the fold
   behind the recursive views of a pair, and the Pairs machine; FlatPairs and Tokens are in FlatTokens.v. *)
From Coq Require Import String List Arith Lia Bool.
Import ListNotations.
Require Import PV.Iter.Queue PV.Iter.QueueFacts PV.Iter.Model PV.Iter.Spec PV.Iter.PairsProofs.
Open Scope list_scope.
Open Scope nat_scope.

Arguments Nat.mul : simpl never.
Arguments Nat.sub : simpl never.
Arguments Nat.add : simpl never.

Lemma last_error_snoc {X} (l : list X) x : last_error (l ++ [x]) = Some x.
Proof.
  induction l as [|y l IH]; [reflexivity|].
  cbn [app]. destruct (l ++ [x]) eqn:E; [destruct l; discriminate|]. exact IH.
Qed.

Lemma list_snoc_cases {X} (l : list X) : l = [] \/ exists l' x, l = l' ++ [x].
Proof.
  destruct l as [|a l]; [left; reflexivity|right].
  destruct (exists_last (l := a :: l)) as (l' & x & E); [discriminate|]. eauto.
Qed.

Lemma Forall2_imp {A B} (P Q : A -> B -> Prop) l1 l2 :
  (forall a b, P a b -> Q a b) -> Forall2 P l1 l2 -> Forall2 Q l1 l2.
Proof. intros H. induction 1; constructor; auto. Qed.

Lemma Forall2_and_r {A B} (P : A -> B -> Prop) (Q : B -> Prop) l1 l2 :
  Forall2 P l1 l2 -> Forall Q l2 -> Forall2 (fun a b => P a b /\ Q b) l1 l2.
Proof.
  induction 1 as [|a b l1 l2 H _ IH]; intros HQ; [constructor|].
  inversion HQ; subst. constructor; auto.
Qed.

(* A machine refines the list machine as soon as it is right at the two ends of the list it stands for:
   on the empty list, at the head of a non-empty one (Next, Peek), at its last element (NextBack), and for Len.
   `allowed` restricts the operations, for the code as it is. *)
Section Deque.
Variables (S X : Type).
Variable step : S -> iter_op -> res (S * answer X).
Variable R : S -> list X -> Prop.
Variable allowed : iter_op -> Prop.
Hypothesis Hnil : forall s o, allowed o -> o <> Len -> R s [] -> step s o = Ok (s, AItem None).
Hypothesis Hnext : forall s x l, allowed Next -> R s (x :: l) ->
  exists s', step s Next = Ok (s', AItem (Some x)) /\ R s' l.
Hypothesis Hpeek : forall s x l, allowed Peek -> R s (x :: l) -> step s Peek = Ok (s, AItem (Some x)).
Hypothesis Hback : forall s l x, allowed NextBack -> R s (l ++ [x]) ->
  exists s', step s NextBack = Ok (s', AItem (Some x)) /\ R s' l.
Hypothesis Hlen : forall s l, allowed Len -> R s l -> step s Len = Ok (s, ALen (length l)).

Lemma step_refines s l o : allowed o -> R s l ->
  exists s', step s o = Ok (s', snd (list_step l o)) /\ R s' (fst (list_step l o)).
Proof.
  intros Ho H. destruct o; cbn [list_step fst snd].
  - destruct l as [|x l]; [|exact (Hnext s x l Ho H)].
    exists s. split; [apply Hnil; [exact Ho|discriminate|exact H]|exact H].
  - destruct (list_snoc_cases l) as [->|(l' & x & ->)].
    + exists s. split; [apply Hnil; [exact Ho|discriminate|exact H]|exact H].
    + rewrite removelast_last, last_error_snoc. exact (Hback s l' x Ho H).
  - exists s. split; [exact (Hlen s l Ho H)|exact H].
  - exists s. split; [|exact H]. destruct l as [|x l]; [|exact (Hpeek s x l Ho H)].
    apply Hnil; [exact Ho|discriminate|exact H].
Qed.

Theorem run_refines_on : forall ops s l, Forall allowed ops -> R s l -> run_machine step s ops = Ok (run_list l ops).
Proof.
  induction ops as [|o ops IH]; intros s l HA H; [reflexivity|].
  inversion HA as [|? ? Ho HA']; subst.
  cbn [run_machine run_list]. destruct (step_refines s l o Ho H) as (s' & E & H').
  rewrite E. cbn [bind fst snd]. destruct (list_step l o) as [l' a] eqn:EL. cbn [fst snd] in *.
  rewrite (IH s' l' HA' H'). reflexivity.
Qed.
End Deque.

Lemma Forall_True {A} (l : list A) : Forall (fun _ => True) l.
Proof. apply Forall_forall. intros; exact I. Qed.

Section O.
Variable q : list qtoken.
Variable input : string.

Notation fok := (forest_ok (is_char_boundary input) (String.length input)).

Lemma str_get_ok s e :
  s <= e -> is_char_boundary input s = true -> is_char_boundary input e = true ->
  str_get input s e = Some (substring s (e - s) input).
Proof.
  intros H A B. unfold str_get. apply Nat.leb_le in H. rewrite H, A, B. reflexivity.
Qed.

Lemma slice_ok s e :
  s <= e -> is_char_boundary input s = true -> is_char_boundary input e = true ->
  slice input s e = Ok (substring s (e - s) input).
Proof. intros H A B. unfold slice. rewrite str_get_ok by assumption. reflexivity. Qed.

Lemma fok_node {t f} : fok (t :: f) ->
  t_start t <= t_end t /\ is_char_boundary input (t_start t) = true /\ is_char_boundary input (t_end t) = true /\
  fok (t_children t) /\ fok f.
Proof.
  destruct t. intros H. apply forest_ok_cons in H. unfold pos_ok in H. tauto.
Qed.

Lemma fok_hd {t f} : fok (t :: f) -> fok [t] /\ fok f.
Proof. intros H. change (t :: f) with ([t] ++ f) in H. apply forest_ok_app in H. exact H. Qed.

Lemma fok_each f : fok f -> Forall (fun t => fok [t]) f.
Proof.
  induction f as [|t f IH]; intros H; constructor; destruct (fok_hd H); auto.
Qed.

Lemma pair_as_span_ok {i t} : PairAt q i t -> fok [t] -> pair_as_span q input i = Ok (t_start t, t_end t).
Proof.
  intros W H. destruct (fok_node H) as (A & B & C & _).
  unfold pair_as_span. rewrite (pos_at_start _ W). cbn [bind].
  rewrite (pair_end_ok _ W). cbn [bind]. rewrite (pos_at_end _ W). cbn [bind].
  rewrite str_get_ok by assumption. reflexivity.
Qed.

Lemma pair_as_str_ok {i t} : PairAt q i t -> fok [t] -> pair_as_str q input i = Ok (tree_str input t).
Proof.
  intros W H. destruct (fok_node H) as (A & B & C & _).
  unfold pair_as_str. rewrite (pos_at_start _ W). cbn [bind].
  rewrite (pair_end_ok _ W). cbn [bind]. rewrite (pos_at_end _ W). cbn [bind].
  apply slice_ok; assumption.
Qed.

(* Every recursive view of a pair (walk, Debug, {:#}, to_json) is a fold over the token tree: g spends c units of
   fuel per level and maps itself over the inner pairs.  It is enough to show that g computes h at one node, given
   that it does so on the children. *)
Section Fold.
Context {B : Type} (c : nat) (g : nat -> nat -> res B) (h : tree -> B).
Hypothesis Hnode : forall k i t, PairAt q i t -> fok [t] ->
  (forall idxs, Forall2 (PairAt q) idxs (t_children t) -> mapM (g k) idxs = Ok (map h (t_children t))) ->
  g (c + k) i = Ok (h t).

Lemma fold_forest f : forall idxs fuel,
  c * fsize f <= fuel -> Forall2 (PairAt q) idxs f -> fok f -> mapM (g fuel) idxs = Ok (map h f).
Proof.
  induction f as [|r tg ps pe ch f IHc IHf] using forest_ind; intros idxs fuel Hfuel F2 Hok.
  - inversion F2; subst. reflexivity.
  - inversion F2 as [|i t idxs' f' W F2']; subst. rewrite fsize_cons in Hfuel.
    destruct (fok_node Hok) as (_ & _ & _ & Hc & Hf).
    cbn [mapM map]. rewrite (IHf idxs' fuel); [|nia|exact F2'|exact Hf].
    replace fuel with (c + (fuel - c)) at 1 by nia.
    rewrite (Hnode _ _ _ W (proj1 (fok_hd Hok))); [reflexivity|].
    intros l Hl. apply IHc; [nia|exact Hl|exact Hc].
Qed.

Lemma fold_pair i t fuel : c * tsize t <= fuel -> PairAt q i t -> fok [t] -> g fuel i = Ok (h t).
Proof.
  intros Hfuel W H.
  assert (E : mapM (g fuel) [i] = Ok (map h [t])).
  { apply fold_forest; [cbn [fsize]; lia|constructor; [exact W|constructor]|exact H]. }
  cbn [mapM map] in E. destruct (g fuel i); cbn [bind] in E; congruence.
Qed.
End Fold.

Lemma walk_node k i t : PairAt q i t -> fok [t] ->
  (forall idxs, Forall2 (PairAt q) idxs (t_children t) ->
     mapM (walk_pair q input k) idxs = Ok (map (fun t => t) (t_children t))) ->
  walk_pair q input (1 + k) i = Ok t.
Proof.
  intros W H IH. change (1 + k) with (S k). cbn [walk_pair].
  rewrite (pair_as_rule_ok _ W). cbn [bind].
  rewrite (pair_as_node_tag_ok _ W). cbn [bind].
  rewrite (pair_as_span_ok W H). cbn [bind].
  destruct (inner_collect _ W) as (inner & ci & E1 & _ & E2 & F3).
  rewrite E1. cbn [bind]. rewrite E2. cbn [bind]. rewrite (IH ci F3), map_id. destruct t; reflexivity.
Qed.

Lemma walk_forest f idxs fuel :
  fsize f <= fuel -> Forall2 (PairAt q) idxs f -> fok f -> mapM (walk_pair q input fuel) idxs = Ok f.
Proof.
  intros Hfuel F2 H. rewrite (fold_forest 1 _ _ walk_node f idxs fuel); [rewrite map_id; reflexivity|lia|exact F2|exact H].
Qed.

Lemma tsize_fuel0 {i t} : PairAt q i t -> tsize t <= fuel0 q.
Proof. intros W. pose proof (PairAt_size _ W). unfold fuel0. lia. Qed.

Lemma walk_pair_ok {i t} : PairAt q i t -> fok [t] -> walk_pair q input (fuel0 q) i = Ok t.
Proof.
  intros W H. apply (fold_pair 1 _ _ walk_node); [pose proof (tsize_fuel0 W); lia|exact W|exact H].
Qed.

Lemma obs_pair_ok {i t} : PairAt q i t -> fok [t] -> obs_pair q input (Some i) = Ok (Some t).
Proof. intros W H. unfold obs_pair. rewrite (walk_pair_ok W H). reflexivity. Qed.

End O.

Section M.
Variable q : list qtoken.
Variable input : string.

Notation fok := (forest_ok (is_char_boundary input) (String.length input)).

Definition RepP (p : pairs) (f : list tree) : Prop := Rep q p f /\ fok f.

Theorem pairs_run_refines d p f ops : d <= 1 -> Forall (fun o => o <> NextBack \/ d = 0) ops ->
  RepS q d p f -> fok f -> run_pairs q input p ops = Ok (run_list f ops).
Proof.
  intros Hd HA R H. unfold run_pairs.
  apply (run_refines_on _ _ (pairs_step q input) (fun p f => RepS q d p f /\ fok f) (fun o => o <> NextBack \/ d = 0));
    [..|exact HA|split; assumption]; clear p f ops HA R H.
  - intros p o Ha Ho [R _]. destruct o; cbn [pairs_step]; [| |congruence|].
    + rewrite (pairs_next_nil _ _ R Hd). reflexivity.
    + destruct Ha as [Ha| ->]; [congruence|]. rewrite (pairs_next_back_nil _ R). reflexivity.
    + rewrite (pairs_peek_ok _ _ R Hd). reflexivity.
  - intros p t f _ [R H]. destruct (pairs_next_cons _ _ R Hd) as (p' & E & R' & W).
    destruct (fok_hd _ H) as [H1 H2]. cbn [pairs_step]. rewrite E. cbn [bind fst snd].
    rewrite (obs_pair_ok _ _ W H1). exists p'. split; [reflexivity|split; assumption].
  - intros p t f _ [R H]. cbn [pairs_step]. rewrite (pairs_peek_ok _ _ R Hd).
    rewrite (obs_pair_ok _ _ (Win_single (proj1 R)) (proj1 (fok_hd _ H))). reflexivity.
  - intros p f t [Ha| ->] [R H]; [congruence|]. destruct (pairs_next_back_snoc _ R) as (p' & i & E & R' & W).
    apply forest_ok_app in H. destruct H as [H1 H2]. cbn [pairs_step]. rewrite E. cbn [bind fst snd].
    rewrite (obs_pair_ok _ _ W H2). exists p'. split; [reflexivity|split; assumption].
  - intros p f _ [R _]. cbn [pairs_step]. rewrite (pairs_len_ok _ _ R). reflexivity.
Qed.

Theorem pairs_interleaving_refines p f ops : RepP p f ->
  run_pairs q input p ops = Ok (run_list f ops).
Proof.
  intros [R H]. apply (pairs_run_refines 0); [lia| |exact R|exact H].
  eapply Forall_impl; [|apply Forall_True]. auto.
Qed.

End M.
