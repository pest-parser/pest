(* C18 - the recogniser is sound and complete for RFC 8259:
     rfc_parse_correct : rfc_parse w = Some d  <->  json_doc w d
   hence json_doc is functional (the document of a text is unique) and json_text is decidable.
   Pure list reasoning over Rfc8259.v / Recogniser.v, no PEG. *)
From Coq Require Import List Arith NArith Bool Lia ZifyN ZifyBool.
Import ListNotations.
Require Import PV.Comb.PState PV.Comb.Bytes PV.Comb.Utf8 PV.Comb.Utf8b PV.Peg.Ast.
Require Import PV.Json.Rfc8259 PV.Json.Recogniser PV.Json.Utf8Facts PV.Json.RfcLexical PV.Json.RfcString PV.Json.RfcList.

Lemma psound_scan sc (T : list byte -> Prop) :
  (forall l n, sc l = Some n -> exists s r, split_at l n s r /\ T s) ->
  psound (p_scan sc) (fun o s sp => T s /\ sp = (o, o + length s)).
Proof.
  intros H o l sp n. unfold p_scan. destruct (sc l) as [k|] eqn:E; [|discriminate]. intros [= <- <-].
  destruct (H _ _ E) as (s & r & Sp & Ts). exists s, r. split; [exact Sp|]. destruct Sp as [_ <-]. auto.
Qed.
Lemma psound_lit s0 : psound (p_lit s0) (fun _ s _ => s = s0).
Proof.
  intros o l a n. unfold p_lit. destruct (prefixb s0 l) eqn:E; [|discriminate]. intros [= <- <-].
  apply prefixb_iff in E. destruct E as [r ->]. exists s0, r. split; [split; reflexivity|reflexivity].
Qed.
(* the text of a member without the surrounding whitespace:  string ws ":" ws value *)
Definition mem_rel (VR : nat -> list byte -> jdoc -> Prop) (o : nat) (c : list byte) (m : nat * nat * jdoc) : Prop :=
  exists k w2 w1' v, c = k ++ w2 ++ 58%N :: w1' ++ v /\ jstring k /\ ws w2 /\ ws w1' /\
    VR (o + length k + length w2 + 1 + length w1') v (snd m) /\ fst m = (o, o + length k).

Lemma p_pair_sound pv VR : psound pv VR -> psound (p_pair pv) (mem_rel VR).
Proof.
  intros Hv. unfold p_pair. eapply psound_weaken.
  - apply psound_map. apply psound_seq; [apply psound_seq; [apply (psound_scan scan_string jstring scan_string_sound)|apply psound_byte]|exact Hv].
  - intros o s m ([[sp u] d] & -> & H). cbn [fst snd] in H. destruct H as (s12 & w1' & v & -> & W1' & H & Rv).
    cbn [fst snd] in H. destruct H as (k & w2 & c & -> & W2 & (Jk & Esp) & Ec). cbn [fst snd] in *. subst sp c.
    exists k, w2, w1', v. split; [rewrite <- !app_assoc; reflexivity|]. repeat split; auto.
    cbn [snd]. rewrite !app_length in Rv. cbn [length] in Rv. off_eq Rv.
Qed.

Lemma elements_of_seps : forall o s ds, seps jdoc jvalue o s ds -> jelements o s ds.
Proof.
  induction 1 as [o s d (w1 & v & w2 & -> & W1 & W2 & Jv)|o s d r ds (w1 & v & w2 & -> & W1 & W2 & Jv) _ IH].
  - apply els_one. now constructor.
  - apply els_cons; [now constructor|exact IH].
Qed.
Lemma member_of_elem o s m : Elem _ (mem_rel jvalue) o s m -> jmember o s m.
Proof.
  intros (w1 & c & w2' & -> & W1 & W2' & (k & w2 & w1' & v & -> & Jk & W2 & W1' & Jv & Em)).
  destruct m as [[ks ke] d]. cbn [fst snd] in *. injection Em as -> ->.
  match goal with |- jmember _ ?s _ => replace s with (w1 ++ k ++ w2 ++ 58%N :: (w1' ++ v ++ w2'))
    by (rewrite <- !app_assoc; cbn [app]; rewrite <- !app_assoc; reflexivity) end.
  apply mem_intro; auto; constructor; auto; off_eq Jv.
Qed.
Lemma members_of_seps : forall o s ms, seps _ (mem_rel jvalue) o s ms -> jmembers o s ms.
Proof.
  induction 1 as [o s m E|o s m r ms E _ IH].
  - apply mems_one. now apply member_of_elem.
  - apply mems_cons; [now apply member_of_elem|exact IH].
Qed.

Lemma wrap_end o (op cl : byte) s : o + length (op :: s ++ [cl]) = o + length s + 2.
Proof. len. lia. Qed.
Theorem parse_value_sound : forall f, psound (parse_value f) jvalue.
Proof.
  induction f as [|f IH]; [intros o l d n; discriminate|].
  intros o l d n. cbn [parse_value]. revert o l d n. repeat apply psound_or.
  - unfold p_string. eapply psound_weaken; [apply psound_map; apply (psound_scan scan_string jstring scan_string_sound)|].
    intros o s d (sp & -> & Js & ->). now constructor.
  - unfold p_number. eapply psound_weaken; [apply psound_map; apply (psound_scan scan_number jnumber scan_number_sound)|].
    intros o s d (sp & -> & Js & ->). now constructor.
  - eapply psound_weaken; [apply psound_span; apply (p_list_sound _ (mem_rel jvalue)); apply p_pair_sound; exact IH|].
    intros o s d (ms & -> & [(-> & w1 & W1 & ->)|(body & -> & Sp)]).
    + rewrite wrap_end. now constructor.
    + rewrite wrap_end. constructor. now apply members_of_seps.
  - eapply psound_weaken; [apply psound_span; apply (p_list_sound _ jvalue); exact IH|].
    intros o s d (ds & -> & [(-> & w1 & W1 & ->)|(body & -> & Sp)]).
    + rewrite wrap_end. now constructor.
    + rewrite wrap_end. constructor. now apply elements_of_seps.
  - unfold p_bool. eapply psound_weaken.
    + apply psound_span. apply (psound_or _ _ (fun _ s (b : bool) => (b = true /\ s = lit_true) \/ (b = false /\ s = lit_false))).
      * eapply psound_weaken; [apply psound_map; apply psound_lit|]. intros o s b (u & -> & ->). now left.
      * eapply psound_weaken; [apply psound_map; apply psound_lit|]. intros o s b (u & -> & ->). now right.
    + intros o s d (b & -> & [[-> ->]|[-> ->]]); constructor.
  - unfold p_null. eapply psound_weaken; [apply psound_span; apply psound_lit|].
    intros o s d (u & -> & ->). constructor.
Qed.

Theorem rfc_parse_sound w d : rfc_parse w = Some d -> json_doc w d.
Proof.
  unfold rfc_parse, json_doc. destruct (skip_ws_sound w) as (w1 & r1 & Sp1 & W1). rewrite (split_skipn _ _ _ _ Sp1).
  destruct (parse_value _ _ r1) as [[d' n]|] eqn:Pv; [|discriminate].
  destruct (parse_value_sound _ _ _ _ _ Pv) as (v & r2 & Sp2 & Jv).
  pose proof (split_app _ _ _ _ _ _ _ Sp1 Sp2) as Sp12. rewrite (split_skipn _ _ _ _ Sp12).
  destruct (skip_ws_sound r2) as (w2 & r3 & Sp3 & W2).
  destruct (Nat.eqb_spec (skip_ws w + n + skip_ws r2) (length w)) as [E|E]; [|discriminate]. intros [= <-].
  pose proof (split_app _ _ _ _ _ _ _ Sp12 Sp3) as [Ew Lw].
  assert (Hl : length w = length ((w1 ++ v) ++ w2) + length r3) by (rewrite Ew at 1; now rewrite app_length).
  assert (r3 = []) by (destruct r3; [reflexivity|cbn [length] in Hl; blia]). subst r3. rewrite app_nil_r in Ew.
  rewrite Ew, <- app_assoc. constructor; auto. destruct Sp1 as [_ L1]. cbn [Nat.add]. rewrite L1. exact Jv.
Qed.

Lemma p_or_l {A} (p1 p2 : P A) o l r : p1 o l = Some r -> p_or p1 p2 o l = Some r.
Proof. intros H. unfold p_or. now rewrite H. Qed.
Lemma p_or_r {A} (p1 p2 : P A) o l : p1 o l = None -> p_or p1 p2 o l = p2 o l.
Proof. intros H. unfold p_or. now rewrite H. Qed.

Lemma jnumber_head s : jnumber s -> exists b t, s = b :: t /\ (b = 45%N \/ is_digit b).
Proof.
  intros (m & i & f & e & -> & Jm & Ji & _ & _). destruct Jm as [->| <-].
  - destruct (jint_head i (f ++ e) Ji) as (b & t & E & Hb). exists b, t. split; [exact E|now right].
  - eexists. eexists. split; [reflexivity|now left].
Qed.
Lemma jvalue_head o s d : jvalue o s d -> exists b t, s = b :: t /\ is_wsb b = false.
Proof.
  intros [| | |? ? Jn|? ? Js| | | | ]; try (eexists; eexists; split; [reflexivity|reflexivity]).
  - destruct (jnumber_head _ Jn) as (b & t & -> & Hb). exists b, t. split; [reflexivity|].
    unfold is_wsb, ws_bytes, is_digit in *. cbn [existsb]. lia.
  - destruct (jstring_head _ Js) as (t & ->). eexists. eexists. split; reflexivity.
Qed.

(* what the induction over the derivation establishes *)
Definition Pv (o : nat) (s : list byte) (d : jdoc) : Prop :=
  forall f tl, delim tl -> length (s ++ tl) <= f -> parse_value (S f) o (s ++ tl) = Some (d, length s).
Definition VR (o : nat) (s : list byte) (d : jdoc) : Prop := jvalue o s d /\ Pv o s d.
Definition MR (o : nat) (c : list byte) (m : nat * nat * jdoc) : Prop :=
  (exists b t, c = b :: t /\ is_wsb b = false) /\
  forall f tl, delim tl -> length (c ++ tl) < f -> p_pair (parse_value f) o (c ++ tl) = Some (m, length c).

Lemma VR_head o c a tl : VR o c a -> head_in is_wsb (c ++ tl) = false.
Proof. intros [J _]. destruct (jvalue_head _ _ _ J) as (b & t & -> & Hb). exact Hb. Qed.
Lemma VR_complete f o c a tl : VR o c a -> delim tl -> length (c ++ tl) < f -> parse_value f o (c ++ tl) = Some (a, length c).
Proof. intros [_ H] D Hl. destruct f as [|f]; [lia|]. apply H; [exact D|lia]. Qed.
Lemma MR_head o c a tl : MR o c a -> head_in is_wsb (c ++ tl) = false.
Proof. intros [(b & t & -> & Hb) _]. exact Hb. Qed.
Lemma closer_93 : closer 93%N. Proof. repeat split. Qed.
Lemma closer_125 : closer 125%N. Proof. repeat split. Qed.

Scheme jvalue_mind := Minimality for jvalue Sort Prop
  with jelement_mind := Minimality for jelement Sort Prop
  with jelements_mind := Minimality for jelements Sort Prop
  with jmember_mind := Minimality for jmember Sort Prop
  with jmembers_mind := Minimality for jmembers Sort Prop.
Combined Scheme json_mutind from jvalue_mind, jelement_mind, jelements_mind, jmember_mind, jmembers_mind.

(* In `value` the alternatives are tried in the order string, number, object, array, bool, null.  The first byte of a
   value decides: on a given first byte the earlier alternatives fail, and later ones are not reached, by computation. *)
Theorem parse_complete :
  (forall o s d, jvalue o s d -> Pv o s d) /\
  (forall o s d, jelement o s d -> Elem _ VR o s d) /\
  (forall o s ds, jelements o s ds -> seps _ VR o s ds) /\
  (forall o s m, jmember o s m -> Elem _ MR o s m) /\
  (forall o s ms, jmembers o s ms -> seps _ MR o s ms).
Proof.
  apply json_mutind.
  - (* null *) intros o f tl D Hl. reflexivity.
  - (* true *) intros o f tl D Hl. reflexivity.
  - (* false *) intros o f tl D Hl. reflexivity.
  - (* number *) intros o s Jn f tl D Hl. cbn [parse_value]. do 4 apply p_or_l.
    destruct (jnumber_head _ Jn) as (b & t & E & Hb). rewrite p_or_r.
    + unfold p_number, p_map, p_scan. now rewrite (scan_number_complete s tl Jn D).
    + rewrite E. unfold p_string, p_map, p_scan, scan_string. cbn [app]. rewrite head_is_cons.
      replace (N.eqb 34 b) with false by (unfold is_digit in Hb; lia). reflexivity.
  - (* string *) intros o s Js f tl D Hl. cbn [parse_value]. do 5 apply p_or_l. unfold p_string, p_map, p_scan.
    now rewrite (scan_string_complete s tl Js).
  - (* [] *) intros o w1 W1 f tl D Hl. cbn [parse_value app]. do 2 apply p_or_l. rewrite p_or_r by reflexivity. unfold p_span.
    rewrite <- app_assoc. cbn [app]. rewrite (p_list_complete_empty (parse_value f) 91%N 93%N o w1 tl closer_93 W1) by (intros; destruct f; reflexivity).
    f_equal. f_equal; [f_equal|]; len; blia.
  - (* [ elements ] *) intros o s ds _ Sp f tl D Hl. cbn [parse_value app]. do 2 apply p_or_l. rewrite p_or_r by reflexivity. unfold p_span.
    rewrite <- app_assoc. cbn [app].
    rewrite (p_list_complete jdoc VR (parse_value f) f (VR_complete f) VR_head 93%N tl closer_93 91%N o s ds Sp) by (len; blia).
    f_equal. f_equal; [f_equal|]; len; blia.
  - (* {} *) intros o w1 W1 f tl D Hl. cbn [parse_value app]. do 3 apply p_or_l. rewrite p_or_r by reflexivity. unfold p_span.
    rewrite <- app_assoc. cbn [app]. rewrite (p_list_complete_empty (p_pair (parse_value f)) 123%N 125%N o w1 tl closer_125 W1) by reflexivity.
    f_equal. f_equal; [f_equal|]; len; blia.
  - (* { members } *) intros o s ms _ Sp f tl D Hl. cbn [parse_value app]. do 3 apply p_or_l. rewrite p_or_r by reflexivity. unfold p_span.
    rewrite <- app_assoc. cbn [app].
    rewrite (p_list_complete _ MR (p_pair (parse_value f)) f (fun o' c a tl' H => proj2 H f tl') MR_head 125%N tl closer_125 123%N o s ms Sp) by (len; blia).
    f_equal. f_equal; [f_equal|]; len; blia.
  - (* element *) intros o w1 v w2 d W1 Jv Hv W2. exists w1, v, w2. repeat split; auto.
  - intros o s d _ E. now apply seps_one.
  - intros o s d r ds _ E _ Sp. now apply seps_cons.
  - (* member *) intros o w1 k w2 s d W1 Jk W2 _ (w1' & v & w2' & -> & W1' & W2' & Jv & Hv).
    exists w1, (k ++ w2 ++ 58%N :: w1' ++ v), w2'. split; [assoc|].
    split; [exact W1|]. split; [exact W2'|]. split.
    + destruct (jstring_head _ Jk) as (t & ->). eexists. eexists. split; reflexivity.
    + intros f tl D Hl. replace ((k ++ w2 ++ 58%N :: w1' ++ v) ++ tl) with (k ++ w2 ++ 58%N :: w1' ++ v ++ tl) in * by assoc.
      assert (R1 : runs (p_scan scan_string) (o + length w1) (k ++ w2 ++ 58%N :: w1' ++ v ++ tl)
                     (o + length w1, o + length w1 + length k) (length k) (w2 ++ 58%N :: w1' ++ v ++ tl)).
      { apply runs_app. unfold p_scan. now rewrite (scan_string_complete k _ Jk). }
      pose proof (runs_seq _ _ _ _ _ _ _ _ _ _ _ R1 W2 eq_refl (runs_byte 58%N _ _)) as R2.
      destruct (runs_seq _ (parse_value f) _ _ _ _ _ _ d (length v) tl R2 W1' (VR_head _ _ _ tl (conj Jv Hv))) as [R3 _].
      { replace (o + length w1 + (length k + length w2 + 1) + length w1') with (o + length w1 + length k + length w2 + 1 + length w1') by lia.
        apply runs_app, VR_complete; [exact (conj Jv Hv)|exact D|revert Hl; len; blia]. }
      unfold p_pair, p_map. unfold byte in *. rewrite R3. cbn [fst snd]. f_equal. f_equal. len. blia.
  - intros o s m _ E. now apply seps_one.
  - intros o s m r ms _ E _ Sp. now apply seps_cons.
Qed.

Theorem rfc_parse_complete w d : json_doc w d -> rfc_parse w = Some d.
Proof.
  intros J. destruct (proj1 (proj2 parse_complete) _ _ _ J) as (w1 & v & w2 & -> & W1 & W2 & Jv & Hv). cbn [Nat.add] in Hv.
  unfold rfc_parse. destruct (jvalue_head _ _ _ Jv) as (b & t & Ev & Hb).
  rewrite (skip_ws_complete w1 (v ++ w2) W1) by (rewrite Ev; exact Hb). rewrite skipn_app_exact.
  assert (Dw : delim w2) by (rewrite <- (app_nil_r w2); apply delim_ws_app; [exact W2|exact I]).
  assert (Hl : length (v ++ w2) <= length (w1 ++ v ++ w2)) by (len; blia).
  pose proof (Hv _ w2 Dw Hl) as Hp. unfold byte in *. rewrite Hp.
  rewrite skipn_add, skipn_app_exact, skipn_app_exact.
  pose proof (skip_ws_complete w2 [] W2 eq_refl) as Hw2. rewrite app_nil_r in Hw2. unfold byte in *. rewrite Hw2.
  replace (length w1 + length v + length w2 =? length (w1 ++ v ++ w2)) with true; [reflexivity|].
  symmetry. apply Nat.eqb_eq. len. blia.
Qed.

Theorem rfc_parse_correct w d : rfc_parse w = Some d <-> json_doc w d.
Proof. split; [apply rfc_parse_sound|apply rfc_parse_complete]. Qed.
Corollary json_doc_unique w d d' : json_doc w d -> json_doc w d' -> d = d'.
Proof. intros H1 H2. apply rfc_parse_complete in H1, H2. congruence. Qed.
Corollary json_text_iff w : json_text w <-> rfc_accepts w = true.
Proof.
  unfold json_text, rfc_accepts. split.
  - intros [d J]. now rewrite (rfc_parse_complete _ _ J).
  - destruct (rfc_parse w) as [d|] eqn:E; [|discriminate]. intros _. exists d. now apply rfc_parse_sound.
Qed.
