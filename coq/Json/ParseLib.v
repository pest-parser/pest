(* C18 - parsers: the compositional library for NON-ATOMIC rules (implicit whitespace between the elements of a
   sequence and between the rounds of a repetition, nodes emitted), relating expressions to the parser
   combinators of Recogniser.v (p_seq, p_or, p_rep, ...).

   parslt B e pa tr : on every valid UTF-8 suffix l of the input of length < B, at its offset p, the expression e
                      (NonAtomic, emit = true, any stack) matches exactly n bytes and yields the forest tr a when
                      pa p l = Some (a, n), and fails when pa p l = None; moreover pa stays inside l and ends on a
                      char boundary.  The strict bound serves the recursion value -> array/object -> value.
   The grammar enters through Hskip only: its implicit whitespace is skip_ws.                              *)
From Coq Require Import List Arith NArith ZArith Bool Lia String ZifyN ZifyBool.
Import ListNotations.
Require Import PV.Comb.PState PV.Comb.Bytes PV.Comb.Utf8 PV.Comb.Utf8b PV.Iter.Queue PV.Peg.Ast PV.Peg.Spec.
Require Import PV.Json.Rfc8259 PV.Json.Recogniser PV.Json.Utf8Facts PV.Json.EvalFacts PV.Json.LexLib.

Lemma skip_ws_stays l : valid_utf8 l -> skip_ws l <= List.length l /\ valid_utf8 (skipn (skip_ws l) l).
Proof.
  induction l as [|b r IH]; intros V; [split; [apply le_n|exact V]|]. cbn [skip_ws]. destruct (is_wsb b) eqn:W; [|split; [apply Nat.le_0_l|exact V]].
  assert (Hb : ascii b) by (revert W; unfold is_wsb, ws_bytes, ascii; cbn [existsb]; lia).
  destruct (IH (valid_tail b r V Hb)) as [Hl Vr]. split; [cbn [List.length]; lia|exact Vr].
Qed.

Section Parse.
Variable G : grammar.
Variable uprop : name -> option (N -> bool).
Variable w : list byte.
Notation E := (evals G uprop w).
Notation at_ := (at_ w).
Hypothesis Hskip : forall emit p l sg, at_ p l -> skips G uprop w NonAtomic emit p sg (SMatch (p + skip_ws l) sg []).
Local Set Default Proof Using "Hskip".

Definition pres {A : Type} (p : nat) (sg : list str) (tr : A -> list tree) (o : option (A * nat)) : sres :=
  match o with Some (a, n) => SMatch (p + n) sg (tr a) | None => SFail end.
Definition stays {A : Type} (pa : P A) (p : nat) (l : list byte) : Prop :=
  forall a n, pa p l = Some (a, n) -> n <= List.length l /\ valid_utf8 (skipn n l).
Definition parslt {A : Type} (B : nat) (e : expr) (pa : P A) (tr : A -> list tree) : Prop :=
  forall p l sg, List.length l < B -> at_ p l -> valid_utf8 l ->
    E NonAtomic true e p sg (pres p sg tr (pa p l)) /\ stays pa p l.

Lemma parslt_weaken {A} B B' e (pa : P A) tr : B' <= B -> parslt B e pa tr -> parslt B' e pa tr.
Proof. intros H L p l sg Hl. apply L. lia. Qed.
Lemma parslt_ext {A} B e (pa pa' : P A) tr : parslt B e pa tr -> (forall p l, pa p l = pa' p l) -> parslt B e pa' tr.
Proof. intros L H p l sg Hl Ha V. unfold stays. rewrite <- (H p l). now apply L. Qed.
(* the forest function only matters on actual results *)
Lemma parslt_tr {A} B e (pa : P A) tr tr' :
  parslt B e pa tr -> (forall p l a n, pa p l = Some (a, n) -> tr' a = tr a) -> parslt B e pa tr'.
Proof.
  intros L H p l sg Hl Ha V. destruct (L p l sg Hl Ha V) as [E1 S1]. split; [|exact S1].
  unfold pres in *. destruct (pa p l) as [[a n]|] eqn:Pa; [|exact E1]. rewrite (H p l a n Pa). exact E1.
Qed.

Lemma ws_step emit p l sg : at_ p l -> valid_utf8 l ->
  skips G uprop w NonAtomic emit p sg (SMatch (p + skip_ws l) sg []) /\ at_ (p + skip_ws l) (skipn (skip_ws l) l) /\
  valid_utf8 (skipn (skip_ws l) l) /\ skip_ws l <= List.length l.
Proof.
  intros Ha V. destruct (skip_ws_stays l V) as [Hl Vs]. split; [now apply Hskip|]. split; [now apply at_skip|]. split; assumption.
Qed.

Lemma parslt_lit B s : Forall ascii s -> parslt B (EStr s) (p_lit s) (fun _ => []).
Proof.
  intros As p l sg _ Ha V. unfold p_lit, stays. split.
  - generalize (ev_lit G uprop w NonAtomic true s p l sg Ha). unfold scan_lit, lex, pres. destruct (prefixb s l); auto.
  - intros a n. destruct (prefixb s l) eqn:Pf; [|discriminate]. intros [= _ <-]. now apply lit_stays.
Qed.
Lemma parslt_byte B b : ascii b -> parslt B (EStr [b]) (p_byte b) (fun _ => []).
Proof. intros Hb. apply (parslt_lit B [b]). constructor; [exact Hb|constructor]. Qed.

Lemma parslt_seq_gen {A1 A2} B B2 e1 e2 (p1 : P A1) (p2 : P A2) t1 t2 :
  parslt B e1 p1 t1 -> parslt B2 e2 p2 t2 ->
  (forall p l a n, List.length l < B -> p1 p l = Some (a, n) -> n <= List.length l -> List.length l - n < B2) ->
  parslt B (ESeq e1 e2) (p_seq p1 p2) (fun ab => t1 (fst ab) ++ [] ++ t2 (snd ab)).
Proof.
  intros L1 L2 HB p l sg Hl Ha V. destruct (L1 p l sg Hl Ha V) as [E1 S1]. unfold p_seq, stays.
  destruct (p1 p l) as [[a n1]|] eqn:P1.
  - destruct (S1 a n1 P1) as [Hn1 V1]. pose proof (HB p l a n1 Hl P1 Hn1) as Hb2.
    destruct (ws_step true _ _ sg (at_skip w p l n1 Ha) V1) as (Sk & Ha2 & V2 & Hw).
    set (ws1 := skip_ws (skipn n1 l)) in *. rewrite <- skipn_add in Ha2, V2. rewrite skipn_length in Hw.
    assert (Hl2 : List.length (skipn (n1 + ws1) l) < B2) by (rewrite skipn_length; lia).
    destruct (L2 (p + n1 + ws1) (skipn (n1 + ws1) l) sg Hl2 Ha2 V2) as [E2 S2].
    destruct (p2 (p + n1 + ws1) (skipn (n1 + ws1) l)) as [[b n2]|] eqn:P2.
    + split.
      * unfold pres in *. cbn [fst snd]. replace (p + (n1 + ws1 + n2)) with (p + n1 + ws1 + n2) by lia.
        exact (ev_seq G uprop w E1 Sk E2).
      * intros x n [= <- <-]. destruct (S2 b n2 P2) as [Hn2 V3]. rewrite skipn_length in Hn2.
        rewrite <- skipn_add in V3. split; [lia|exact V3].
    + split; [|discriminate]. exact (ev_seq G uprop w E1 Sk E2).
  - split; [|discriminate]. apply ev_seq_fail_l. exact E1.
Qed.
Lemma parslt_seq {A1 A2} B e1 e2 (p1 : P A1) (p2 : P A2) t1 t2 :
  parslt B e1 p1 t1 -> parslt B e2 p2 t2 -> parslt B (ESeq e1 e2) (p_seq p1 p2) (fun ab => t1 (fst ab) ++ [] ++ t2 (snd ab)).
Proof. intros L1 L2. apply (parslt_seq_gen B B e1 e2 p1 p2 t1 t2 L1 L2). intros; lia. Qed.

Lemma parslt_or {A} B e1 e2 (p1 p2 : P A) tr : parslt B e1 p1 tr -> parslt B e2 p2 tr -> parslt B (EChoice e1 e2) (p_or p1 p2) tr.
Proof.
  intros L1 L2 p l sg Hl Ha V. destruct (L1 p l sg Hl Ha V) as [E1 S1]. destruct (L2 p l sg Hl Ha V) as [E2 S2].
  unfold p_or, stays. destruct (p1 p l) as [[a n]|] eqn:P1.
  - split; [apply ev_choice_l; exact E1|]. intros x k [= <- <-]. eapply S1; eassumption.
  - split; [eapply ev_choice_r; [exact E1|exact E2]|exact S2].
Qed.
Lemma parslt_span {A A'} B e (pa : P A) (f : nat -> nat -> A -> A') t t' :
  parslt B e pa t -> (forall o o' a, t' (f o o' a) = t a) -> parslt B e (p_span f pa) t'.
Proof.
  intros L H p l sg Hl Ha V. destruct (L p l sg Hl Ha V) as [E1 S1]. unfold p_span, stays, pres in *.
  destruct (pa p l) as [[a n]|]; [|split; [exact E1|discriminate]].
  split; [rewrite H; exact E1|]. intros x k [= <- <-]. exact (S1 a n eq_refl).
Qed.
Lemma parslt_map {A A'} B e (pa : P A) (f : A -> A') t t' :
  parslt B e pa t -> (forall a, t' (f a) = t a) -> parslt B e (p_map f pa) t'.
Proof. intros L H. exact (parslt_span B e pa (fun _ _ => f) t t' L (fun _ _ => H)). Qed.

Lemma more_loop {A} B x (px : P A) tx :
  parslt B x px tx -> (forall p l a n, px p l = Some (a, n) -> 0 < n) ->
  forall n l p sg acc, List.length l < n -> List.length l < B -> at_ p l -> valid_utf8 l ->
    exists r m, p_more px n p l = Some (r, m) /\
      reps G uprop w NonAtomic true x p sg acc (SMatch (p + m) sg (acc ++ flat_map tx r)) /\
      m <= List.length l /\ valid_utf8 (skipn m l).
Proof.
  intros L Pos. induction n as [|n IH]; intros l p sg acc Hn Hl Ha V; [lia|].
  destruct (ws_step true p l sg Ha V) as (Sk & Ha1 & V1 & Hw). set (ws1 := skip_ws l) in *.
  assert (Hl1 : List.length (skipn ws1 l) < B) by (rewrite skipn_length; lia).
  destruct (L (p + ws1) (skipn ws1 l) sg Hl1 Ha1 V1) as [E1 S1]. cbn [p_more]. fold ws1.
  destruct (px (p + ws1) (skipn ws1 l)) as [[a k]|] eqn:Px.
  - destruct (S1 a k Px) as [Hk V2]. rewrite skipn_length in Hk. rewrite <- skipn_add in V2. pose proof (Pos _ _ _ _ Px) as Hpos.
    pose proof (at_skip w (p + ws1) (skipn ws1 l) k Ha1) as Ha2. rewrite <- skipn_add in Ha2.
    assert (Hn2 : List.length (skipn (ws1 + k) l) < n) by (rewrite skipn_length; lia).
    assert (Hl2 : List.length (skipn (ws1 + k) l) < B) by (rewrite skipn_length; lia).
    destruct (IH (skipn (ws1 + k) l) (p + ws1 + k) sg (acc ++ [] ++ tx a) Hn2 Hl2 Ha2 V2) as (r & m & Pm & R & Hm & V3).
    rewrite skipn_length in Hm. rewrite <- skipn_add in V3.
    exists (a :: r), (ws1 + k + m). rewrite Pm. split; [reflexivity|]. split; [|split; [lia|exact V3]].
    eapply loops_step; [exact (rep_unit_ev G uprop w Sk E1)|].
    cbn [flat_map]. replace (p + (ws1 + k + m)) with (p + ws1 + k + m) by lia. cbn [app] in R. rewrite <- app_assoc in R. exact R.
  - exists [], 0. cbn [flat_map skipn]. rewrite Nat.add_0_r, app_nil_r. split; [reflexivity|]. split; [|split; [lia|exact V]].
    apply loops_stop. exact (rep_unit_ev G uprop w Sk E1).
Qed.
Lemma parslt_rep {A} B x (px : P A) tx :
  parslt B x px tx -> (forall p l a n, px p l = Some (a, n) -> 0 < n) -> parslt B (ERep x) (p_rep px) (flat_map tx).
Proof.
  intros L Pos p l sg Hl Ha V. destruct (L p l sg Hl Ha V) as [E1 S1]. unfold p_rep, stays.
  destruct (px p l) as [[a k]|] eqn:Px.
  - destruct (S1 a k Px) as [Hk V1]. pose proof (at_skip w p l k Ha) as Ha1.
    pose proof (Pos _ _ _ _ Px) as Hpos.
    assert (Hn2 : List.length (skipn k l) < List.length l) by (rewrite skipn_length; lia).
    assert (Hl2 : List.length (skipn k l) < B) by (rewrite skipn_length; lia).
    destruct (more_loop B x px tx L Pos (List.length l) (skipn k l) (p + k) sg (tx a) Hn2 Hl2 Ha1 V1) as (r & m & Pm & R & Hm & V2).
    rewrite skipn_length in Hm. rewrite <- skipn_add in V2. rewrite Pm. split.
    + unfold pres. cbn [flat_map]. rewrite Nat.add_assoc. eapply ev_rep_some; [exact E1|exact R].
    + intros x0 n [= <- <-]. split; [lia|exact V2].
  - split; [|intros x0 n [= <- <-]; cbn [skipn]; split; [lia|exact V]].
    unfold pres. cbn [flat_map]. rewrite Nat.add_0_r. apply ev_rep_none. exact E1.
Qed.

(* a normal rule: its body in the same mode, wrapped in a node spanning exactly what was matched *)
Lemma parslt_rule {A A'} B n body (pa : P A) (f : nat -> nat -> A -> A') t t' :
  reserved n = false -> ascii_builtin n = None -> is_special n = false ->
  find_rule G n = Some {| rname := n; rty := RNormal; rexpr := body |} ->
  parslt B body pa t ->
  (forall p l a k, pa p l = Some (a, k) -> t' (f p (p + k) a) = [Node (rule_id G n) None p (p + k) (t a)]) ->
  parslt B (EIdent n) (p_span f pa) t'.
Proof.
  intros Hr Hb Hs Hf L H p l sg Hl Ha V. destruct (L p l sg Hl Ha V) as [E1 S1]. unfold p_span, stays.
  assert (M : rule_mode (is_special n) RNormal NonAtomic true = (true, NonAtomic)) by (rewrite Hs; reflexivity).
  generalize (ev_rule G uprop w NonAtomic true n _ true NonAtomic p sg _ Hr Hb Hf M E1). unfold wrap, pres.
  destruct (pa p l) as [[a k]|] eqn:Pa; [|split; [assumption|discriminate]].
  intros E2. split; [rewrite (H p l a k Pa); exact E2|]. intros x m [= <- <-]. exact (S1 a k Pa).
Qed.
(* an @ rule: its body is a scanner; one leaf node *)
Lemma parslt_atomic_rule B n body sc :
  reserved n = false -> ascii_builtin n = None -> is_special n = false ->
  find_rule G n = Some {| rname := n; rty := RAtomic; rexpr := body |} ->
  lexes G uprop w body sc ->
  parslt B (EIdent n) (p_scan sc) (fun s => [Node (rule_id G n) None (fst s) (snd s) []]).
Proof.
  intros Hr Hb Hs Hf L p l sg Hl Ha V. destruct (L (List.length l) true p l sg (le_n _) Ha V) as [E1 S1]. unfold p_scan, stays.
  assert (M : rule_mode (is_special n) RAtomic NonAtomic true = (true, Atomic)) by (rewrite Hs; reflexivity).
  generalize (ev_rule G uprop w NonAtomic true n _ true Atomic p sg _ Hr Hb Hf M E1). unfold wrap, pres, lex.
  destruct (sc l) as [k|] eqn:Sc; [|split; [assumption|discriminate]].
  intros E2. split; [exact E2|]. intros x m [= <- <-]. exact (S1 k eq_refl).
Qed.

Definition p_soi : P unit := fun o _ => if Nat.eqb o 0 then Some (tt, 0) else None.
Definition p_eoi : P nat := fun o _ => if Nat.eqb o (List.length w) then Some (o, 0) else None.
Lemma parslt_soi B : parslt B (EIdent (nm "SOI")) p_soi (fun _ => []).
Proof.
  intros p l sg _ Ha V. unfold p_soi, stays, pres. generalize (ev_soi G uprop w NonAtomic true p sg).
  destruct (Nat.eqb p 0); [rewrite Nat.add_0_r|]; (split; [assumption|]); [|discriminate]. intros a n [= _ <-]. split; [lia|exact V].
Qed.
Lemma parslt_eoi B : parslt B (EIdent (nm "EOI")) p_eoi (fun q => [Node (rule_id G (nm "EOI")) None q q []]).
Proof.
  intros p l sg _ Ha V. unfold p_eoi, stays, pres. generalize (ev_eoi G uprop w NonAtomic true p sg).
  destruct (Nat.eqb p (List.length w)); [rewrite Nat.add_0_r|]; (split; [assumption|]); [|discriminate]. intros a n [= _ <-]. split; [lia|exact V].
Qed.

(* op item ("," item)* cl | op cl *)
Definition list_expr (op cl : byte) (X : expr) : expr :=
  EChoice (ESeq (ESeq (ESeq (EStr [op]) X) (ERep (ESeq (EStr [44%N]) X))) (EStr [cl])) (ESeq (EStr [op]) (EStr [cl])).
Lemma p_byte_pos b p l a n : p_byte b p l = Some (a, n) -> 0 < n.
Proof. unfold p_byte. destruct (head_is b l); intros [=]; lia. Qed.
Lemma parslt_list {A} B op cl X (item : P A) ti :
  ascii op -> ascii cl -> parslt B X item ti -> parslt (S B) (list_expr op cl X) (p_list op cl item) (flat_map ti).
Proof.
  intros Hop Hcl L. unfold list_expr, p_list. apply parslt_or.
  - eapply parslt_map.
    + apply parslt_seq; [|apply parslt_byte; exact Hcl].
      eapply (parslt_seq_gen (S B) B).
      * (* the opening byte is consumed: the items see strictly shorter suffixes *)
        apply (parslt_seq_gen (S B) B); [apply parslt_byte; exact Hop|exact L|]. intros p l a n Hl H Hn. apply p_byte_pos in H. lia.
      * apply parslt_rep.
        -- eapply parslt_map; [apply parslt_seq; [apply (parslt_byte B 44%N); reflexivity|exact L]|].
           intros [u a]. cbn [fst snd app]. reflexivity.
        -- intros p l a n. unfold p_map, p_seq, p_byte. destruct (head_is 44 l); [|discriminate].
           destruct (item _ _) as [[b k]|]; [|discriminate]. intros [= _ <-]. lia.
      * intros p l a n Hl. unfold p_seq, p_byte. destruct (head_is op l); [|discriminate].
        destruct (item _ _) as [[b k]|]; [|discriminate]. intros [= _ <-] Hn. lia.
    + intros [[[u a] r] u']. cbn [fst snd app flat_map]. rewrite !app_nil_r. reflexivity.
  - eapply parslt_map; [apply parslt_seq; [apply parslt_byte; exact Hop|apply parslt_byte; exact Hcl]|].
    intros [u u']. reflexivity.
Qed.

End Parse.
Arguments list_expr (op cl)%N X.
