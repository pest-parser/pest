(* C18 - the structural rules of json.pest (value, array, object, pair, bool, null) under Layer S
   = parse_value of the RFC 8259 recogniser, with the token tree tree_of.
   Non-atomic rules: implicit WHITESPACE* between the elements of `~` and the rounds of `*` (skip_ok, Lexical.v). *)
From Coq Require Import List Arith NArith ZArith Bool Lia String ZifyN ZifyBool.
Import ListNotations.
Require Import PV.Comb.PState PV.Comb.Bytes PV.Comb.Utf8 PV.Comb.Utf8b PV.Iter.Queue PV.Peg.Ast PV.Peg.Spec.
Require Import PV.gen.JsonGrammar PV.Json.Rfc8259 PV.Json.Recogniser PV.Json.Utf8Facts PV.Json.EvalFacts PV.Json.LexLib PV.Json.Lexical PV.Json.ParseLib PV.Json.RfcStructure.
Local Arguments skipn : simpl nomatch.

Definition value_body : expr :=
  EChoice (EChoice (EChoice (EChoice (EChoice (EIdent (nm "string")) (EIdent (nm "number"))) (EIdent (nm "object"))) (EIdent (nm "array")))
          (EIdent (nm "bool"))) (EIdent (nm "null")).
Definition pair_body : expr := ESeq (ESeq (EIdent (nm "string")) (EStr [58%N])) (EIdent (nm "value")).
Definition object_body : expr := list_expr 123 125 (EIdent (nm "pair")).
Definition array_body : expr := list_expr 91 93 (EIdent (nm "value")).
Definition bool_body : expr := EChoice (EStr lit_true) (EStr lit_false).
Definition null_body : expr := EStr lit_null.

Lemma rule_value : find_rule json_grammar (nm "value") = Some {| rname := nm "value"; rty := RNormal; rexpr := value_body |}.
Proof. lookup. Qed.
Lemma rule_pair : find_rule json_grammar (nm "pair") = Some {| rname := nm "pair"; rty := RNormal; rexpr := pair_body |}.
Proof. lookup. Qed.
Lemma rule_object : find_rule json_grammar (nm "object") = Some {| rname := nm "object"; rty := RNormal; rexpr := object_body |}.
Proof. lookup. Qed.
Lemma rule_array : find_rule json_grammar (nm "array") = Some {| rname := nm "array"; rty := RNormal; rexpr := array_body |}.
Proof. lookup. Qed.
Lemma rule_bool : find_rule json_grammar (nm "bool") = Some {| rname := nm "bool"; rty := RNormal; rexpr := bool_body |}.
Proof. lookup. Qed.
Lemma rule_null : find_rule json_grammar (nm "null") = Some {| rname := nm "null"; rty := RNormal; rexpr := null_body |}.
Proof. lookup. Qed.

(* spans of the recogniser's results: those of the value it has read *)
Lemma value_span f o l d n : parse_value f o l = Some (d, n) -> doc_start d = o /\ doc_end d = o + n.
Proof.
  intros H. destruct (parse_value_sound _ _ _ _ _ H) as (s & r & [_ <-] & J).
  destruct J; cbn [doc_start doc_end List.length]; rewrite ?app_length; cbn [List.length]; split; lia || reflexivity.
Qed.

Lemma flat_map_single {A B} (f : A -> B) l : flat_map (fun x => [f x]) l = map f l.
Proof. induction l as [|x l IH]; [reflexivity|]. cbn [flat_map map app]. now rewrite IH. Qed.

Section Structure.
Variable uprop : name -> option (N -> bool).
Variable w : list byte.
Notation parslt := (parslt json_grammar uprop w).
Notation rid := (rule_id json_grammar).
Let Hsk := skip_ok uprop w.
Notation parslt_ext := (parslt_ext json_grammar uprop w Hsk).
Notation parslt_map := (parslt_map json_grammar uprop w Hsk).
Notation parslt_or := (parslt_or json_grammar uprop w Hsk).
Notation parslt_lit := (parslt_lit json_grammar uprop w Hsk).
Notation parslt_byte := (parslt_byte json_grammar uprop w Hsk).
Notation parslt_seq := (parslt_seq json_grammar uprop w Hsk).
Notation parslt_rule := (parslt_rule json_grammar uprop w Hsk).
Notation parslt_atomic_rule := (parslt_atomic_rule json_grammar uprop w Hsk).
Notation parslt_list := (parslt_list json_grammar uprop w Hsk).

(* forests: of a value at the level of its kind (the children of the `value` node), of a value, of a member *)
Definition t_kind (d : jdoc) : list tree := t_children (tree_of rid d).
Definition t_val (d : jdoc) : list tree := [tree_of rid d].
Definition t_mem (m : nat * nat * jdoc) : list tree :=
  match m with (ks, ke, v) => [Node (rid (nm "pair")) None ks (doc_end v) [leaf rid (nm "string") ks ke; tree_of rid v]] end.
Lemma tree_of_shape d : tree_of rid d = Node (rid (nm "value")) None (doc_start d) (doc_end d) (t_kind d).
Proof. destruct d; reflexivity. Qed.

Lemma pl_string B : parslt B (EIdent (nm "string")) (p_scan scan_string) (fun s => [Node (rid (nm "string")) None (fst s) (snd s) []]).
Proof.
  apply (parslt_atomic_rule B (nm "string") string_body scan_string eq_refl eq_refl eq_refl rule_string).
  intros B'. apply lexb_string_body.
Qed.
Lemma K_string B : parslt B (EIdent (nm "string")) p_string t_kind.
Proof. eapply parslt_map; [apply pl_string|]. intros [s e]. reflexivity. Qed.
Lemma K_number B : parslt B (EIdent (nm "number")) p_number t_kind.
Proof.
  eapply parslt_map.
  - apply (parslt_atomic_rule B (nm "number") number_body scan_number eq_refl eq_refl eq_refl rule_number).
    intros B'. apply lexb_number_body.
  - intros [s e]. reflexivity.
Qed.
Lemma K_bool B : parslt B (EIdent (nm "bool")) p_bool t_kind.
Proof.
  eapply (parslt_rule B (nm "bool") bool_body _ (fun o e b => JBool b o e) (fun _ => []));
    [reflexivity|reflexivity|reflexivity|exact rule_bool| |reflexivity].
  apply parslt_or; (eapply parslt_map; [apply parslt_lit; repeat constructor|reflexivity]).
Qed.
Lemma K_null B : parslt B (EIdent (nm "null")) p_null t_kind.
Proof.
  eapply (parslt_rule B (nm "null") null_body _ (fun o e _ => JNull o e) (fun _ => []));
    [reflexivity|reflexivity|reflexivity|exact rule_null| |reflexivity].
  apply parslt_lit; repeat constructor.
Qed.

Definition spans (pv : P jdoc) : Prop := forall o l d n, pv o l = Some (d, n) -> doc_start d = o /\ doc_end d = o + n.

Lemma K_array B pv : parslt B (EIdent (nm "value")) pv t_val ->
  parslt (S B) (EIdent (nm "array")) (p_span JArray (p_list 91 93 pv)) t_kind.
Proof.
  intros L.
  eapply (parslt_rule (S B) (nm "array") array_body _ JArray (flat_map t_val));
    [reflexivity|reflexivity|reflexivity|exact rule_array| |].
  - apply (parslt_list B 91%N 93%N); [reflexivity|reflexivity|exact L].
  - intros p l ds k _. unfold t_kind, t_val. cbn [tree_of t_children]. now rewrite flat_map_single.
Qed.

Lemma M_pair B pv : spans pv -> parslt B (EIdent (nm "value")) pv t_val ->
  parslt B (EIdent (nm "pair")) (p_pair pv) t_mem.
Proof.
  intros Sp L. unfold p_pair.
  pose proof (parslt_seq B _ _ _ _ _ _
                (parslt_seq B _ _ _ _ _ _ (pl_string B) (parslt_byte B 58%N eq_refl)) L) as Lb.
  (* p_map g is p_span (fun _ _ => g) *)
  apply (parslt_rule B (nm "pair") pair_body _
           (fun _ _ (x : nat * nat * unit * jdoc) => match x with (k, _, v) => (fst k, snd k, v) end) _ t_mem
           eq_refl eq_refl eq_refl rule_pair Lb).
  intros p l [[[ks ke] u] v] k. unfold p_seq at 1. unfold p_seq at 1. unfold p_scan, p_byte.
  destruct (scan_string l) as [n1|]; [|discriminate]. destruct (head_is 58 _); [|discriminate].
  destruct (pv _ _) as [[v' n3]|] eqn:Pv; [|discriminate]. intros [= <- <- <- <- <-].
  destruct (Sp _ _ _ _ Pv) as [_ He]. cbn [fst snd t_mem t_val app]. unfold leaf. rewrite He. do 2 f_equal. lia.
Qed.

Lemma K_object B pv : spans pv -> parslt B (EIdent (nm "value")) pv t_val ->
  parslt (S B) (EIdent (nm "object")) (p_span JObject (p_list 123 125 (p_pair pv))) t_kind.
Proof.
  intros Sp L.
  eapply (parslt_rule (S B) (nm "object") object_body _ JObject (flat_map t_mem));
    [reflexivity|reflexivity|reflexivity|exact rule_object| |].
  - apply (parslt_list B 123%N 125%N); [reflexivity|reflexivity|]. apply M_pair; assumption.
  - intros p l ms k _. unfold t_kind. cbn [tree_of t_children]. do 2 f_equal.
    induction ms as [|[[ks ke] v] ms IH]; [reflexivity|]. cbn [flat_map map t_mem app]. now rewrite IH.
Qed.

(* value = { string | number | object | array | bool | null } *)
Theorem value_ok : forall B, parslt B (EIdent (nm "value")) (parse_value B) t_val.
Proof.
  induction B as [|B IH]; [intros p l sg Hl; lia|].
  eapply parslt_ext.
  - eapply (parslt_rule (S B) (nm "value") value_body (parse_value (S B)) (fun _ _ d => d) t_kind);
      [reflexivity|reflexivity|reflexivity|exact rule_value| |].
    + cbn [parse_value]. repeat apply parslt_or.
      * apply K_string. * apply K_number.
      * apply K_object; [intros o l d n; apply value_span|exact IH].
      * apply K_array; exact IH.
      * apply K_bool. * apply K_null.
    + intros p l d k Pv. destruct (value_span _ _ _ _ _ Pv) as [Hs He]. unfold t_val. rewrite tree_of_shape, Hs, He. reflexivity.
  - intros p l. unfold p_span. destruct (parse_value (S B) p l) as [[d n]|]; reflexivity.
Qed.

End Structure.
