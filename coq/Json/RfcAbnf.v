(* C18 - RFC 8259's ABNF, transcribed literally (whitespace attached to the six structural characters, as the RFC
   writes it), generates exactly the JSON texts of Rfc8259.v (where whitespace surrounds the values instead, which is what
   lets every value carry its exact span).  Language level only; numbers and strings are shared.

     JSON-text = ws value ws
     begin-array = ws %x5B ws   begin-object = ws %x7B ws   end-array = ws %x5D ws   end-object = ws %x7D ws
     name-separator = ws %x3A ws   value-separator = ws %x2C ws
     value  = false / null / true / object / array / number / string
     object = begin-object [ member *( value-separator member ) ] end-object      member = string name-separator value
     array  = begin-array [ value *( value-separator value ) ] end-array                                           *)
From Coq Require Import List Arith NArith Bool Lia.
Import ListNotations.
Require Import PV.Comb.PState PV.Json.Rfc8259 PV.Json.RfcList PV.Json.RfcStructure.

Definition structural (c : byte) (s : list byte) : Prop := exists w1 w2, ws w1 /\ ws w2 /\ s = w1 ++ c :: w2.
Arguments structural c%N s.

Inductive a_value : list byte -> Prop :=
| av_false : a_value lit_false
| av_null : a_value lit_null
| av_true : a_value lit_true
| av_object_empty b e : structural 123 b -> structural 125 e -> a_value (b ++ e)
| av_object b ms e : structural 123 b -> a_members ms -> structural 125 e -> a_value (b ++ ms ++ e)
| av_array_empty b e : structural 91 b -> structural 93 e -> a_value (b ++ e)
| av_array b vs e : structural 91 b -> a_values vs -> structural 93 e -> a_value (b ++ vs ++ e)
| av_number s : jnumber s -> a_value s
| av_string s : jstring s -> a_value s
with a_values : list byte -> Prop :=
| avs_one v : a_value v -> a_values v
| avs_cons v sep r : a_value v -> structural 44 sep -> a_values r -> a_values (v ++ sep ++ r)
with a_member : list byte -> Prop :=
| am_intro k sep v : jstring k -> structural 58 sep -> a_value v -> a_member (k ++ sep ++ v)
with a_members : list byte -> Prop :=
| ams_one m : a_member m -> a_members m
| ams_cons m sep r : a_member m -> structural 44 sep -> a_members r -> a_members (m ++ sep ++ r).

Definition abnf_json_text (w : list byte) : Prop := exists w1 v w2, ws w1 /\ a_value v /\ ws w2 /\ w = w1 ++ v ++ w2.

Scheme a_value_mind := Minimality for a_value Sort Prop
  with a_values_mind := Minimality for a_values Sort Prop
  with a_member_mind := Minimality for a_member Sort Prop
  with a_members_mind := Minimality for a_members Sort Prop.
Combined Scheme abnf_mutind from a_value_mind, a_values_mind, a_member_mind, a_members_mind.

(* re-associate the text of the goal *)
Ltac restr Y := match goal with
  | |- jelement _ ?s _ => replace s with Y by assoc
  | |- jelements _ ?s _ => replace s with Y by assoc
  | |- jmember _ ?s _ => replace s with Y by assoc
  | |- jmembers _ ?s _ => replace s with Y by assoc
  | |- a_value ?s => replace s with Y by assoc
  end.
Lemma ws_app a b : ws a -> ws b -> ws (a ++ b).
Proof. intros. apply Forall_app. now split. Qed.
Lemma ws_nil : ws [].
Proof. constructor. Qed.
#[local] Hint Resolve ws_app ws_nil : core.

Definition padded (P : list byte -> Prop) (s : list byte) : Prop := exists w1 c w2, s = w1 ++ c ++ w2 /\ ws w1 /\ ws w2 /\ P c.

Theorem abnf_of_json :
  (forall o s d, jvalue o s d -> a_value s) /\
  (forall o s d, jelement o s d -> padded a_value s) /\
  (forall o s ds, jelements o s ds -> padded a_values s) /\
  (forall o s m, jmember o s m -> padded a_member s) /\
  (forall o s ms, jmembers o s ms -> padded a_members s).
Proof.
  apply json_mutind.
  1-5: intros; now constructor.
  - intros o w1 W1. restr (([] ++ 91%N :: w1) ++ ([] ++ 93%N :: [])).
    apply av_array_empty; [exists [], w1|exists [], []]; auto.
  - intros o s ds _ (w1 & vs & w2 & -> & W1 & W2 & Hv).
    restr (([] ++ 91%N :: w1) ++ vs ++ (w2 ++ 93%N :: [])).
    apply av_array; [exists [], w1|exact Hv|exists w2, []]; auto.
  - intros o w1 W1. restr (([] ++ 123%N :: w1) ++ ([] ++ 125%N :: [])).
    apply av_object_empty; [exists [], w1|exists [], []]; auto.
  - intros o s ms _ (w1 & vs & w2 & -> & W1 & W2 & Hv).
    restr (([] ++ 123%N :: w1) ++ vs ++ (w2 ++ 125%N :: [])).
    apply av_object; [exists [], w1|exact Hv|exists w2, []]; auto.
  - intros o w1 v w2 d W1 _ Hv W2. now exists w1, v, w2.
  - intros o s d _ (w1 & v & w2 & -> & W1 & W2 & Hv). exists w1, v, w2. split; [reflexivity|]. split; [exact W1|]. split; [exact W2|]. now constructor.
  - intros o s d r ds _ (w1 & v & w2 & -> & W1 & W2 & Hv) _ (w1' & vs & w2' & -> & W1' & W2' & Hvs).
    exists w1, (v ++ (w2 ++ 44%N :: w1') ++ vs), w2'. split; [assoc|]. split; [exact W1|]. split; [exact W2'|].
    apply avs_cons; auto. exists w2, w1'. auto.
  - intros o w1 k w2 s d W1 Jk W2 _ (wa & v & wb & -> & Wa & Wb & Hv).
    exists w1, (k ++ (w2 ++ 58%N :: wa) ++ v), wb. split; [assoc|]. split; [exact W1|]. split; [exact Wb|].
    apply am_intro; auto. exists w2, wa. auto.
  - intros o s m _ (w1 & v & w2 & -> & W1 & W2 & Hv). exists w1, v, w2. split; [reflexivity|]. split; [exact W1|]. split; [exact W2|]. now constructor.
  - intros o s m r ms _ (w1 & v & w2 & -> & W1 & W2 & Hv) _ (w1' & vs & w2' & -> & W1' & W2' & Hvs).
    exists w1, (v ++ (w2 ++ 44%N :: w1') ++ vs), w2'. split; [assoc|]. split; [exact W1|]. split; [exact W2'|].
    apply ams_cons; auto. exists w2, w1'. auto.
Qed.

(* Whitespace that the ABNF attaches to a structural character belongs, on the other side, to the neighbouring element;
   so each ABNF phrase is shown to be an element (a list of elements, a member, ...) together with ANY whitespace
   put around it, at any offset: the induction then never has to move whitespace into a finished derivation. *)
Definition padded_at {A} (J : nat -> list byte -> A -> Prop) (s : list byte) : Prop :=
  forall o wa wb, ws wa -> ws wb -> exists x, J o (wa ++ s ++ wb) x.

Lemma bare o v d : jvalue o v d -> jelement o v d.
Proof.
  intros J. assert (J' : jvalue (o + length (@nil byte)) v d) by (cbn [length]; now rewrite Nat.add_0_r).
  pose proof (el_intro o [] v [] d ws_nil J' ws_nil) as H. cbn [app] in H. now rewrite app_nil_r in H.
Qed.

Lemma padded_value v : (forall o, exists d, jvalue o v d) -> padded_at jelement v.
Proof. intros H o wa wb Wa Wb. destruct (H (o + length wa)) as [d J]. exists d. now constructor. Qed.

Theorem json_of_abnf :
  (forall v, a_value v -> padded_at jelement v) /\ (forall vs, a_values vs -> padded_at jelements vs) /\
  (forall m, a_member m -> padded_at jmember m) /\ (forall ms, a_members ms -> padded_at jmembers ms).
Proof.
  apply abnf_mutind.
  1-3: apply padded_value; intros o; eexists; constructor.
  - intros b e (w1 & w2 & W1 & W2 & ->) (w3 & w4 & W3 & W4 & ->) o wa wb Wa Wb. eexists.
    restr ((wa ++ w1) ++ (123%N :: (w2 ++ w3) ++ [125%N]) ++ (w4 ++ wb)).
    constructor; auto. apply v_object_empty. auto.
  - intros b ms e (w1 & w2 & W1 & W2 & ->) _ Hms (w3 & w4 & W3 & W4 & ->) o wa wb Wa Wb.
    destruct (Hms (o + length (wa ++ w1) + 1) w2 w3 W2 W3) as [xs J]. eexists.
    restr ((wa ++ w1) ++ (123%N :: (w2 ++ ms ++ w3) ++ [125%N]) ++ (w4 ++ wb)).
    constructor; auto. apply v_object. exact J.
  - intros b e (w1 & w2 & W1 & W2 & ->) (w3 & w4 & W3 & W4 & ->) o wa wb Wa Wb. eexists.
    restr ((wa ++ w1) ++ (91%N :: (w2 ++ w3) ++ [93%N]) ++ (w4 ++ wb)).
    constructor; auto. apply v_array_empty. auto.
  - intros b vs e (w1 & w2 & W1 & W2 & ->) _ Hvs (w3 & w4 & W3 & W4 & ->) o wa wb Wa Wb.
    destruct (Hvs (o + length (wa ++ w1) + 1) w2 w3 W2 W3) as [ds J]. eexists.
    restr ((wa ++ w1) ++ (91%N :: (w2 ++ vs ++ w3) ++ [93%N]) ++ (w4 ++ wb)).
    constructor; auto. apply v_array. exact J.
  - intros s Jn. apply padded_value. intros o. eexists. now constructor.
  - intros s Js. apply padded_value. intros o. eexists. now constructor.
  - intros v _ Hv o wa wb Wa Wb. destruct (Hv o wa wb Wa Wb) as [d J]. eexists. apply els_one. exact J.
  - intros v sep r _ Hv (w1 & w2 & W1 & W2 & ->) _ Hr o wa wb Wa Wb.
    destruct (Hv o wa w1 Wa W1) as [d J]. destruct (Hr (o + length (wa ++ v ++ w1) + 1) w2 wb W2 Wb) as [ds Jr].
    eexists. restr ((wa ++ v ++ w1) ++ 44%N :: (w2 ++ r ++ wb)). apply els_cons; eassumption.
  - intros k sep v Jk (w1 & w2 & W1 & W2 & ->) _ Hv o wa wb Wa Wb.
    destruct (Hv (o + length wa + length k + length w1 + 1) w2 wb W2 Wb) as [d J].
    eexists. restr (wa ++ k ++ w1 ++ 58%N :: (w2 ++ v ++ wb)). apply mem_intro; eassumption.
  - intros m _ Hm o wa wb Wa Wb. destruct (Hm o wa wb Wa Wb) as [x J]. eexists. apply mems_one. exact J.
  - intros m sep r _ Hm (w1 & w2 & W1 & W2 & ->) _ Hr o wa wb Wa Wb.
    destruct (Hm o wa w1 Wa W1) as [x J]. destruct (Hr (o + length (wa ++ m ++ w1) + 1) w2 wb W2 Wb) as [xs Jr].
    eexists. restr ((wa ++ m ++ w1) ++ 44%N :: (w2 ++ r ++ wb)). apply mems_cons; eassumption.
Qed.

Theorem abnf_equiv w : abnf_json_text w <-> json_text w.
Proof.
  split.
  - intros (w1 & v & w2 & W1 & Hv & W2 & ->). exact (proj1 json_of_abnf v Hv 0 w1 w2 W1 W2).
  - intros [d J]. destruct (proj1 (proj2 abnf_of_json) _ _ _ J) as (w1 & v & w2 & -> & W1 & W2 & Hv). now exists w1, v, w2.
Qed.
