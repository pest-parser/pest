(* C18 - the list combinator p_list (open item ("," item)* close | open close, whitespace allowed between the
   tokens) is sound and complete for comma-separated lists of elements  ws item ws.  Generic in the item. *)
From Coq Require Import List Arith NArith Bool Lia ZifyN ZifyBool.
Import ListNotations.
Require Import PV.Comb.PState PV.Comb.Bytes PV.Comb.Utf8 PV.Comb.Utf8b.
Require Import PV.Json.Rfc8259 PV.Json.Recogniser PV.Json.Utf8Facts PV.Json.RfcLexical.

Ltac len := repeat (progress (rewrite ?app_length in *; cbn [length] in *)).
Ltac assoc := cbn [app]; rewrite <- ?app_assoc; cbn [app]; rewrite <- ?app_assoc; reflexivity.
(* close a goal  R y s a  from  H : R x s a  when the offsets x and y are equal numbers *)
Ltac off_eq H := match type of H with ?R ?x ?s ?a => match goal with |- ?R ?y ?s ?a => replace y with x by blia; exact H end end.

Definition psound {A : Type} (p : P A) (R : nat -> list byte -> A -> Prop) : Prop :=
  forall o l a n, p o l = Some (a, n) -> exists s r, split_at l n s r /\ R o s a.

Lemma psound_byte b : psound (p_byte b) (fun _ s _ => s = [b]).
Proof.
  intros o l a n. unfold p_byte. destruct (head_is b l) eqn:H; [|discriminate]. destruct (head_is_true _ _ H) as [t ->].
  intros [= <- <-]. exists [b], t. split; [split; reflexivity|reflexivity].
Qed.
Lemma psound_span {A B} (f : nat -> nat -> A -> B) p R :
  psound p R -> psound (p_span f p) (fun o s y => exists a, y = f o (o + length s) a /\ R o s a).
Proof.
  intros Hp o l y n. unfold p_span. destruct (p o l) as [[a k]|] eqn:E; [|discriminate]. intros [= <- <-].
  destruct (Hp _ _ _ _ E) as (s & r & Sp & Ra). exists s, r. split; [exact Sp|]. exists a. destruct Sp as [_ <-]. auto.
Qed.
Lemma psound_map {A B} (f : A -> B) p R : psound p R -> psound (p_map f p) (fun o s y => exists a, y = f a /\ R o s a).
Proof. exact (psound_span (fun _ _ => f) p R). Qed.
Lemma psound_seq {A B} (p1 : P A) (p2 : P B) R1 R2 : psound p1 R1 -> psound p2 R2 ->
  psound (p_seq p1 p2) (fun o s ab => exists s1 w s2, s = s1 ++ w ++ s2 /\ ws w /\ R1 o s1 (fst ab) /\ R2 (o + length s1 + length w) s2 (snd ab)).
Proof.
  intros H1 H2 o l ab n. unfold p_seq. destruct (p1 o l) as [[a n1]|] eqn:E1; [|discriminate].
  destruct (H1 _ _ _ _ E1) as (s1 & r1 & Sp1 & Ra). rewrite (split_skipn _ _ _ _ Sp1).
  destruct (skip_ws_sound r1) as (w & r2 & Sp2 & W). pose proof (split_app _ _ _ _ _ _ _ Sp1 Sp2) as Sp12.
  rewrite (split_skipn _ _ _ _ Sp12). destruct (p2 _ r2) as [[b n2]|] eqn:E2; [|discriminate]. intros [= <- <-].
  destruct (H2 _ _ _ _ E2) as (s2 & r3 & Sp3 & Rb). exists ((s1 ++ w) ++ s2), r3. split; [exact (split_app _ _ _ _ _ _ _ Sp12 Sp3)|].
  exists s1, w, s2. split; [now rewrite app_assoc|]. split; [exact W|]. split; [exact Ra|].
  destruct Sp1 as [_ L1]. destruct Sp2 as [_ L2]. cbn [fst snd]. rewrite L1, L2. exact Rb.
Qed.
Lemma psound_or {A} (p1 p2 : P A) R : psound p1 R -> psound p2 R -> psound (p_or p1 p2) R.
Proof. intros H1 H2 o l a n. unfold p_or. destruct (p1 o l) as [[a1 n1]|] eqn:E1; [intros [= <- <-]; eauto|apply H2]. Qed.
Lemma psound_weaken {A} (p : P A) (R R' : nat -> list byte -> A -> Prop) : psound p R -> (forall o s a, R o s a -> R' o s a) -> psound p R'.
Proof. intros H HR o l a n E. destruct (H _ _ _ _ E) as (s & r & Sp & Ra). exists s, r. split; auto. Qed.

Section Lists.
Variable A : Type.
Variable Rel : nat -> list byte -> A -> Prop.      (* offset -> text of the item -> result *)

(* ws item ws *)
Definition Elem (o : nat) (s : list byte) (a : A) : Prop :=
  exists w1 c w2, s = w1 ++ c ++ w2 /\ ws w1 /\ ws w2 /\ Rel (o + length w1) c a.
(* element ( "," element )* *)
Inductive seps : nat -> list byte -> list A -> Prop :=
| seps_one o s a : Elem o s a -> seps o s [a]
| seps_cons o s a r xs : Elem o s a -> seps (o + length s + 1) r xs -> seps o (s ++ 44%N :: r) (a :: xs).
(* what follows the first item: ( ws "," ws item )* *)
Inductive more_rel : nat -> list byte -> list A -> Prop :=
| mr_nil o : more_rel o [] []
| mr_cons o w1 w2 c a r xs : ws w1 -> ws w2 -> Rel (o + length w1 + 1 + length w2) c a ->
    more_rel (o + length w1 + 1 + length w2 + length c) r xs -> more_rel o (w1 ++ 44%N :: w2 ++ c ++ r) (a :: xs).

Lemma seps_of_more : forall o1 t xs, more_rel o1 t xs -> forall o w1 c1 a1 w2 w3,
  o1 = o + length w1 + length c1 + length w2 -> ws w1 -> ws w2 -> ws w3 -> Rel (o + length w1) c1 a1 ->
  seps o (w1 ++ c1 ++ w2 ++ t ++ w3) (a1 :: xs).
Proof.
  induction 1 as [o1|o1 wa wb c2 a2 r xs Wa Wb R2 M IH]; intros o w1 c1 a1 w2 w3 E W1 W2 W3 R1.
  - apply seps_one. exists w1, c1, (w2 ++ w3). repeat split; auto. now apply Forall_app.
  - replace (w1 ++ c1 ++ w2 ++ (wa ++ 44%N :: wb ++ c2 ++ r) ++ w3) with ((w1 ++ c1 ++ w2 ++ wa) ++ 44%N :: (wb ++ c2 ++ [] ++ r ++ w3)) by assoc.
    apply seps_cons; [exists w1, c1, (w2 ++ wa); repeat split; auto; now apply Forall_app|].
    subst o1. apply IH; auto; [len; blia|constructor|]. len. off_eq R2.
Qed.
Lemma more_of_seps : forall o s xs, seps o s xs ->
  exists w1 c1 a1 t w3 ys, s = w1 ++ c1 ++ t ++ w3 /\ xs = a1 :: ys /\ ws w1 /\ ws w3 /\ Rel (o + length w1) c1 a1 /\
    more_rel (o + length w1 + length c1) t ys.
Proof.
  induction 1 as [o s a (w1 & c & w2 & -> & W1 & W2 & R)|o s a r xs (w1 & c & w2 & -> & W1 & W2 & R) _ IH].
  - exists w1, c, a, [], w2, []. repeat split; auto. constructor.
  - destruct IH as (wa & c2 & a2 & t & w3 & ys & -> & -> & Wa & W3 & R2 & M).
    exists w1, c, a, (w2 ++ 44%N :: wa ++ c2 ++ t), w3, (a2 :: ys). repeat split; auto.
    + rewrite <- !app_assoc. cbn [app]. rewrite <- !app_assoc. reflexivity.
    + apply mr_cons; auto.
      * rewrite !app_length in R2. off_eq R2.
      * rewrite !app_length in M. off_eq M.
Qed.

Variable item : P A.
Definition px : P A := p_map snd (p_seq (p_byte 44) item).

Hypothesis item_sound : psound item Rel.

Definition px_rel (o : nat) (s : list byte) (a : A) : Prop :=
  exists w2 c, s = 44%N :: w2 ++ c /\ ws w2 /\ Rel (o + 1 + length w2) c a.
Lemma px_sound : psound px px_rel.
Proof.
  eapply psound_weaken; [apply psound_map; apply psound_seq; [apply psound_byte|exact item_sound]|].
  intros o s a ([u b] & -> & s1 & w2 & c & -> & W & -> & R). cbn [fst snd length] in *. exists w2, c. repeat split; auto.
Qed.
Lemma p_more_sound : forall n, psound (p_more px n) more_rel.
Proof.
  induction n as [|n IH]; intros o l xs m; cbn [p_more].
  - intros [= <- <-]. exists [], l. split; [apply split_0|constructor].
  - destruct (skip_ws_sound l) as (w1 & r1 & Sp1 & W1). rewrite (split_skipn _ _ _ _ Sp1).
    destruct (px (o + skip_ws l) r1) as [[a k]|] eqn:Px; [|intros [= <- <-]; exists [], l; split; [apply split_0|constructor]].
    destruct (px_sound _ _ _ _ Px) as (s2 & r2 & Sp2 & w2 & c & -> & W2 & R).
    pose proof (split_app _ _ _ _ _ _ _ Sp1 Sp2) as Sp12. rewrite (split_skipn _ _ _ _ Sp12).
    destruct (p_more px n (o + skip_ws l + k) r2) as [[ys m']|] eqn:Pm; [|discriminate]. intros [= <- <-].
    destruct (IH _ _ _ _ Pm) as (s3 & r3 & Sp3 & M).
    exists ((w1 ++ 44%N :: w2 ++ c) ++ s3), r3. split; [exact (split_app _ _ _ _ _ _ _ Sp12 Sp3)|].
    rewrite <- app_assoc. cbn [app]. rewrite <- !app_assoc.
    destruct Sp1 as [_ L1]. destruct Sp2 as [_ L2]. cbn [length] in L2. rewrite app_length in L2.
    apply mr_cons; auto; [rewrite L1; exact R|]. off_eq M.
Qed.
Lemma p_rep_sound : psound (p_rep px) more_rel.
Proof.
  intros o l xs m. unfold p_rep. destruct (px o l) as [[a k]|] eqn:Px; [|intros [= <- <-]; exists [], l; split; [apply split_0|constructor]].
  destruct (px_sound _ _ _ _ Px) as (s2 & r2 & Sp2 & w2 & c & -> & W2 & R). rewrite (split_skipn _ _ _ _ Sp2).
  destruct (p_more px (length l) (o + k) r2) as [[ys m']|] eqn:Pm; [|discriminate]. intros [= <- <-].
  destruct (p_more_sound _ _ _ _ _ Pm) as (s3 & r3 & Sp3 & M).
  exists ((44%N :: w2 ++ c) ++ s3), r3. split; [exact (split_app _ _ _ _ _ _ _ Sp2 Sp3)|].
  destruct Sp2 as [_ L2]. cbn [length] in L2. rewrite app_length in L2.
  change ((44%N :: w2 ++ c) ++ s3) with ([] ++ 44%N :: (w2 ++ c) ++ s3). rewrite <- app_assoc.
  apply mr_cons; auto; [constructor|cbn [length]; rewrite Nat.add_0_r; exact R|].
  cbn [length]. rewrite Nat.add_0_r. off_eq M.
Qed.

Definition list_rel (op cl : byte) (o : nat) (s : list byte) (xs : list A) : Prop :=
  (xs = [] /\ exists w1, ws w1 /\ s = op :: w1 ++ [cl]) \/ (exists body, s = op :: body ++ [cl] /\ seps (o + 1) body xs).
Lemma p_list_sound op cl : psound (p_list op cl item) (list_rel op cl).
Proof.
  unfold p_list. apply psound_or.
  - eapply psound_weaken.
    + apply psound_map. apply psound_seq; [apply psound_seq; [apply psound_seq; [apply psound_byte|exact item_sound]|exact p_rep_sound]|apply psound_byte].
    + intros o s xs ([[[u a1] ys] u'] & -> & s123 & w3 & s4 & -> & W3 & (s12 & w2 & sm & -> & W2 & (s1 & w1 & c1 & -> & W1 & -> & R1) & M) & ->).
      cbn [fst snd] in *. right. exists (w1 ++ c1 ++ w2 ++ sm ++ w3). split; [cbn [app]; rewrite <- !app_assoc; reflexivity|].
      apply (seps_of_more _ _ _ M); auto. len. blia.
  - eapply psound_weaken.
    + apply psound_map. apply psound_seq; apply psound_byte.
    + intros o s xs ([u u'] & -> & s1 & w1 & s2 & -> & W1 & -> & ->). left. split; [reflexivity|]. exists w1. split; [exact W1|reflexivity].
Qed.

End Lists.

Definition runs {A} (p : P A) (o : nat) (l : list byte) (a : A) (n : nat) (r : list byte) : Prop :=
  p o l = Some (a, n) /\ skipn n l = r.

Lemma runs_app {A} (p : P A) o s tl a : p o (s ++ tl) = Some (a, length s) -> runs p o (s ++ tl) a (length s) tl.
Proof. intros H. split; [exact H|apply skipn_app_exact]. Qed.
Lemma runs_byte b o tl : runs (p_byte b) o (b :: tl) tt 1 tl.
Proof. split; [|reflexivity]. unfold p_byte. now rewrite head_is_cons, N.eqb_refl. Qed.
(* p1, then exactly the whitespace w, then p2 *)
Lemma runs_seq {A B} (p1 : P A) (p2 : P B) o l a n1 w r1 b n2 r2 :
  runs p1 o l a n1 (w ++ r1) -> ws w -> head_in is_wsb r1 = false -> runs p2 (o + n1 + length w) r1 b n2 r2 ->
  runs (p_seq p1 p2) o l (a, b) (n1 + length w + n2) r2.
Proof.
  intros [H1 S1] W Hh [H2 S2]. unfold runs, p_seq. rewrite H1, S1, (skip_ws_complete w r1 W Hh).
  rewrite !skipn_add, S1, skipn_app_exact, H2, S2. split; reflexivity.
Qed.

Lemma delim_ws_app w tl : ws w -> delim tl -> delim (w ++ tl).
Proof.
  intros W D. destruct W as [|b w Hb _]; [exact D|]. cbn [app delim]. unfold is_delimb. apply is_wsb_spec in Hb. now rewrite Hb.
Qed.
Lemma delim_cons b tl : is_delimb b = true -> delim (b :: tl).
Proof. intros H. exact H. Qed.

(* the closing byte: not whitespace, not a comma, but something that may follow a value *)
Definition closer (cl : byte) : Prop := is_wsb cl = false /\ N.eqb 44 cl = false /\ is_delimb cl = true.

(* after the first round p_rep is p_more; on a non-blank head also from the start *)
Lemma p_rep_more {A} (px : P A) o l : head_in is_wsb l = false -> p_rep px o l = p_more px (S (length l)) o l.
Proof.
  intros H. cbn [p_more]. replace (skip_ws l) with 0 by (destruct l; [|cbn [skip_ws head_in] in *; rewrite H]; reflexivity).
  now rewrite Nat.add_0_r.
Qed.

Section ListsComplete.
Variable A : Type.
Variable Rel : nat -> list byte -> A -> Prop.
Variable item : P A.
Variable B : nat.
Hypothesis item_complete : forall o c a tl, Rel o c a -> delim tl -> length (c ++ tl) < B -> item o (c ++ tl) = Some (a, length c).
Hypothesis rel_head : forall o c a tl, Rel o c a -> head_in is_wsb (c ++ tl) = false.
Notation px := (px A item).
Notation more_rel := (more_rel A Rel).
Notation seps := (seps A Rel).

Lemma px_runs o w2 c a tl : ws w2 -> Rel (o + 1 + length w2) c a -> delim tl -> length (w2 ++ c ++ tl) < B ->
  runs px o (44%N :: w2 ++ c ++ tl) a (1 + length w2 + length c) tl.
Proof.
  intros W2 R D Hl.
  destruct (runs_seq (p_byte 44) item o _ tt 1 w2 (c ++ tl) a (length c) tl (runs_byte _ _ _) W2 (rel_head _ _ a tl R)) as [H S].
  - apply runs_app, item_complete; auto. len. blia.
  - split; [|exact S]. unfold RfcList.px, p_map. unfold byte in *. now rewrite H.
Qed.
Lemma px_fails cl rest o : N.eqb 44 cl = false -> px o (cl :: rest) = None.
Proof. intros C. unfold RfcList.px, p_map, p_seq, p_byte. now rewrite head_is_cons, C. Qed.

Section Closer.
Variables (cl : byte) (rest : list byte).
Hypothesis Cl : closer cl.

Lemma more_delim o t xs w3 : more_rel o t xs -> ws w3 -> delim (t ++ w3 ++ cl :: rest).
Proof.
  intros M W3. destruct M as [|o w1 w2 c a r xs W1 _ _ _]; [cbn [app]|rewrite <- app_assoc]; apply delim_ws_app; auto; [apply Cl|reflexivity].
Qed.
Lemma p_more_complete : forall o t xs, more_rel o t xs -> forall n w3, ws w3 ->
  length (t ++ w3 ++ cl :: rest) <= n -> length (t ++ w3 ++ cl :: rest) <= B ->
  p_more px n o (t ++ w3 ++ cl :: rest) = Some (xs, length t).
Proof.
  destruct Cl as (Cw & Cc & _). induction 1 as [o|o w1 w2 c a r xs W1 W2 R M IH]; intros n w3 W3 Hn Hb.
  - destruct n as [|n]; [reflexivity|]. cbn [p_more app length].
    now rewrite (skip_ws_complete w3 (cl :: rest) W3 Cw), skipn_app_exact, px_fails.
  - destruct n as [|n]; [len; blia|]. cbn [p_more]. rewrite <- !app_assoc. cbn [app]. rewrite <- !app_assoc.
    rewrite (skip_ws_complete w1 _ W1) by reflexivity. rewrite skipn_app_exact.
    destruct (px_runs (o + length w1) w2 c a _ W2 R (more_delim _ _ _ w3 M W3)) as [Hpx Spx]; [len; blia|].
    unfold byte in *. rewrite Hpx, skipn_add, skipn_app_exact, Spx.
    replace (o + length w1 + (1 + length w2 + length c)) with (o + length w1 + 1 + length w2 + length c) by lia.
    rewrite (IH n w3 W3) by (len; lia). f_equal. f_equal. len. lia.
Qed.

(* p_seq reads the whitespace in front of the first comma, or in front of the closing byte when there is no comma *)
Lemma more_split o t xs w3 : more_rel o t xs -> ws w3 ->
  exists w t' w', t ++ w3 = w ++ t' ++ w' /\ ws w /\ ws w' /\ more_rel (o + length w) t' xs /\
    head_in is_wsb (t' ++ w' ++ cl :: rest) = false.
Proof.
  intros M W3. destruct M as [o|o w1 w2 c a r xs W1 W2 R M].
  - exists w3, [], []. split; [now rewrite app_nil_r|]. split; [exact W3|]. split; [constructor|]. split; [constructor|apply Cl].
  - exists w1, (44%N :: w2 ++ c ++ r), w3. split; [assoc|]. split; [exact W1|]. split; [exact W3|]. split; [|reflexivity].
    apply (mr_cons A Rel (o + length w1) [] w2 c a r xs); cbn [length]; [constructor|exact W2|off_eq R|off_eq M].
Qed.

Lemma p_list_complete op o body xs : seps (o + 1) body xs ->
  length (op :: body ++ cl :: rest) <= B ->
  p_list op cl item o (op :: body ++ cl :: rest) = Some (xs, length body + 2).
Proof.
  intros Sp Hb. destruct (more_of_seps _ _ _ _ _ Sp) as (w1 & c1 & a1 & t & w3 & ys & -> & -> & W1 & W3 & R1 & M).
  destruct (more_split _ _ _ w3 M W3) as (w & t' & w' & E & W & W' & M' & Hh). rewrite E in *. clear E M W3 t w3.
  set (l := op :: (w1 ++ c1 ++ w ++ t' ++ w') ++ cl :: rest) in *.
  assert (El : l = op :: w1 ++ c1 ++ w ++ t' ++ w' ++ cl :: rest) by (unfold l; assoc).
  assert (R2 : runs (p_seq (p_byte op) item) o l (tt, a1) (1 + length w1 + length c1) (w ++ t' ++ w' ++ cl :: rest)).
  { rewrite El. apply (runs_seq _ _ _ _ _ _ _ _ _ _ _ (runs_byte op o _) W1 (rel_head _ _ a1 _ R1)).
    apply runs_app, item_complete; [exact R1|apply delim_ws_app; [exact W|exact (more_delim _ _ _ w' M' W')]|].
    rewrite El in Hb. len. blia. }
  assert (R3 : runs (p_seq (p_seq (p_byte op) item) (p_rep px)) o l (tt, a1, ys) (1 + length w1 + length c1 + length w + length t')
                    (w' ++ cl :: rest)).
  { apply (runs_seq _ _ _ _ _ _ _ _ _ _ _ R2 W Hh). apply runs_app. rewrite (p_rep_more _ _ _ Hh).
    apply p_more_complete; [off_eq M'|exact W'|lia|]. rewrite El in Hb. len. blia. }
  pose proof (runs_seq _ _ _ _ _ _ _ _ _ _ _ R3 W' (proj1 Cl) (runs_byte cl _ rest)) as [R4 _].
  unfold p_list, p_or. unfold p_map at 1. fold px. rewrite R4. f_equal. f_equal. len. blia.
Qed.

End Closer.
End ListsComplete.

(* the empty list: the first alternative fails on the closing byte *)
Lemma p_list_complete_empty {A} (item : P A) op cl o w1 rest : closer cl -> ws w1 -> (forall o' rest', item o' (cl :: rest') = None) ->
  p_list op cl item o (op :: w1 ++ cl :: rest) = Some ([], length w1 + 2).
Proof.
  intros (Cw & _) W1 Hf. unfold p_list, p_or.
  assert (F : p_seq (p_byte op) item o (op :: w1 ++ cl :: rest) = None).
  { unfold p_seq. rewrite (proj1 (runs_byte op o _)). cbn [Nat.add]. rewrite skipn_cons, skipn_O, (skip_ws_complete w1 (cl :: rest) W1 Cw).
    rewrite skipn_cons, skipn_app_exact, Hf. reflexivity. }
  unfold p_map at 1. unfold p_seq at 1. unfold p_seq at 1. rewrite F.
  destruct (runs_seq (p_byte op) (p_byte cl) o _ tt 1 w1 (cl :: rest) tt 1 rest (runs_byte op o _) W1 Cw (runs_byte cl _ rest)) as [H _].
  unfold p_map. rewrite H. f_equal. f_equal. lia.
Qed.
