(* C18 - the scanners of Recogniser.v are sound and complete for the token relations of Rfc8259.v
   (ws, jnumber, jstring).  Pure list reasoning, no PEG.
   sound:    scan l = Some n  ->  l = s ++ r, |s| = n, s is a token
   complete: s is a token, and what follows s cannot continue it  ->  scan (s ++ tl) = Some |s|          *)
From Coq Require Import List Arith NArith Bool Lia ZifyN ZifyBool.
Import ListNotations.
Require Import PV.Comb.PState PV.Comb.Bytes PV.Comb.Utf8 PV.Comb.Utf8b PV.Json.Rfc8259 PV.Json.Recogniser PV.Json.Utf8Facts.

(* `byte` is N: lia must see through the name *)
Ltac blia := unfold byte in *; lia.

Definition split_at (l : list byte) (n : nat) (s r : list byte) : Prop := l = s ++ r /\ length s = n.
Lemma split_skipn l n s r : split_at l n s r -> skipn n l = r.
Proof. intros [-> <-]. apply skipn_app_exact. Qed.
Lemma split_le l n s r : split_at l n s r -> n <= length l.
Proof. intros [-> <-]. rewrite app_length. lia. Qed.
Lemma split_0 l : split_at l 0 [] l.
Proof. split; reflexivity. Qed.
Lemma split_app l n1 s1 r1 n2 s2 r2 : split_at l n1 s1 r1 -> split_at r1 n2 s2 r2 -> split_at l (n1 + n2) (s1 ++ s2) r2.
Proof. intros [-> <-] [-> <-]. split; [now rewrite app_assoc|now rewrite app_length]. Qed.
Lemma split_cons b l n s r : split_at l n s r -> split_at (b :: l) (S n) (b :: s) r.
Proof. intros [-> <-]. split; reflexivity. Qed.

Lemma head_is_true b l : head_is b l = true -> exists r, l = b :: r.
Proof. destruct l as [|x r]; [discriminate|]. rewrite head_is_cons. intros H. apply N.eqb_eq in H. subst. now exists r. Qed.
Lemma head_among_true bs l : head_among bs l = true -> exists x r, l = x :: r /\ In x bs.
Proof.
  destruct l as [|x r]; [rewrite head_among_nil; discriminate|].
  rewrite head_among_cons. intros H. apply existsb_exists in H. destruct H as (y & Hy & E). apply N.eqb_eq in E. subst y. now exists x, r.
Qed.
Lemma head_in_true ok l : head_in ok l = true -> exists x r, l = x :: r /\ ok x = true.
Proof. destruct l as [|x r]; [discriminate|]. intros H. now exists x, r. Qed.

Lemma is_wsb_spec b : is_wsb b = true <-> is_ws b.
Proof. unfold is_wsb, ws_bytes, is_ws. cbn [existsb]. lia. Qed.
Lemma skip_ws_sound l : exists s r, split_at l (skip_ws l) s r /\ ws s.
Proof.
  induction l as [|b l (s & r & Sp & W)]; [exists [], []; split; [apply split_0|constructor]|].
  cbn [skip_ws]. destruct (is_wsb b) eqn:B.
  - exists (b :: s), r. split; [now apply split_cons|]. constructor; [now apply is_wsb_spec|exact W].
  - exists [], (b :: l). split; [apply split_0|constructor].
Qed.
Lemma skip_ws_complete s tl : ws s -> head_in is_wsb tl = false -> skip_ws (s ++ tl) = length s.
Proof.
  intros W H. induction W as [|b s Hb W IH].
  - destruct tl as [|x tl]; [reflexivity|]. cbn in *. now rewrite H.
  - cbn [app skip_ws length]. apply is_wsb_spec in Hb. now rewrite Hb, IH.
Qed.

Lemma is_digitb_spec b : is_digitb b = true <-> is_digit b.
Proof. unfold is_digitb, in_rangeb, is_digit. lia. Qed.
Lemma scan_digits_sound l : exists s r, split_at l (scan_digits l) s r /\ digits s.
Proof.
  induction l as [|b l (s & r & Sp & W)]; [exists [], []; split; [apply split_0|constructor]|].
  cbn [scan_digits]. destruct (is_digitb b) eqn:B.
  - exists (b :: s), r. split; [now apply split_cons|]. constructor; [now apply is_digitb_spec|exact W].
  - exists [], (b :: l). split; [apply split_0|constructor].
Qed.
Lemma scan_digits_complete s tl : digits s -> head_in is_digitb tl = false -> scan_digits (s ++ tl) = length s.
Proof.
  intros W H. induction W as [|b s Hb W IH].
  - destruct tl as [|x tl]; [reflexivity|]. cbn in *. now rewrite H.
  - cbn [app scan_digits length]. apply is_digitb_spec in Hb. now rewrite Hb, IH.
Qed.
Lemma scan_digits1_sound l n : scan_digits1 l = Some n -> exists s r, split_at l n s r /\ digits1 s.
Proof.
  unfold scan_digits1. destruct (head_in is_digitb l) eqn:H; [|discriminate]. intros [= <-].
  destruct (head_in_true _ _ H) as (x & t & -> & Hx). cbn [List.tl]. destruct (scan_digits_sound t) as (s & r & Sp & D).
  exists (x :: s), r. split; [now apply split_cons|]. split; [discriminate|]. constructor; [now apply is_digitb_spec|exact D].
Qed.
Lemma scan_digits1_complete s tl : digits1 s -> head_in is_digitb tl = false -> scan_digits1 (s ++ tl) = Some (length s).
Proof.
  intros [N D] H. destruct s as [|b s]; [contradiction|]. inversion D as [|? ? Hb D']; subst.
  unfold scan_digits1. cbn [app head_in List.tl]. apply is_digitb_spec in Hb. rewrite Hb. now rewrite scan_digits_complete.
Qed.

Lemma scan_int_sound l n : scan_int l = Some n -> exists s r, split_at l n s r /\ jint s.
Proof.
  unfold scan_int. destruct (head_is 48 l) eqn:Z.
  - intros [= <-]. destruct (head_is_true _ _ Z) as [t ->]. exists [48%N], t. split; [split; reflexivity|constructor].
  - destruct (head_in (in_rangeb 49 57) l) eqn:H; [|discriminate]. intros [= <-].
    destruct (head_in_true _ _ H) as (x & t & -> & Hx). cbn [List.tl]. destruct (scan_digits_sound t) as (s & r & Sp & D).
    exists (x :: s), r. split; [now apply split_cons|]. constructor; [|exact D]. unfold in_rangeb in Hx. unfold is_digit19. lia.
Qed.
Lemma scan_int_complete s tl : jint s -> head_in is_digitb tl = false -> scan_int (s ++ tl) = Some (length s).
Proof.
  intros J H. unfold scan_int. destruct J as [|d ds Hd D].
  - reflexivity.
  - cbn [app]. rewrite head_is_cons. unfold is_digit19 in Hd. destruct (N.eqb_spec 48 d); [lia|].
    cbn [head_in List.tl]. unfold in_rangeb. replace ((49 <=? d)%N && (d <=? 57)%N) with true by lia.
    now rewrite scan_digits_complete.
Qed.

Lemma scan_exp_sound l n : scan_exp l = Some n -> exists s r, split_at l n s r /\ jexp s.
Proof.
  unfold scan_exp. destruct (head_among [69; 101]%N l) eqn:H; [|discriminate].
  destruct (head_among_true _ _ H) as (e & t & -> & He). cbn [List.tl]. rewrite skipn_cons.
  destruct (scan_digits1 (skipn (scan_sign t) t)) as [k|] eqn:D; [|discriminate]. intros [= <-].
  unfold scan_sign in *. destruct (head_among [43; 45]%N t) eqn:S.
  - destruct (head_among_true _ _ S) as (g & u & -> & Hg). rewrite skipn_cons, skipn_O in D.
    destruct (scan_digits1_sound _ _ D) as (s & r & Sp & D1). exists (e :: [g] ++ s), r. split.
    + apply split_cons. apply (split_cons g u k s r Sp).
    + constructor; [cbn in He; lia|right; cbn in Hg; destruct Hg as [<-|[<-|[]]]; auto|exact D1].
  - rewrite skipn_O in D. destruct (scan_digits1_sound _ _ D) as (s & r & Sp & D1). exists (e :: [] ++ s), r. split.
    + apply split_cons. exact Sp.
    + constructor; [cbn in He; lia|now left|exact D1].
Qed.
Lemma digits1_head s tl : digits1 s -> exists b t, s ++ tl = b :: t /\ is_digit b.
Proof. intros [N D]. destruct s as [|b s]; [contradiction|]. inversion D; subst. now exists b, (s ++ tl). Qed.
Lemma scan_exp_complete s tl : jexp s -> head_in is_digitb tl = false -> scan_exp (s ++ tl) = Some (length s).
Proof.
  intros J H. destruct J as [e sign ds He Hs D].
  assert (Hs' : scan_sign (sign ++ ds ++ tl) = length sign).
  { unfold scan_sign. destruct Hs as [->|[->| ->]]; [|reflexivity..]. cbn [app].
    destruct (digits1_head ds tl D) as (b & t & -> & Hb). rewrite head_among_cons.
    replace (existsb (N.eqb b) [43; 45]%N) with false by (unfold is_digit in Hb; cbn [existsb]; lia). reflexivity. }
  unfold scan_exp. cbn [app]. rewrite head_among_cons, <- app_assoc.
  replace (existsb (N.eqb e) [69; 101]%N) with true by (cbn [existsb]; lia). cbn [List.tl].
  rewrite skipn_cons, Hs', skipn_app_exact, (scan_digits1_complete ds tl D H). cbn [length]. now rewrite app_length.
Qed.

Lemma scan_opt_exp_sound l : exists s r, split_at l (scan_opt (scan_exp l)) s r /\ opt jexp s.
Proof.
  destruct (scan_exp l) as [n|] eqn:E; cbn [scan_opt].
  - destruct (scan_exp_sound _ _ E) as (s & r & Sp & J). exists s, r. split; [exact Sp|now right].
  - exists [], l. split; [apply split_0|now left].
Qed.
Lemma scan_frac_sound l n : scan_frac l = Some n -> exists f e r, split_at l n (f ++ e) r /\ jfrac f /\ opt jexp e.
Proof.
  unfold scan_frac. destruct (head_is 46 l) eqn:H; [|discriminate]. destruct (head_is_true _ _ H) as [t ->]. cbn [List.tl].
  destruct (scan_digits1 t) as [k|] eqn:D; [|discriminate]. intros [= <-].
  destruct (scan_digits1_sound _ _ D) as (s & r & Sp & D1). cbn [Nat.add]. rewrite skipn_cons, (split_skipn _ _ _ _ Sp).
  destruct (scan_opt_exp_sound r) as (e & r' & Sp' & Je).
  exists (46%N :: s), e, r'. split; [|split; [now constructor|exact Je]].
  change ((46%N :: s) ++ e) with (46%N :: (s ++ e)). apply split_cons. exact (split_app _ _ _ _ _ _ _ Sp Sp').
Qed.
Lemma scan_tail_sound l : exists f e r, split_at l (scan_tail l) (f ++ e) r /\ opt jfrac f /\ opt jexp e.
Proof.
  unfold scan_tail. destruct (scan_frac l) as [n|] eqn:F.
  - destruct (scan_frac_sound _ _ F) as (f & e & r & Sp & Jf & Je). exists f, e, r. split; [exact Sp|split; [now right|exact Je]].
  - destruct (scan_opt_exp_sound l) as (e & r & Sp & Je). exists [], e, r. split; [exact Sp|split; [now left|exact Je]].
Qed.

(* what may follow a value: nothing, whitespace, or one of , ] } *)
Definition is_delimb (b : byte) : bool := is_wsb b || N.eqb b 44 || N.eqb b 93 || N.eqb b 125.
Definition delim (tl : list byte) : Prop := match tl with [] => True | b :: _ => is_delimb b = true end.
Lemma delim_facts tl : delim tl ->
  head_in is_digitb tl = false /\ head_is 46 tl = false /\ head_among [69; 101]%N tl = false.
Proof.
  destruct tl as [|b t]; [intros _; repeat split; reflexivity|]. cbn [delim head_in]. rewrite head_is_cons, head_among_cons.
  unfold is_delimb, is_wsb, ws_bytes, is_digitb, in_rangeb. cbn [existsb]. lia.
Qed.

Lemma scan_tail_complete f e tl : opt jfrac f -> opt jexp e -> delim tl -> scan_tail (f ++ e ++ tl) = length f + length e.
Proof.
  intros Jf Je D. destruct (delim_facts tl D) as (Hd & Hp & He).
  assert (Ee : scan_opt (scan_exp (e ++ tl)) = length e).
  { destruct Je as [->|Je]; [|now rewrite (scan_exp_complete e tl Je Hd)]. cbn [app]. unfold scan_exp. now rewrite He. }
  assert (Fe : scan_frac (e ++ tl) = None).
  { unfold scan_frac. destruct Je as [->|Je]; [cbn [app]; now rewrite Hp|]. destruct Je. cbn [app]. rewrite head_is_cons.
    destruct (N.eqb_spec 46 e); [lia|reflexivity]. }
  unfold scan_tail. destruct Jf as [->|Jf].
  - cbn [app length]. now rewrite Fe, Ee.
  - destruct Jf as [ds D1]. unfold scan_frac. cbn [app]. rewrite head_is_cons, N.eqb_refl. cbn [List.tl].
    assert (Hde : head_in is_digitb (e ++ tl) = false).
    { destruct Je as [->|Je]; [exact Hd|]. destruct Je as [x ? ? Hx]. cbn [app head_in]. unfold is_digitb, in_rangeb. lia. }
    rewrite (scan_digits1_complete ds (e ++ tl) D1 Hde).
    cbn [Nat.add]. rewrite skipn_cons, skipn_app_exact, Ee. cbn [length]. lia.
Qed.

Lemma scan_number_sound l n : scan_number l = Some n -> exists s r, split_at l n s r /\ jnumber s.
Proof.
  unfold scan_number.
  assert (Hm : exists sm t, split_at l (if head_is 45 l then 1 else 0) sm t /\ opt (eq [45%N]) sm).
  { destruct (head_is 45 l) eqn:M; [|exists [], l; split; [apply split_0|now left]].
    destruct (head_is_true _ _ M) as [t ->]. exists [45%N], t. split; [split; reflexivity|now right]. }
  destruct Hm as (sm & t & Sm & Jm). rewrite (split_skipn _ _ _ _ Sm).
  destruct (scan_int t) as [i|] eqn:I; [|discriminate]. intros [= <-].
  destruct (scan_int_sound _ _ I) as (si & r & Sp & Ji). pose proof (split_app _ _ _ _ _ _ _ Sm Sp) as Smi. rewrite (split_skipn _ _ _ _ Smi).
  destruct (scan_tail_sound r) as (f & e & r' & Sp' & Jf & Je).
  exists (sm ++ si ++ f ++ e), r'. split; [rewrite app_assoc; exact (split_app _ _ _ _ _ _ _ Smi Sp')|]. now exists sm, si, f, e.
Qed.
Lemma jint_head i tl : jint i -> exists b t, i ++ tl = b :: t /\ is_digit b.
Proof. intros [|d ds Hd _]; eexists; eexists; (split; [reflexivity|]); unfold is_digit, is_digit19 in *; lia. Qed.
Lemma scan_number_complete s tl : jnumber s -> delim tl -> scan_number (s ++ tl) = Some (length s).
Proof.
  intros (m & i & f & e & -> & Jm & Ji & Jf & Je) D.
  assert (Hfe : head_in is_digitb (f ++ e ++ tl) = false).
  { destruct Jf as [->|[ds _]]; [|reflexivity]. destruct Je as [->|[x ? ? Hx]]; [apply (delim_facts tl D)|].
    cbn [app head_in]. unfold is_digitb, in_rangeb. lia. }
  assert (Hm : (if head_is 45 (m ++ i ++ f ++ e ++ tl) then 1 else 0) = length m).
  { destruct Jm as [->| <-]; cbn [app]; [|now rewrite head_is_cons].
    destruct (jint_head i (f ++ e ++ tl) Ji) as (b & t & -> & Hb). rewrite head_is_cons.
    replace (N.eqb 45 b) with false by (unfold is_digit in Hb; lia). reflexivity. }
  unfold scan_number. rewrite <- !app_assoc, Hm, skipn_app_exact, (scan_int_complete i _ Ji Hfe), skipn_add, !skipn_app_exact.
  rewrite (scan_tail_complete f e tl Jf Je D), !app_length. f_equal; lia.
Qed.
