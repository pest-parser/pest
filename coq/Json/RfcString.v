(* C18 - scan_string is sound and complete for the RFC 8259 string relation jstring (section 7):
   unescaped scalar values in UTF-8, the eight one-letter escapes, \uXXXX.  Pure list reasoning, no PEG. *)
From Coq Require Import List Arith NArith Bool Lia ZifyN ZifyBool.
Import ListNotations.
Require Import PV.Comb.PState PV.Comb.Bytes PV.Comb.Utf8 PV.Comb.Utf8b.
Require Import PV.Json.Rfc8259 PV.Json.Recogniser PV.Json.Utf8Facts PV.Json.RfcLexical.


Lemma decode_strict_sound l c n : decode_strict l = Some (c, n) -> scalar c /\ n = length (encode c) /\ exists r, l = encode c ++ r.
Proof.
  unfold decode_strict. destruct (decode1 l) as [[c' k]|]; [|discriminate].
  destruct (scalarb c') eqn:S; cbn [andb]; [|discriminate]. destruct (prefixb (encode c') l) eqn:P; [|discriminate].
  intros [= <- <-]. split; [now apply scalarb_spec|]. split; [reflexivity|]. now apply prefixb_iff.
Qed.
Lemma decode_strict_complete c r : scalar c -> decode_strict (encode c ++ r) = Some (c, length (encode c)).
Proof.
  intros S. unfold decode_strict. rewrite decode1_encode by now apply scalar_lt. rewrite (proj2 (scalarb_spec c) S). cbn [andb].
  replace (prefixb (encode c) (encode c ++ r)) with true; [reflexivity|]. symmetry. apply prefixb_iff. now exists r.
Qed.
Lemma unescapedb_spec c : unescapedb c = true <-> unescaped c.
Proof. unfold unescapedb, in_rangeb, unescaped. lia. Qed.
Lemma is_hexb_spec b : is_hexb b = true <-> is_hex b.
Proof. unfold is_hexb, in_rangeb, is_hex. lia. Qed.

Lemma plain_char_sound l n : plain_char l = Some n ->
  exists c r, scalar c /\ unescaped c /\ l = encode c ++ r /\ n = length (encode c).
Proof.
  unfold plain_char. destruct (decode_strict l) as [[c k]|] eqn:D; [|discriminate].
  destruct (unescapedb c) eqn:U; [|discriminate]. intros [= <-].
  destruct (decode_strict_sound _ _ _ D) as (S & -> & r & ->). exists c, r. repeat split; auto. now apply unescapedb_spec.
Qed.
Lemma plain_char_complete c r : scalar c -> unescaped c -> plain_char (encode c ++ r) = Some (length (encode c)).
Proof. intros S U. unfold plain_char. rewrite (decode_strict_complete c r S). apply unescapedb_spec in U. now rewrite U. Qed.
Lemma plain_char_pos l n : plain_char l = Some n -> 1 <= n <= length l.
Proof.
  intros H. destruct (plain_char_sound _ _ H) as (c & r & _ & _ & -> & ->). rewrite app_length. pose proof (encode_length c). lia.
Qed.
Lemma plain_char_head b t : (b < 128)%N -> unescapedb b = false -> plain_char (b :: t) = None.
Proof.
  intros Hb U. destruct (plain_char (b :: t)) as [n|] eqn:P; [|reflexivity].
  destruct (plain_char_sound _ _ P) as (c & r & S & Uc & E & _). apply unescapedb_spec in Uc.
  destruct (N.lt_ge_cases c 128) as [Hc|Hc].
  - rewrite (encode_ascii c Hc) in E. cbn in E. injection E as -> _. congruence.
  - destruct (encode_head_ge c Hc) as (b' & t' & Ee & Hb'). rewrite Ee in E. cbn in E. injection E as -> _. lia.
Qed.

Lemma jchars_app a b : jchars a -> jchars b -> jchars (a ++ b).
Proof. induction 1 as [|c r Hc _ IH]; intros Hb; [exact Hb|]. rewrite <- app_assoc. constructor; auto. Qed.

Lemma scan_plain_sound f l : exists s r, split_at l (scan_plain f l) s r /\ jchars s.
Proof.
  revert l. induction f as [|f IH]; intros l; [exists [], l; split; [apply split_0|constructor]|].
  cbn [scan_plain]. destruct (plain_char l) as [n|] eqn:P; [|exists [], l; split; [apply split_0|constructor]].
  destruct (plain_char_sound _ _ P) as (c & r & S & U & -> & ->). rewrite skipn_app_exact.
  destruct (IH r) as (s' & r' & Sp & J). exists (encode c ++ s'), r'. split.
  - apply (split_app _ _ (encode c) r); [split; reflexivity|exact Sp].
  - constructor; [now constructor|exact J].
Qed.
Lemma scan_plain_fuel : forall f1 f2 l, length l <= f1 -> length l <= f2 -> scan_plain f1 l = scan_plain f2 l.
Proof.
  induction f1 as [|f1 IH]; intros [|f2] l H1 H2; try reflexivity.
  - destruct l; [reflexivity|cbn in H1; lia].
  - destruct l; [reflexivity|cbn in H2; lia].
  - cbn [scan_plain]. destruct (plain_char l) as [n|] eqn:P; [|reflexivity]. pose proof (plain_char_pos _ _ P).
    f_equal. apply IH; rewrite skipn_length; lia.
Qed.

Lemma hex4_true u : hex4 u = true ->
  exists h1 h2 h3 h4 u', u = h1 :: h2 :: h3 :: h4 :: u' /\ is_hex h1 /\ is_hex h2 /\ is_hex h3 /\ is_hex h4.
Proof.
  unfold hex4. destruct u as [|h1 [|h2 [|h3 [|h4 u']]]]; rewrite ?skipn_cons, ?skipn_O, ?skipn_nil; cbn [head_in];
    rewrite ?andb_false_r; try discriminate.
  intros H. apply andb_prop in H. destruct H as [H H4]. apply andb_prop in H. destruct H as [H H3]. apply andb_prop in H. destruct H as [H1 H2].
  exists h1, h2, h3, h4, u'. repeat split; auto; now apply is_hexb_spec.
Qed.
Lemma scan_escape_sound l k : scan_escape l = Some k -> exists s r, split_at l k s r /\ jchar s.
Proof.
  unfold scan_escape. destruct (head_is 92 l) eqn:B; [|discriminate]. destruct (head_is_true _ _ B) as [t ->]. cbn [List.tl].
  destruct (head_among simple_escapes t) eqn:S.
  - intros [= <-]. destruct (head_among_true _ _ S) as (x & u & -> & Hx). exists [92%N; x], u. split; [split; reflexivity|now constructor].
  - destruct (head_is 117 t) eqn:U; cbn [andb]; [|discriminate]. destruct (head_is_true _ _ U) as [u ->].
    rewrite !skipn_cons, skipn_O. destruct (hex4 u) eqn:H; [|discriminate]. intros [= <-].
    destruct (hex4_true _ H) as (h1 & h2 & h3 & h4 & u' & -> & H1 & H2 & H3 & H4).
    exists [92%N; 117%N; h1; h2; h3; h4], u'. split; [split; reflexivity|now constructor].
Qed.
Lemma scan_escape_pos l k : scan_escape l = Some k -> 2 <= k.
Proof.
  unfold scan_escape. destruct (head_is 92 l); [|discriminate]. destruct (head_among _ _); [intros [= <-]; lia|].
  destruct (_ && _); [intros [= <-]; lia|discriminate].
Qed.
(* the chars that are escapes start with a reverse solidus and are recognised whatever follows *)
Lemma jchar_cases s : jchar s ->
  (exists c, scalar c /\ unescaped c /\ s = encode c) \/
  (exists t, s = 92%N :: t /\ 2 <= length s /\ forall tl, scan_escape (s ++ tl) = Some (length s)).
Proof.
  intros [c S U|x Hx|h1 h2 h3 h4 H1 H2 H3 H4]; [left; now exists c|right|right].
  - eexists. split; [reflexivity|]. split; [cbn; lia|]. intros tl. unfold scan_escape. cbn [app List.tl]. rewrite head_is_cons, N.eqb_refl.
    rewrite head_among_cons. replace (existsb (N.eqb x) simple_escapes) with true; [reflexivity|].
    symmetry. apply existsb_exists. exists x. split; [exact Hx|apply N.eqb_refl].
  - eexists. split; [reflexivity|]. split; [cbn; lia|]. intros tl. unfold scan_escape. cbn [app List.tl]. rewrite head_is_cons, N.eqb_refl.
    rewrite head_among_cons. replace (existsb (N.eqb 117) simple_escapes) with false by reflexivity.
    rewrite head_is_cons, N.eqb_refl. rewrite !skipn_cons, skipn_O. unfold hex4. rewrite !skipn_cons, !skipn_O. cbn [head_in andb].
    apply is_hexb_spec in H1, H2, H3, H4. rewrite H1, H2, H3, H4. reflexivity.
Qed.

Lemma scan_inner_sound : forall f l, exists s r, split_at l (scan_inner f l) s r /\ jchars s.
Proof.
  induction f as [|f IH]; intros l; [exists [], l; split; [apply split_0|constructor]|].
  cbn [scan_inner]. destruct (scan_plain_sound (length l) l) as (s1 & r1 & Sp1 & J1). rewrite (split_skipn _ _ _ _ Sp1).
  destruct (scan_escape r1) as [k|] eqn:Es; [|exists s1, r1; split; assumption].
  destruct (scan_escape_sound _ _ Es) as (s2 & r2 & Sp2 & J2).
  pose proof (split_app _ _ _ _ _ _ _ Sp1 Sp2) as Sp12. rewrite (split_skipn _ _ _ _ Sp12).
  destruct (IH r2) as (s3 & r3 & Sp3 & J3).
  exists ((s1 ++ s2) ++ s3), r3. split; [exact (split_app _ _ _ _ _ _ _ Sp12 Sp3)|].
  rewrite <- app_assoc. apply jchars_app; [exact J1|]. constructor; assumption.
Qed.

Lemma scan_inner_plain_step f l n : plain_char l = Some n -> scan_inner (S f) l = n + scan_inner (S f) (skipn n l).
Proof.
  intros P. pose proof (plain_char_pos _ _ P) as Hn. cbn [scan_inner].
  destruct (length l) as [|m] eqn:Hl; [lia|]. cbn [scan_plain]. rewrite P.
  rewrite (scan_plain_fuel m (length (skipn n l)) (skipn n l)) by (rewrite skipn_length; lia).
  set (n' := scan_plain (length (skipn n l)) (skipn n l)). rewrite !skipn_add.
  destruct (scan_escape (skipn n' (skipn n l))) as [k|]; [|lia].
  replace (n + n' + k) with (n + (n' + k)) by lia. rewrite skipn_add. lia.
Qed.
Lemma scan_inner_complete body : jchars body -> forall f rest, length body < f -> scan_inner f (body ++ 34%N :: rest) = length body.
Proof.
  induction 1 as [|c r Hc Hr IH]; intros f rest Hf.
  - destruct f as [|f]; [lia|]. cbn [app length scan_inner scan_plain].
    rewrite (plain_char_head 34 rest) by reflexivity. rewrite skipn_O. unfold scan_escape. rewrite head_is_cons. reflexivity.
  - rewrite app_length in Hf. destruct (jchar_cases c Hc) as [(x & Sx & U & ->)|(t & -> & H2 & He)].
    + destruct f as [|f]; [lia|]. rewrite <- app_assoc.
      rewrite (scan_inner_plain_step f _ _ (plain_char_complete x _ Sx U)), skipn_app_exact. rewrite IH. 2: blia. now rewrite app_length.
    + destruct f as [|f]; [lia|]. rewrite <- app_assoc. cbn [scan_inner]. cbn [app]. cbn [length scan_plain].
      rewrite (plain_char_head 92 _) by reflexivity. rewrite skipn_O. change (92%N :: t ++ r ++ 34%N :: rest) with ((92%N :: t) ++ r ++ 34%N :: rest).
      rewrite He. cbn [Nat.add]. rewrite skipn_app_exact, IH by blia. rewrite app_length. cbn [length] in *. blia.
Qed.

Lemma scan_string_sound l n : scan_string l = Some n -> exists s r, split_at l n s r /\ jstring s.
Proof.
  unfold scan_string. destruct (head_is 34 l) eqn:Q; [|discriminate]. destruct (head_is_true _ _ Q) as [t ->]. cbn [List.tl].
  remember (length (_ :: t)) as f eqn:Hf. clear Hf. destruct (scan_inner_sound f t) as (s & r & Sp & J). cbn [Nat.add]. rewrite skipn_cons, (split_skipn _ _ _ _ Sp).
  destruct (head_is 34 r) eqn:Q2; [|discriminate]. destruct (head_is_true _ _ Q2) as [r' ->]. intros [= <-].
  exists (34%N :: s ++ [34%N]), r'. split; [|exists s; split; [reflexivity|exact J]].
  destruct Sp as [E L]. rewrite <- L. split; [rewrite E; cbn [app]; now rewrite <- app_assoc|cbn [length]; rewrite app_length; cbn [length]; lia].
Qed.
Lemma scan_string_complete s tl : jstring s -> scan_string (s ++ tl) = Some (length s).
Proof.
  intros (body & -> & J). unfold scan_string. cbn [app]. rewrite head_is_cons, N.eqb_refl. cbn [List.tl]. rewrite <- app_assoc. cbn [app].
  rewrite (scan_inner_complete body J). 2: { cbn [length]. rewrite app_length. cbn [length]. blia. }
  cbn [Nat.add]. rewrite skipn_cons, skipn_app_exact, head_is_cons, N.eqb_refl. cbn [length]. rewrite app_length. cbn [length]. f_equal; blia.
Qed.
Lemma jstring_head s : jstring s -> exists t, s = 34%N :: t.
Proof. intros (body & -> & _). eexists. reflexivity. Qed.
