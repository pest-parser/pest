(* C18 - scanners: a small compositional library that relates expressions evaluated in ATOMIC mode (the interior of
   an @ rule: no implicit whitespace, no nodes) to byte-level scanning functions  list byte -> option nat.

   lexb B e sc : on every valid UTF-8 suffix l of the input of length <= B, at its offset p, the expression e
                 (Atomic, any emit, any stack) matches exactly the first n bytes when sc l = Some n and fails when
                 sc l = None; moreover the scanner stays inside l and ends on a char boundary.
   The bound B only serves recursive rules (json.pest: inner).                                               *)
From Coq Require Import List Arith NArith ZArith Bool Lia String.
Import ListNotations.
Require Import PV.Comb.PState PV.Comb.Bytes PV.Comb.Utf8 PV.Comb.Utf8b PV.Iter.Queue PV.Peg.Ast PV.Peg.Spec.
Require Import PV.Json.Rfc8259 PV.Json.Recogniser PV.Json.Utf8Facts PV.Json.EvalFacts.

Section Lex.
Variable G : grammar.
Variable uprop : name -> option (N -> bool).
Variable w : list byte.
Notation E := (evals G uprop w).

Definition at_ (p : nat) (l : list byte) : Prop := skipn p w = l.
Lemma at_skip p l k : at_ p l -> at_ (p + k) (skipn k l).
Proof. unfold at_. intros <-. apply skipn_add. Qed.

Definition lex (p : nat) (sg : list str) (o : option nat) : sres :=
  match o with Some n => SMatch (p + n) sg [] | None => SFail end.

Lemma ev_lit a emit s p l sg : at_ p l -> E a emit (EStr s) p sg (lex p sg (scan_lit s l)).
Proof.
  intros H. generalize (ev_str G uprop w a emit s p sg). unfold lit, scan_lit, lex. rewrite H. destruct (prefixb s l); auto.
Qed.
Lemma one_char_at ok p l sg : at_ p l ->
  one_char w ok p sg = match decode1 l with Some (c, n) => if ok c then SMatch (p + n) sg [] else SFail | None => SFail end.
Proof. intros H. unfold one_char, char_here. rewrite H. reflexivity. Qed.

Lemma skip0 emit p sg : skips G uprop w Atomic emit p sg (SMatch p sg []).
Proof. now apply skips_atomic. Qed.

Definition lexb (B : nat) (e : expr) (sc : list byte -> option nat) : Prop :=
  forall emit p l sg, List.length l <= B -> at_ p l -> valid_utf8 l ->
    E Atomic emit e p sg (lex p sg (sc l)) /\
    (forall n, sc l = Some n -> n <= List.length l /\ valid_utf8 (skipn n l)).
Definition lexes (e : expr) (sc : list byte -> option nat) : Prop := forall B, lexb B e sc.

Definition sc_seq (s1 s2 : list byte -> option nat) (l : list byte) : option nat :=
  match s1 l with Some n1 => match s2 (skipn n1 l) with Some n2 => Some (n1 + n2) | None => None end | None => None end.
Definition sc_or (s1 s2 : list byte -> option nat) (l : list byte) : option nat :=
  match s1 l with Some n => Some n | None => s2 l end.
Definition sc_opt (s : list byte -> option nat) (l : list byte) : option nat := Some (scan_opt (s l)).
Fixpoint star (sc : list byte -> option nat) (fuel : nat) (l : list byte) : nat :=
  match fuel with
  | 0 => 0
  | S f => match sc l with Some n => n + star sc f (skipn n l) | None => 0 end
  end.
Definition sc_star (sc : list byte -> option nat) (l : list byte) : option nat := Some (star sc (List.length l) l).
Definition sc_byte (b : byte) (l : list byte) : option nat := if head_is b l then Some 1 else None.
Definition sc_among (bs : list byte) (l : list byte) : option nat := if head_among bs l then Some 1 else None.
Definition sc_class (ok : N -> bool) (l : list byte) : option nat := if head_in ok l then Some 1 else None.
(* one char of a class, of any length *)
Definition sc_char (ok : N -> bool) (l : list byte) : option nat :=
  match decode1 l with Some (c, n) => if ok c then Some n else None | None => None end.
Definition sc_not (sc : list byte -> option nat) (l : list byte) : option nat :=
  match sc l with Some _ => None | None => Some 0 end.

Lemma lexb_weaken B B' e sc : B' <= B -> lexb B e sc -> lexb B' e sc.
Proof. intros H L emit p l sg Hl. apply L. lia. Qed.
Lemma lexb_ext B e sc sc' : lexb B e sc -> (forall l, List.length l <= B -> valid_utf8 l -> sc l = sc' l) -> lexb B e sc'.
Proof. intros L H emit p l sg Hl Ha V. rewrite <- (H l Hl V). now apply L. Qed.

Lemma lit_stays s l : Forall ascii s -> valid_utf8 l -> prefixb s l = true ->
  List.length s <= List.length l /\ valid_utf8 (skipn (List.length s) l).
Proof.
  intros As V P. apply prefixb_iff in P. destruct P as [r ->]. rewrite app_length, skipn_app_exact.
  split; [lia|exact (valid_skip_ascii s As r V)].
Qed.
Lemma lexb_lit B s : Forall ascii s -> lexb B (EStr s) (scan_lit s).
Proof.
  intros As emit p l sg _ Ha V. split; [now apply ev_lit|].
  unfold scan_lit. intros n. destruct (prefixb s l) eqn:P; [|discriminate]. intros [= <-]. now apply lit_stays.
Qed.
Lemma lexb_byte B b : ascii b -> lexb B (EStr [b]) (sc_byte b).
Proof. intros Hb. apply (lexb_lit B [b]). constructor; [exact Hb|constructor]. Qed.

(* b0 | b1 | ... | bn as pest_meta builds it: a left-nested choice of one-byte strings *)
Definition bytes_choice (b0 : byte) (rest : list byte) : expr :=
  fold_left (fun acc b => EChoice acc (EStr [b])) rest (EStr [b0]).
Lemma ev_bytes_choice_aux a emit p l sg rest : at_ p l -> forall e0 (t0 : bool),
  E a emit e0 p sg (lex p sg (if t0 then Some 1 else None)) ->
  E a emit (fold_left (fun acc b => EChoice acc (EStr [b])) rest e0) p sg (lex p sg (if t0 || head_among rest l then Some 1 else None)).
Proof.
  intros Ha. induction rest as [|b rest IH]; intros e0 t0 H0.
  - cbn [fold_left]. unfold head_among. cbn [existsb]. rewrite orb_false_r. exact H0.
  - cbn [fold_left]. unfold head_among. cbn [existsb]. rewrite orb_assoc. apply IH.
    destruct t0; cbn [orb].
    + apply ev_choice_l. exact H0.
    + eapply ev_choice_r; [exact H0|]. apply (ev_lit a emit [b] p l sg Ha).
Qed.
Lemma ev_bytes_choice a emit b0 rest p l sg : at_ p l ->
  E a emit (bytes_choice b0 rest) p sg (lex p sg (sc_among (b0 :: rest) l)).
Proof.
  intros Ha. unfold bytes_choice, sc_among. change (head_among (b0 :: rest) l) with (head_is b0 l || head_among rest l).
  apply ev_bytes_choice_aux; [exact Ha|]. apply (ev_lit a emit [b0] p l sg Ha).
Qed.
Lemma lexb_among B b0 rest : Forall ascii (b0 :: rest) -> lexb B (bytes_choice b0 rest) (sc_among (b0 :: rest)).
Proof.
  intros As emit p l sg _ Ha V. split; [now apply ev_bytes_choice|].
  unfold sc_among. intros n Hn. destruct l as [|x r]; [rewrite head_among_nil in Hn; discriminate|].
  rewrite head_among_cons in Hn. destruct (existsb (N.eqb x) (b0 :: rest)) eqn:Ex; [|discriminate]. injection Hn as <-.
  cbn [skipn List.length]. split; [lia|]. apply existsb_exists in Ex. destruct Ex as (y & Hy & Exy). apply N.eqb_eq in Exy. subst y.
  rewrite Forall_forall in As. exact (valid_tail x r V (As x Hy)).
Qed.

Lemma lexb_one_char B e ok : (forall a emit p sg, E a emit e p sg (one_char w ok p sg)) -> lexb B e (sc_char ok).
Proof.
  intros H emit p l sg _ Ha V. unfold sc_char. split.
  - generalize (H Atomic emit p sg). rewrite (one_char_at ok p l sg Ha). unfold lex.
    destruct (decode1 l) as [[c k]|]; [destruct (ok c)|]; auto.
  - intros n. destruct l as [|b0 r0] eqn:El; [discriminate|]. rewrite <- El in *.
    destruct (valid_char l V ltac:(rewrite El; discriminate)) as (c & l' & _ & E1 & V' & ->).
    destruct (ok c); [|discriminate]. intros [= <-]. rewrite E1, app_length, skipn_app_exact. split; [lia|exact V'].
Qed.
Lemma lexb_range B lo hi : lexb B (ERange lo hi) (sc_char (in_range lo hi)).
Proof. apply lexb_one_char. intros. apply ev_range. Qed.
Lemma lexb_builtin B n ok : reserved n = false -> ascii_builtin n = Some ok -> lexb B (EIdent n) (sc_char ok).
Proof. intros Hr Hb. apply lexb_one_char. intros. now apply ev_builtin. Qed.
(* for a class of ASCII characters the first byte decides *)
Lemma lexb_class B n ok : reserved n = false -> ascii_builtin n = Some ok -> ascii_class ok -> lexb B (EIdent n) (sc_class ok).
Proof. intros Hr Hb A. apply (lexb_ext B _ _ _ (lexb_builtin B n ok Hr Hb)). intros l _ V. exact (class_at ok l V A). Qed.

Lemma lexb_seq_gen B B2 e1 e2 s1 s2 :
  lexb B e1 s1 -> lexb B2 e2 s2 -> (forall l n, List.length l <= B -> s1 l = Some n -> List.length l - n <= B2) ->
  lexb B (ESeq e1 e2) (sc_seq s1 s2).
Proof.
  intros L1 L2 HB emit p l sg Hl Ha V. destruct (L1 emit p l sg Hl Ha V) as [E1 P1]. unfold sc_seq.
  destruct (s1 l) as [n1|] eqn:S1.
  - destruct (P1 n1 eq_refl) as [Hn1 V1].
    assert (Hl2 : List.length (skipn n1 l) <= B2) by (rewrite skipn_length; eauto).
    destruct (L2 emit (p + n1) (skipn n1 l) sg Hl2 (at_skip p l n1 Ha) V1) as [E2 P2]. split.
    + generalize (ev_seq G uprop w E1 (skip0 emit _ sg) E2).
      destruct (s2 (skipn n1 l)) as [n2|]; unfold lex; [rewrite Nat.add_assoc|]; auto.
    + intros n. destruct (s2 (skipn n1 l)) as [n2|] eqn:S2; [|discriminate]. intros [= <-].
      destruct (P2 n2 eq_refl) as [Hn2 V2]. rewrite skipn_length in Hn2. rewrite skipn_add. split; [lia|exact V2].
  - split; [|discriminate]. apply ev_seq_fail_l. exact E1.
Qed.
Lemma lexb_seq B e1 e2 s1 s2 : lexb B e1 s1 -> lexb B e2 s2 -> lexb B (ESeq e1 e2) (sc_seq s1 s2).
Proof. intros L1 L2. apply (lexb_seq_gen B B e1 e2 s1 s2 L1 L2). intros; lia. Qed.

Lemma lexb_choice B e1 e2 s1 s2 : lexb B e1 s1 -> lexb B e2 s2 -> lexb B (EChoice e1 e2) (sc_or s1 s2).
Proof.
  intros L1 L2 emit p l sg Hl Ha V. destruct (L1 emit p l sg Hl Ha V) as [E1 P1]. destruct (L2 emit p l sg Hl Ha V) as [E2 P2].
  unfold sc_or. destruct (s1 l) as [n1|] eqn:S1.
  - split; [apply ev_choice_l; exact E1|]. intros n [= <-]. now apply P1.
  - split; [eapply ev_choice_r; [exact E1|exact E2]|exact P2].
Qed.
Lemma lexb_opt B e s : lexb B e s -> lexb B (EOpt e) (sc_opt s).
Proof.
  intros L emit p l sg Hl Ha V. destruct (L emit p l sg Hl Ha V) as [E1 P1]. unfold sc_opt, scan_opt.
  destruct (s l) as [n1|] eqn:S1.
  - split; [exact (ev_opt G uprop w E1)|]. intros n [= <-]. now apply P1.
  - split; [unfold lex; rewrite Nat.add_0_r; exact (ev_opt G uprop w E1)|]. intros n [= <-]. cbn [skipn]. split; [lia|exact V].
Qed.

(* a negative predicate reads nothing; its operand is evaluated without emitting *)
Lemma lexb_not B e s : lexb B e s -> lexb B (ENegPred e) (sc_not s).
Proof.
  intros L emit p l sg Hl Ha V. destruct (L false p l sg Hl Ha V) as [E1 _]. unfold sc_not. destruct (s l) as [n|].
  - split; [exact (ev_neg G uprop w E1)|discriminate].
  - split; [unfold lex; rewrite Nat.add_0_r; exact (ev_neg G uprop w E1)|]. intros n [= <-]. split; [lia|exact V].
Qed.

Lemma star_loop B x sc : lexb B x sc -> (forall l n, sc l = Some n -> 0 < n) ->
  forall f emit l p sg acc, List.length l <= f -> List.length l <= B -> at_ p l -> valid_utf8 l ->
    reps G uprop w Atomic emit x p sg acc (SMatch (p + star sc f l) sg acc) /\
    star sc f l <= List.length l /\ valid_utf8 (skipn (star sc f l) l).
Proof.
  intros L Pos. induction f as [|f IH]; intros emit l p sg acc Hf Hl Ha V; destruct (L emit p l sg Hl Ha V) as [E1 P1].
  (* a round that succeeds reads something, so the fuel is not exhausted before the input *)
  all: destruct (sc l) as [n|] eqn:S1; cbn [star]; rewrite ?S1;
    [destruct (P1 n eq_refl) as [Hn V1]; pose proof (Pos l n S1) as Hp
    |rewrite Nat.add_0_r; split; [|split; [lia|exact V]];
     apply loops_stop; exact (rep_unit_ev G uprop w (skip0 emit p sg) E1)].
  - lia.
  - assert (Hf2 : List.length (skipn n l) <= f) by (rewrite skipn_length; lia).
    assert (Hl2 : List.length (skipn n l) <= B) by (rewrite skipn_length; lia).
    destruct (IH emit (skipn n l) (p + n) sg (acc ++ [] ++ []) Hf2 Hl2 (at_skip p l n Ha) V1) as (R & Hs & Vs).
    rewrite skipn_length in Hs. rewrite <- skipn_add in Vs. rewrite Nat.add_assoc. split; [|split; [lia|exact Vs]].
    eapply loops_step; [exact (rep_unit_ev G uprop w (skip0 emit p sg) E1)|].
    cbn [app] in R. rewrite app_nil_r in R. cbn [app]. rewrite app_nil_r. exact R.
Qed.
Lemma lexb_star B x sc : lexb B x sc -> (forall l n, sc l = Some n -> 0 < n) -> lexb B (ERep x) (sc_star sc).
Proof.
  intros L Pos emit p l sg Hl Ha V.
  destruct (star_loop B x sc L Pos (List.length l) emit l p sg [] (le_n _) Hl Ha V) as (R & Hs & Vs). unfold sc_star. split.
  - apply ev_rep_atomic; [reflexivity|exact R].
  - intros n [= <-]. split; assumption.
Qed.
(* default features: e+ is e ~ e* *)
Definition sc_plus (sc : list byte -> option nat) : list byte -> option nat := sc_seq sc (sc_star sc).
Lemma lexb_plus B x sc : lexb B x sc -> (forall l n, sc l = Some n -> 0 < n) -> lexb B (ERepOnce x) (sc_plus sc).
Proof.
  intros L Pos emit p l sg Hl Ha V.
  destruct (lexb_seq B x (ERep x) sc (sc_star sc) L (lexb_star B x sc L Pos) emit p l sg Hl Ha V) as [E1 P1].
  split; [apply ev_rep_once; exact E1|exact P1].
Qed.
(* e{4} is e ~ (e ~ (e ~ e)) *)
Lemma lexb_exact4 B x sc : lexb B x sc -> lexb B (ERepExact x 4) (sc_seq sc (sc_seq sc (sc_seq sc sc))).
Proof.
  intros L emit p l sg Hl Ha V.
  destruct (lexb_seq B _ _ _ _ L (lexb_seq B _ _ _ _ L (lexb_seq B _ _ _ _ L L)) emit p l sg Hl Ha V) as [E1 P1].
  split; [eapply ev_rep_exact; [reflexivity|exact E1]|exact P1].
Qed.

(* an @ rule called from the interior of an @ rule: its body, no node *)
Lemma lexb_call B n body sc :
  reserved n = false -> ascii_builtin n = None -> is_special n = false ->
  find_rule G n = Some {| rname := n; rty := RAtomic; rexpr := body |} ->
  lexb B body sc -> lexb B (EIdent n) sc.
Proof.
  intros Hr Hb Hs Hf L emit p l sg Hl Ha V. destruct (L emit p l sg Hl Ha V) as [E1 P1]. split; [|exact P1].
  assert (M : rule_mode (is_special n) RAtomic Atomic emit = (false, Atomic)).
  { rewrite Hs. unfold rule_mode, tok. cbn [atom_eqb negb]. rewrite andb_false_r. reflexivity. }
  generalize (ev_rule G uprop w Atomic emit n _ false Atomic p sg _ Hr Hb Hf M E1).
  unfold wrap, lex. destruct (sc l); auto.
Qed.

End Lex.
Arguments bytes_choice b0%N rest.
Arguments sc_byte b%N l.
