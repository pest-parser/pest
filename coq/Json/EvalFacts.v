(* C18 - a small big-step toolkit over Layer S (Peg/Spec.v), generic in the grammar.
   `evals a emit e p sg r` : with enough fuel, `eval` of e at (p, sg) returns the definite result r
   (r is SMatch or SFail in every use).  One lemma per construct of the grammar language that json.pest uses;
   they are what "symbolic execution" of a concrete grammar is made of.  Fuel monotonicity comes from
   Peg/SpecFacts.v.  grammar-extras is off (default features, as pest_grammars is built).               *)
From Coq Require Import List Arith NArith ZArith Bool Lia String.
Import ListNotations.
Require Import PV.Comb.PState PV.Comb.Bytes PV.Iter.Queue PV.Peg.Ast PV.Peg.Spec PV.Peg.SpecFacts.

Section Evals.
Variable G : grammar.
Variable uprop : name -> option (N -> bool).
Variable w : list byte.
Notation ev := (eval G false uprop w).

Definition evals (a : atom) (emit : bool) (e : expr) (p : nat) (sg : list str) (r : sres) : Prop :=
  exists f0, forall f, f0 <= f -> ev f a emit e p sg = r.
(* the implicit whitespace between sequence elements / repetition units *)
Definition skips (a : atom) (emit : bool) (p : nat) (sg : list str) (r : sres) : Prop :=
  exists f0, forall f, f0 <= f -> skip_with G (ev f) f a emit p sg = r.
Definition units (U : nat -> nat -> list str -> sres) (p : nat) (sg : list str) (r : sres) : Prop :=
  exists f0, forall f, f0 <= f -> U f p sg = r.
Definition loops (U : nat -> nat -> list str -> sres) (p : nat) (sg : list str) (acc : list tree) (r : sres) : Prop :=
  exists f0, forall n f, f0 <= n -> f0 <= f -> loop n (U f) p sg acc = r.
Definition rep_U (a : atom) (emit : bool) (x : expr) : nat -> nat -> list str -> sres :=
  fun f => rep_unit G (ev f) f a emit x.
Definition reps (a : atom) (emit : bool) (x : expr) := loops (rep_U a emit x).
Definition many_U (a : atom) (emit : bool) (n : name) : nat -> nat -> list str -> sres :=
  fun f p sg => ev f a emit (EIdent n) p sg.

Lemma evals_det a emit e p sg r1 r2 : evals a emit e p sg r1 -> evals a emit e p sg r2 -> r1 = r2.
Proof.
  intros [f1 H1] [f2 H2]. rewrite <- (H1 (max f1 f2)) by lia. rewrite <- (H2 (max f1 f2)) by lia. reflexivity.
Qed.

Lemma evals_of_eval f a emit e p sg r : ev f a emit e p sg = r -> r <> SFuel -> evals a emit e p sg r.
Proof. intros H Hr. exists f. intros f' Hf. exact (eval_mono G false uprop w f f' Hf _ _ _ _ _ _ H Hr). Qed.

Lemma evals_eval a emit e p sg r f r' : evals a emit e p sg r -> ev f a emit e p sg = r' -> r' <> SFuel -> r' = r.
Proof. intros H1 H2 Hr. apply (evals_det a emit e p sg); [now apply (evals_of_eval f)|exact H1]. Qed.

(* one unfolding of `eval`: the fuel of the parts, plus one *)
Lemma evals_step f0 a emit e p sg r : (forall f, f0 <= f -> ev (S f) a emit e p sg = r) -> evals a emit e p sg r.
Proof. intros H. exists (S f0). intros [|f] Hf; [lia|]. apply H. lia. Qed.

Lemma loops_stop U p sg acc : units U p sg SFail -> loops U p sg acc (SMatch p sg acc).
Proof.
  intros [f0 H]. exists (S f0). intros n f Hn Hf. destruct n as [|n]; [lia|]. cbn [loop]. rewrite H by lia. reflexivity.
Qed.
Lemma loops_step U p sg acc p1 sg1 f1 r :
  units U p sg (SMatch p1 sg1 f1) -> loops U p1 sg1 (acc ++ f1) r -> loops U p sg acc r.
Proof.
  intros [f0 H] [g0 H2]. exists (S (max f0 g0)). intros n f Hn Hf. destruct n as [|n]; [lia|]. cbn [loop].
  rewrite H by lia. apply H2; lia.
Qed.

Lemma ev_str a emit s p sg :
  evals a emit (EStr s) p sg (match lit w s p with Some q => SMatch q sg [] | None => SFail end).
Proof. apply (evals_step 0). reflexivity. Qed.
Lemma ev_range a emit lo hi p sg : evals a emit (ERange lo hi) p sg (one_char w (in_range lo hi) p sg).
Proof. apply (evals_step 0). reflexivity. Qed.

Lemma ev_seq a emit l r p sg p1 sg1 f1 p2 sg2 f2 res :
  evals a emit l p sg (SMatch p1 sg1 f1) -> skips a emit p1 sg1 (SMatch p2 sg2 f2) -> evals a emit r p2 sg2 res ->
  evals a emit (ESeq l r) p sg (match res with SMatch p3 sg3 f3 => SMatch p3 sg3 (f1 ++ f2 ++ f3) | x => x end).
Proof.
  intros [x1 H1] [x2 H2] [x3 H3]. apply (evals_step (max x1 (max x2 x3))). intros f Hf.
  cbn [eval]. rewrite H1 by lia. rewrite H2 by lia. rewrite H3 by lia. destruct res; reflexivity.
Qed.
Lemma ev_seq_fail_l a emit l r p sg : evals a emit l p sg SFail -> evals a emit (ESeq l r) p sg SFail.
Proof.
  intros [x1 H1]. apply (evals_step x1). intros f Hf. cbn [eval]. rewrite H1 by lia. reflexivity.
Qed.

Lemma ev_choice_l a emit l r p sg p1 sg1 f1 :
  evals a emit l p sg (SMatch p1 sg1 f1) -> evals a emit (EChoice l r) p sg (SMatch p1 sg1 f1).
Proof.
  intros [x1 H1]. apply (evals_step x1). intros f Hf. cbn [eval]. rewrite H1 by lia. reflexivity.
Qed.
Lemma ev_choice_r a emit l r p sg res :
  evals a emit l p sg SFail -> evals a emit r p sg res -> evals a emit (EChoice l r) p sg res.
Proof.
  intros [x1 H1] [x2 H2]. apply (evals_step (max x1 x2)). intros f Hf. cbn [eval].
  rewrite H1 by lia. apply H2; lia.
Qed.
Lemma ev_opt a emit x p sg res :
  evals a emit x p sg res -> evals a emit (EOpt x) p sg (match res with SFail => SMatch p sg [] | r => r end).
Proof.
  intros [x1 H1]. apply (evals_step x1). intros f Hf. cbn [eval]. rewrite H1 by lia. destruct res; reflexivity.
Qed.

(* the operand of a predicate is evaluated with emit = false *)
Lemma ev_neg a emit x p sg res : evals a false x p sg res ->
  evals a emit (ENegPred x) p sg (match res with SMatch _ _ _ => SFail | SFail => SMatch p sg [] | SFuel => SFuel end).
Proof.
  intros [x1 H1]. apply (evals_step x1). intros f Hf. cbn [eval]. rewrite H1 by lia. destruct res; reflexivity.
Qed.

Lemma rep_unit_ev a emit x p sg p1 sg1 f1 res :
  skips a emit p sg (SMatch p1 sg1 f1) -> evals a emit x p1 sg1 res ->
  units (rep_U a emit x) p sg (match res with SMatch p2 sg2 f2 => SMatch p2 sg2 (f1 ++ f2) | r => r end).
Proof.
  intros [x1 H1] [x2 H2]. exists (max x1 x2). intros f Hf. unfold rep_U, rep_unit. rewrite H1 by lia. rewrite H2 by lia.
  destruct res; reflexivity.
Qed.
Lemma ev_rep_none a emit x p sg : evals a emit x p sg SFail -> evals a emit (ERep x) p sg (SMatch p sg []).
Proof.
  intros [x1 H1]. apply (evals_step x1). intros f Hf. cbn [eval]. rewrite H1 by lia. reflexivity.
Qed.
Lemma ev_rep_some a emit x p sg p1 sg1 f1 r :
  evals a emit x p sg (SMatch p1 sg1 f1) -> reps a emit x p1 sg1 f1 r -> evals a emit (ERep x) p sg r.
Proof.
  intros [x1 H1] [x2 H2]. apply (evals_step (max x1 x2)). intros f Hf. cbn [eval]. rewrite H1 by lia.
  unfold rep_from_with. apply H2; lia.
Qed.
(* extras = false: e+ is e ~ e* *)
Lemma ev_rep_once a emit x p sg r : evals a emit (ESeq x (ERep x)) p sg r -> evals a emit (ERepOnce x) p sg r.
Proof.
  intros [x1 H1]. apply (evals_step x1). intros f Hf. cbn [eval]. apply H1; lia.
Qed.
Lemma ev_rep_exact a emit x n u p sg r :
  unroll_node false (ERepExact x n) = Some u -> evals a emit u p sg r -> evals a emit (ERepExact x n) p sg r.
Proof.
  intros Hu [x1 H1]. apply (evals_step x1). intros f Hf. cbn [eval]. rewrite Hu. apply H1; lia.
Qed.

Lemma ev_soi a emit p sg : evals a emit (EIdent (nm "SOI")) p sg (if Nat.eqb p 0 then SMatch p sg [] else SFail).
Proof. apply (evals_step 0). reflexivity. Qed.
Lemma ev_eoi a emit p sg :
  evals a emit (EIdent (nm "EOI")) p sg
    (if Nat.eqb p (List.length w) then SMatch p sg (if tok a emit then [Node (rule_id G (nm "EOI")) None p p []] else []) else SFail).
Proof. apply (evals_step 0). reflexivity. Qed.

Definition reserved (n : name) : bool :=
  str_eqb n (nm "SOI") || str_eqb n (nm "EOI") || str_eqb n (nm "PEEK") || str_eqb n (nm "POP") || str_eqb n (nm "DROP")
  || str_eqb n (nm "PEEK_ALL") || str_eqb n (nm "POP_ALL") || str_eqb n (nm "NEWLINE").

Lemma ev_ident_unfold f a emit n p sg : reserved n = false ->
  ev (S f) a emit (EIdent n) p sg =
  match ascii_builtin n with
  | Some ok => one_char w ok p sg
  | None =>
    match find_rule G n with
    | Some r =>
        let '(tk, a2) := rule_mode (is_special n) (rty r) a emit in
        match ev f a2 emit (rexpr r) p sg with
        | SMatch q sg2 f2 => SMatch q sg2 (if tk then [Node (rule_id G n) None p q f2] else f2)
        | r => r
        end
    | None => match uprop n with Some ok => one_char w ok p sg | None => SFail end
    end
  end.
Proof.
  unfold reserved. intros H.
  repeat (apply orb_false_elim in H; destruct H as [H ?]).
  cbn [eval].
  repeat match goal with E : str_eqb n ?s = false |- _ => rewrite E; clear E end.
  reflexivity.
Qed.

Lemma ev_builtin a emit n ok p sg : reserved n = false -> ascii_builtin n = Some ok ->
  evals a emit (EIdent n) p sg (one_char w ok p sg).
Proof.
  intros Hr Ha. apply (evals_step 0). intros f _. rewrite ev_ident_unfold by exact Hr. now rewrite Ha.
Qed.

Definition wrap (tk : bool) (id p : nat) (r : sres) : sres :=
  match r with
  | SMatch q sg2 f2 => SMatch q sg2 (if tk then [Node id None p q f2] else f2)
  | r => r
  end.
Lemma ev_rule a emit n rl tk a2 p sg r :
  reserved n = false -> ascii_builtin n = None -> find_rule G n = Some rl ->
  rule_mode (is_special n) (rty rl) a emit = (tk, a2) ->
  evals a2 emit (rexpr rl) p sg r ->
  evals a emit (EIdent n) p sg (wrap tk (rule_id G n) p r).
Proof.
  intros Hr Ha Hf Hm [x1 H1]. apply (evals_step x1). intros f Hx.
  rewrite ev_ident_unfold by exact Hr. rewrite Ha, Hf, Hm. rewrite H1 by lia. destruct r; reflexivity.
Qed.

Lemma skips_atomic a emit p sg : atom_eqb a NonAtomic = false -> skips a emit p sg (SMatch p sg []).
Proof. intros H. exists 0. intros f _. unfold skip_with. rewrite H. reflexivity. Qed.
Lemma skips_ws emit p sg r :
  has_rule G (nm "WHITESPACE") = true -> has_rule G (nm "COMMENT") = false ->
  loops (many_U NonAtomic emit (nm "WHITESPACE")) p sg [] r -> skips NonAtomic emit p sg r.
Proof.
  intros H1 H2 [x H]. exists x. intros f Hf. unfold skip_with. rewrite H1, H2. cbn [atom_eqb negb]. unfold many_with.
  apply (H f f); lia.
Qed.

(* in atomic mode ( no implicit whitespace ) e* is the plain iteration of e from the start *)
Lemma ev_rep_atomic a emit x p sg r :
  atom_eqb a NonAtomic = false -> reps a emit x p sg [] r -> evals a emit (ERep x) p sg r.
Proof.
  intros Ha [x1 H1]. apply (evals_step x1). intros f Hf.
  rewrite <- (H1 (S f) f) by lia.
  assert (E : rep_U a emit x f p sg = ev f a emit x p sg).
  { unfold rep_U, rep_unit, skip_with. rewrite Ha. cbn [negb app]. destruct (ev f a emit x p sg); reflexivity. }
  cbn [eval loop]. rewrite E. unfold rep_from_with. destruct (ev f a emit x p sg); reflexivity.
Qed.

End Evals.
Arguments ev_seq G uprop w {a emit l r p sg p1 sg1 f1 p2 sg2 f2 res}.
Arguments rep_unit_ev G uprop w {a emit x p sg p1 sg1 f1 res}.
Arguments ev_opt G uprop w {a emit x p sg res}.
Arguments ev_neg G uprop w {a emit x p sg res}.
