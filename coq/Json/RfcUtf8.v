(* C18 - every JSON text per Rfc8259.v is valid UTF-8 (RFC 8259 section 8.1), so restricting the theorem to the
   byte sequences that are Rust strings loses nothing on the RFC side. *)
From Coq Require Import List Arith NArith Bool Lia ZifyN ZifyBool.
Import ListNotations.
Require Import PV.Comb.PState PV.Comb.Bytes PV.Comb.Utf8 PV.Comb.Utf8b.
Require Import PV.Json.Rfc8259 PV.Json.Recogniser PV.Json.Utf8Facts PV.Json.RfcStructure.

Lemma ascii_valid s : Forall ascii s -> valid_utf8 s.
Proof. exact (valid_ascii s). Qed.
Lemma ws_ascii s : ws s -> Forall ascii s.
Proof. apply Forall_impl. unfold is_ws, ascii. lia. Qed.
Lemma digits_ascii s : digits s -> Forall ascii s.
Proof. apply Forall_impl. unfold is_digit, ascii. lia. Qed.
Lemma jnumber_ascii s : jnumber s -> Forall ascii s.
Proof.
  intros (m & i & f & e & -> & Jm & Ji & Jf & Je). repeat (apply Forall_app; split).
  - destruct Jm as [->| <-]; repeat constructor.
  - destruct Ji as [|d ds Hd D]; [repeat constructor|]. constructor; [unfold is_digit19, ascii in *; lia|now apply digits_ascii].
  - destruct Jf as [->|[ds [_ D]]]; [constructor|]. constructor; [reflexivity|now apply digits_ascii].
  - destruct Je as [->|[x sg ds Hx Hs [_ D]]]; [constructor|]. constructor; [unfold ascii; lia|]. apply Forall_app. split; [|now apply digits_ascii].
    destruct Hs as [->|[->| ->]]; repeat constructor.
Qed.
Lemma jchar_valid c : jchar c -> valid_utf8 c.
Proof.
  intros [x S U|x Hx|h1 h2 h3 h4 H1 H2 H3 H4].
  - rewrite <- (app_nil_r (encode x)). apply valid_cons; [exact S|apply valid_nil].
  - apply ascii_valid. constructor; [reflexivity|]. constructor; [|constructor]. unfold simple_escapes in Hx. cbn [In] in Hx. unfold ascii. lia.
  - apply ascii_valid. unfold is_hex in *. repeat constructor; unfold ascii; lia.
Qed.
Lemma jchars_valid s : jchars s -> valid_utf8 s.
Proof. induction 1 as [|c r Hc _ IH]; [apply valid_nil|]. apply valid_app; [now apply jchar_valid|exact IH]. Qed.
Lemma valid_ascii_cons b s : ascii b -> valid_utf8 s -> valid_utf8 (b :: s).
Proof. intros Hb V. apply (valid_app [b] s); [apply ascii_valid; repeat constructor; exact Hb|exact V]. Qed.
Lemma jstring_valid s : jstring s -> valid_utf8 s.
Proof.
  intros (body & -> & J). apply valid_ascii_cons; [reflexivity|].
  apply valid_app; [now apply jchars_valid|apply ascii_valid; repeat constructor].
Qed.

(* every text is a concatenation of ASCII bytes, whitespace, numbers, strings and smaller texts *)
#[local] Hint Resolve valid_nil valid_app valid_ascii_cons ascii_valid ws_ascii jnumber_ascii jstring_valid : jutf.
#[local] Hint Extern 1 (ascii _) => reflexivity : jutf.
Theorem json_valid_utf8 :
  (forall o s d, jvalue o s d -> valid_utf8 s) /\ (forall o s d, jelement o s d -> valid_utf8 s) /\
  (forall o s ds, jelements o s ds -> valid_utf8 s) /\ (forall o s m, jmember o s m -> valid_utf8 s) /\
  (forall o s ms, jmembers o s ms -> valid_utf8 s).
Proof. apply json_mutind; intros; auto 8 with jutf; apply ascii_valid; repeat constructor. Qed.
Corollary json_text_valid_utf8 w : json_text w -> valid_utf8 w.
Proof. intros [d J]. exact (proj1 (proj2 json_valid_utf8) _ _ _ J). Qed.
