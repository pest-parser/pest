(* C18 - small facts about lists, bytes and the first char of valid UTF-8, shared by the RFC side (Rfc*.v) and the
   PEG side (LexLib.v, ...). *)
From Coq Require Import List Arith NArith Bool Lia.
Import ListNotations.
Require Import PV.Comb.PState PV.Comb.Bytes PV.Comb.Utf8 PV.Comb.Utf8b PV.Json.Recogniser.

Lemma skipn_1_tl {A} (l : list A) : skipn 1 l = tl l.
Proof. destruct l; reflexivity. Qed.
Lemma skipn_length_le {A} n (l : list A) : List.length (skipn n l) <= List.length l.
Proof. rewrite skipn_length. lia. Qed.

Definition ascii (b : byte) : Prop := (b < 128)%N.
Definition ascii_class (ok : N -> bool) : Prop := forall c, ok c = true -> (c < 128)%N.

Lemma encode_ascii c : (c < 128)%N -> encode c = [c].
Proof. intros H. unfold encode. destruct (N.ltb_spec c 128); [reflexivity|lia]. Qed.
Lemma encode_head_ge c : (128 <= c)%N -> exists b t, encode c = b :: t /\ (128 <= b)%N.
Proof.
  intros H. unfold encode. destruct (N.ltb_spec c 128); [lia|].
  destruct (c <? 2048)%N; [|destruct (c <? 65536)%N]; eexists; eexists; (split; [reflexivity|lia]).
Qed.

Lemma valid_tail b l : valid_utf8 (b :: l) -> (b < 128)%N -> valid_utf8 l.
Proof.
  intros V Hb. destruct (valid_inv _ V) as [E|(c & l' & Sc & E & V')]; [discriminate|].
  destruct (N.lt_ge_cases c 128) as [Hc|Hc].
  - rewrite (encode_ascii c Hc) in E. cbn in E. injection E as _ ->. exact V'.
  - destruct (encode_head_ge c Hc) as (b' & t & Ee & Hb'). rewrite Ee in E. cbn in E. injection E as -> _. lia.
Qed.
Lemma valid_skip_ascii s : Forall ascii s -> forall r, valid_utf8 (s ++ r) -> valid_utf8 r.
Proof. induction 1 as [|b s Hb _ IH]; intros r V; [exact V|]. apply IH. exact (valid_tail b _ V Hb). Qed.

Lemma valid_char l : valid_utf8 l -> l <> [] ->
  exists c l', scalar c /\ l = encode c ++ l' /\ valid_utf8 l' /\ decode1 l = Some (c, List.length (encode c)).
Proof.
  intros V N. destruct (valid_inv _ V) as [E|(c & l' & Sc & E & V')]; [contradiction|].
  exists c, l'. repeat split; auto. rewrite E. apply decode1_encode. now apply scalar_lt.
Qed.

Lemma head_is_cons b x r : head_is b (x :: r) = N.eqb b x.
Proof. unfold head_is. cbn [prefixb]. apply andb_true_r. Qed.
Lemma head_is_nil b : head_is b [] = false.
Proof. reflexivity. Qed.
Lemma head_among_cons bs x r : head_among bs (x :: r) = existsb (N.eqb x) bs.
Proof.
  unfold head_among. induction bs as [|b bs IH]; [reflexivity|]. cbn [existsb]. rewrite head_is_cons, IH, (N.eqb_sym b x). reflexivity.
Qed.
Lemma head_among_nil bs : head_among bs [] = false.
Proof. unfold head_among. induction bs as [|b bs IH]; [reflexivity|]. cbn [existsb]. rewrite IH. reflexivity. Qed.

Lemma head_is_char b c l' : (b < 128)%N -> head_is b (encode c ++ l') = N.eqb b c.
Proof.
  intros Hb. destruct (N.lt_ge_cases c 128) as [Hc|Hc].
  - rewrite (encode_ascii c Hc). cbn [app]. apply head_is_cons.
  - destruct (encode_head_ge c Hc) as (b' & t & Ee & Hb'). rewrite Ee. cbn [app]. rewrite head_is_cons.
    destruct (N.eqb_spec b b'); destruct (N.eqb_spec b c); auto; lia.
Qed.

(* a class of ASCII characters tested on the first char of a valid string = the test of the first byte *)
Lemma class_at ok l : valid_utf8 l -> ascii_class ok ->
  match decode1 l with Some (c, n) => if ok c then Some n else None | None => None end = if head_in ok l then Some 1 else None.
Proof.
  intros V A. destruct l as [|b r]; [reflexivity|]. cbn [head_in].
  destruct (N.lt_ge_cases b 128) as [Hb|Hb].
  - unfold decode1. destruct (N.ltb_spec b 128); [reflexivity|lia].
  - destruct (valid_char _ V ltac:(discriminate)) as (c & l' & Sc & E & V' & D). rewrite D.
    assert (Hc : (128 <= c)%N).
    { destruct (N.lt_ge_cases c 128) as [Hc|Hc]; [|exact Hc]. rewrite (encode_ascii c Hc) in E. cbn in E. injection E as -> _. lia. }
    destruct (ok c) eqn:Oc; [apply A in Oc; lia|]. destruct (ok b) eqn:Ob; [apply A in Ob; lia|]. reflexivity.
Qed.

