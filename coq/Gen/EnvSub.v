(* Running a program depends only on the closures it can reach: if every closure of E is also a
   closure of E' with the same body, and the program and E's bodies only call closures E defines,
   then the run under E is the run under E'.  (Used for the checked-in parser, which holds the
   built-ins its grammar uses, against gen_env, which holds all of them.)                     *)
From Coq Require Import List Arith NArith ZArith Bool Lia.
Import ListNotations.
Require Import PV.Comb.PState PV.Comb.Bytes PV.Comb.Prog PV.Comb.Exec.

Fixpoint calls_in (p : prog) : list nat :=
  match p with
  | PPrim _ => []
  | PRule _ q | PSequence q | PRepeat q | PRepeatLoop q | POptional q | PLookahead _ q | PAtomic _ q | PStackPush q | PRestoreOnErr q => calls_in q
  | PAndThen a b | POrElse a b | PIfNonAtomic a b => calls_in a ++ calls_in b
  | PCall f => [f]
  end.

Definition closed (E : env) (p : prog) : Prop := forall k, In k (calls_in p) -> E k <> None.

Section Sub.
Variable cfg : config.
Variable E E' : env.
Hypothesis Hsub : forall k p, E k = Some p -> E' k = Some p.
Hypothesis Hclosed : forall k p, E k = Some p -> closed E p.

Lemma exec_sub : forall f p s, closed E p -> exec cfg E f p s = exec cfg E' f p s.
Proof.
  induction f as [|f IH]; intros p s Hc; [reflexivity|].
  assert (Hbin : forall a b, calls_in p = calls_in a ++ calls_in b -> closed E a /\ closed E b).
  { intros a b Eq. unfold closed in Hc. rewrite Eq in Hc. split; intros k Hk; apply Hc, in_or_app; auto. }
  destruct p; cbn [exec]; cbn [calls_in] in Hc;
    (* the combinators that only wrap one sub-run *)
    try (destruct (inc_call s); [|reflexivity]; rewrite IH by exact Hc; reflexivity).
  - reflexivity.
  - destruct (inc_call s); [|reflexivity]. destruct (rule_enter p0). rewrite IH by exact Hc. reflexivity.
  - rewrite IH by exact Hc. destruct (exec cfg E' f p s); try reflexivity. apply IH. exact Hc.
  - rewrite IH by exact Hc. reflexivity.
  - destruct (Hbin _ _ eq_refl) as [H1 H2].
    rewrite IH by exact H1. destruct (exec cfg E' f p1 s); try reflexivity. apply IH. exact H2.
  - destruct (Hbin _ _ eq_refl) as [H1 H2].
    rewrite IH by exact H1. destruct (exec cfg E' f p1 s); try reflexivity. apply IH. exact H2.
  - destruct (Hbin _ _ eq_refl) as [H1 H2].
    destruct (atom_eqb (atomicity s) NonAtomic); apply IH; assumption.
  - destruct (E f0) as [q|] eqn:Ef; [|exfalso; apply (Hc f0); [left; reflexivity|exact Ef]].
    rewrite (Hsub _ _ Ef). apply IH. eapply Hclosed; eauto.
Qed.
End Sub.

(* an environment given as a finite table *)
Fixpoint assoc (l : list (nat * prog)) (k : nat) : option prog :=
  match l with [] => None | (i, p) :: r => if Nat.eqb i k then Some p else assoc r k end.
Definition table_env (l : list (nat * prog)) : env := assoc l.

Lemma assoc_in l k p : assoc l k = Some p -> In (k, p) l.
Proof.
  induction l as [|[i q] r IH]; cbn; [discriminate|].
  destruct (Nat.eqb_spec i k); [intros [= <-]; subst; left; reflexivity|intros H; right; auto].
Qed.

(* decidable forms of the two hypotheses, for tables *)
Definition closedb (l : list (nat * prog)) (p : prog) : bool :=
  forallb (fun k => match assoc l k with Some _ => true | None => false end) (calls_in p).
Lemma closedb_closed l p : closedb l p = true -> closed (table_env l) p.
Proof.
  unfold closedb, closed, table_env. rewrite forallb_forall. intros H k Hk. specialize (H k Hk).
  destruct (assoc l k); [discriminate|discriminate H].
Qed.
