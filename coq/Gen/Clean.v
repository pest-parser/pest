(* C02 proofs, part 4: what a failing expression leaves behind when the VM runs it.
   For every optimized expression e, when `vm_expr e` fails it leaves the position as it was and the
   token queue as it was up to the tags `#t = e` writes into tokens already queued (untagq); if moreover `fail_clean C e` (ClassH.v) for a consistent
   set C of rule names, it leaves the stack contents as they were.                            *)
From Coq Require Import List Arith NArith ZArith Bool String Ascii Lia.
Import ListNotations.
Require Import PV.Stack.Model PV.Stack.Proofs PV.Comb.PState PV.Comb.Bytes PV.Comb.Prog PV.Comb.Exec
               PV.Comb.Frame PV.Comb.Contracts PV.Comb.CallLimit PV.Peg.Ast PV.Peg.AstFacts PV.Peg.VmCompile
               PV.Gen.GenCompile PV.Gen.ClassH PV.Gen.Lookup PV.Gen.Rel PV.Peg.Refine0.

Arguments Nat.sub : simpl never.
Arguments Nat.ltb : simpl never.
Arguments Nat.leb : simpl never.
Arguments Nat.eqb : simpl never.
Arguments skipn : simpl never.
Arguments firstn : simpl never.

Definition rest (m : bool) (s s' : pst) : Prop :=
  pos s' = pos s /\ untagq (queue s') = untagq (queue s) /\ (m = true -> cache (stack s') = cache (stack s)).

Lemma rest_refl m s : rest m s s.
Proof. repeat split; auto. Qed.
Lemma rest_trans m s1 s2 s3 : rest m s1 s2 -> rest m s2 s3 -> rest m s1 s3.
Proof. intros (A1 & A2 & A3) (B1 & B2 & B3). repeat split; try congruence; intros M; rewrite B3, A3; auto. Qed.
Lemma rest_weaken m s s' : rest true s s' -> rest m s s'.
Proof. intros (A1 & A2 & A3). repeat split; auto. Qed.
Lemma rest_core m s s' : same_core s s' -> rest m s s'.
Proof. intros []. repeat split; try congruence; intros _; congruence. Qed.

Lemma apply_pres_err s r t s' : apply_pres s r t = RErr s' -> same_core s s'.
Proof.
  unfold apply_pres. destruct r as [p| |]; cbv zeta; intros H; try discriminate H.
  injection H as <-. destruct t as [tk|]; [destruct (pa_enabled s)|]; try apply same_core_refl.
  apply (proj1 (handle_token_core s (pos s) tk false)).
Qed.

Definition dirty_prim (o : prim) : bool := match o with MStackPop | MStackMatchPop => true | _ => false end.

Lemma prim_err cfg o s s' m : (m = true -> dirty_prim o = false) -> exec_prim cfg o s = RErr s' -> rest m s s'.
Proof.
  intros Hm. destruct o; cbn [exec_prim]; try discriminate;
    try (intros H; apply rest_core; eapply apply_pres_err; exact H).
  - intros [= <-]. apply rest_refl.
  - destruct (skip_until _ _ _ _); discriminate.
  - destruct (Nat.eqb _ _); [discriminate|]. intros [= <-]. apply rest_refl.
  - destruct (Nat.eqb _ _); [discriminate|]. intros [= <-]. apply rest_refl.
  - destruct (peek (stack s)); [|discriminate]. intros H. apply rest_core. eapply apply_pres_err; exact H.
  - destruct (pop (stack s)) as [st' [x|]]; [|discriminate]. intros H.
    apply apply_pres_err in H. destruct H. repeat split; cbn in *; try congruence. intros M. specialize (Hm M). discriminate.
  - destruct (pop (stack s)) as [st' [x|]]; [discriminate|]. intros [= <-]. apply rest_refl.
  - unfold peek_slice. destruct (constrain_idxs _ _ _) as [[a b]|]; [|intros [= <-]; apply rest_refl].
    destruct (Nat.leb b a); [discriminate|]. destruct (match_all _ _ _); [discriminate|]. intros [= <-]. apply rest_refl.
  - destruct (match_pop_loop _ _ _ _) as [[[st' p] b]|]; [|discriminate]. destruct b; [discriminate|].
    intros [= <-]. repeat split; auto. intros M. specialize (Hm M). discriminate.
  - unfold peek_slice. destruct (constrain_idxs _ _ _) as [[a b]|]; [|intros [= <-]; apply rest_refl].
    destruct (Nat.leb b a); [discriminate|]. destruct (match_all _ _ _); [discriminate|]. intros [= <-]. apply rest_refl.
  - destruct (negb _); [discriminate|]. destruct (queue s) as [|[e p|si r tg p] q]; discriminate.
Qed.

Section Clean.
Variable cfg : config.
Variable E : env.

(* cl m f p: within fuel f, a failure of p leaves position/queue (and for m = true the stack) alone *)
Definition cl (m : bool) (f : nat) (p : prog) : Prop :=
  forall f' s s' a, f' <= f -> wf s -> Inv (stack s) a -> limit s = None ->
    exec cfg E f' p s = RErr s' -> rest m s s'.

Lemma cl_weaken m f p : cl true f p -> cl m f p.
Proof. intros H g s s' a Hg W I L Ex. apply rest_weaken. eapply H; eauto. Qed.

Ltac start g Ex := destruct g as [|g]; [discriminate Ex|]; cbn [exec] in Ex.

Lemma cl_prim m f o : (m = true -> dirty_prim o = false) -> cl m f (PPrim o).
Proof. intros Hm g s s' a Hg W I L Ex. start g Ex. eapply prim_err; eauto. Qed.

Lemma restored_rest m s s' : restored s s' -> rest m s s'.
Proof. intros (A & B & C & _). repeat split; auto. Qed.

Lemma cl_seq m f p : cl m f (PSequence p).
Proof. intros g s s' a Hg W I L Ex. apply restored_rest. eapply sequence_err_restores; eauto. Qed.
Lemma cl_look m f b p : cl m f (PLookahead b p).
Proof. intros g s s' a Hg W I L Ex. apply restored_rest. eapply lookahead_restores; eauto. Qed.
Lemma cl_opt m f p : cl m f (POptional p).
Proof.
  intros g s s' a Hg W I L Ex. start g Ex. rewrite (inc_call_none s L) in Ex.
  destruct (exec cfg E g p s); discriminate.
Qed.
Lemma loop_no_err p : forall g s s', exec cfg E g (PRepeatLoop p) s <> RErr s'.
Proof.
  induction g as [|g IH]; intros s s'; [discriminate|]. cbn [exec].
  destruct (exec cfg E g p s); try discriminate. apply IH.
Qed.
Lemma cl_rep m f p : cl m f (PRepeat p).
Proof.
  intros g s s' a Hg W I L Ex. start g Ex. rewrite (inc_call_none s L) in Ex. exfalso. eapply loop_no_err; eauto.
Qed.

Lemma cl_else m f p q : cl m f p -> cl m f q -> cl m f (POrElse p q).
Proof.
  intros Hp Hq g s s' a Hg W I L Ex. start g Ex.
  pose proof (exec_post cfg E g p s a W I) as P.
  destruct (exec cfg E g p s) as [s1|s1|k|] eqn:Ep; try discriminate.
  cbn in P. destruct P as (F & W1 & a1 & I1 & _).
  assert (L1 : limit s1 = None) by (rewrite (f_lim _ _ F); exact L).
  eapply rest_trans; [exact (Hp g s s1 a ltac:(lia) W I L Ep)|].
  exact (Hq g s1 s' a1 ltac:(lia) W1 I1 L1 Ex).
Qed.

Lemma cl_then_tag m f p t : cl m f p -> cl m f (PAndThen p (PPrim (MTagNode t))).
Proof.
  intros Hp g s s' a Hg W I L Ex. start g Ex.
  destruct (exec cfg E g p s) as [s1|s1|k|] eqn:Ep; try discriminate.
  - destruct g as [|g]; [discriminate|]. cbn [exec exec_prim] in Ex.
    destruct (negb _); [discriminate|]. destruct (queue s1) as [|[e p0|si r tg p0] q]; discriminate.
  - injection Ex as <-. exact (Hp g s s1 a ltac:(lia) W I L Ep).
Qed.

Lemma cl_push m f p : cl m f p -> cl m f (PStackPush p).
Proof.
  intros Hp g s s' a Hg W I L Ex. start g Ex. rewrite (inc_call_none s L) in Ex.
  destruct (exec cfg E g p s) as [s1|s1|k|] eqn:Ep; try discriminate.
  - destruct (Nat.ltb _ _); discriminate.
  - injection Ex as <-. exact (Hp g s s1 a ltac:(lia) W I L Ep).
Qed.

Lemma cl_roe m f p : cl false f p -> cl m f (PRestoreOnErr p).
Proof.
  intros Hp g s s' a Hg W I L Ex. start g Ex.
  assert (W1 : wf (checkpoint s)) by exact W.
  pose proof (inv_snapshot I) as I1. change (snapshot (stack s)) with (stack (checkpoint s)) in I1.
  pose proof (exec_post cfg E g p (checkpoint s) (ssnapshot a) W1 I1) as P.
  destruct (exec cfg E g p (checkpoint s)) as [s1|s1|k|] eqn:Ep; try discriminate.
  - cbn in P. destruct P as (_ & _ & a1 & Ia1 & _). unfold checkpoint_ok in Ex.
    destruct (inv_clear Ia1) as (st & Ec & _). rewrite Ec in Ex. discriminate.
  - cbn in P. destruct P as (_ & _ & a1 & Ia1 & Sa1). unfold restore_st in Ex.
    destruct (inv_restore Ia1) as (st & Er & Ir). rewrite Er in Ex. cbn in Ex. injection Ex as <-.
    destruct (Hp g (checkpoint s) s1 (ssnapshot a) ltac:(lia) W1 I1 L Ep) as (A1 & A2 & _).
    repeat split; auto. intros _. cbn [stack set_stack]. rewrite (inv_cache' _ _ Ir). unfold srestore. rewrite Sa1. cbn.
    symmetry. apply (inv_cache' _ _ I).
Qed.

Lemma cl_atomic m f a0 p : cl m f p -> cl m f (PAtomic a0 p).
Proof.
  intros Hp g s s' a Hg W I L Ex. start g Ex. rewrite (inc_call_none s L) in Ex.
  set (s2 := if negb (atom_eqb (atomicity s) a0) then set_atomicity s a0 else s) in *.
  assert (X : wf s2 /\ stack s2 = stack s /\ limit s2 = None /\ pos s2 = pos s /\ queue s2 = queue s).
  { unfold s2. destruct (negb _); cbn; auto. }
  destruct X as (W2 & S2 & L2 & P2 & Q2).
  destruct (exec cfg E g p s2) as [s1|s1|k|] eqn:Ep; try discriminate.
  injection Ex as <-.
  assert (I2 : Inv (stack s2) a) by (rewrite S2; exact I).
  pose proof (Hp g s2 s1 a ltac:(lia) W2 I2 L2 Ep) as R.
  destruct R as (A1 & A2 & A3). destruct (negb _); repeat split; cbn -[map]; try congruence; intros M; rewrite A3, S2; auto.
Qed.

Lemma rule_err_shape r fr y s' : rule_err r fr y = RErr s' ->
  pos s' = pos y /\ stack s' = stack y /\ queue s' = (if emits y then vtruncate (rf_index fr) (queue y) else queue y).
Proof.
  unfold rule_err. destruct (negb (lk_eqb (lookahead y) LNeg)).
  - pose proof (track_same y r (rf_pos fr) (rf_pai fr) (rf_nai fr) (rf_attempts fr)) as T.
    set (y1 := track y r _ _ _ _) in *.
    assert (Em : emits y1 = emits y) by (apply emits_frame; [apply (t_la _ _ T)|apply (t_at _ _ T)]).
    destruct (pa_enabled y1).
    + destruct (try_add_rule_to_stack y1 r _ _) as [y2|] eqn:E2; [|discriminate].
      pose proof (try_add_rule_to_stack_core _ _ _ _ _ E2) as C2.
      assert (Em2 : emits y2 = emits y1) by (apply emits_frame; [apply (c_la _ _ C2)|apply (c_at _ _ C2)]).
      intros [= <-]. rewrite Em2, Em. destruct (emits y); cbn;
        rewrite ?(c_pos _ _ C2), ?(c_stack _ _ C2), ?(c_queue _ _ C2), (t_pos _ _ T), (t_stack _ _ T), ?(t_queue _ _ T); auto.
    + intros [= <-]. rewrite Em. destruct (emits y); cbn; rewrite (t_pos _ _ T), (t_stack _ _ T), ?(t_queue _ _ T); auto.
  - intros [= <-]. destruct (emits y); cbn; auto.
Qed.

Lemma cl_rule m f r p : cl m f p -> cl m f (PRule r p).
Proof.
  intros Hp g s s' a Hg W I L Ex. start g Ex. rewrite (inc_call_none s L) in Ex.
  destruct (rule_enter_spec s) as (_ & Ri & _ & _ & Q & SQ).
  destruct (rule_enter s) as [fr s2] eqn:Er. cbn in Ri, Q, SQ.
  assert (W2 : wf s2) by (unfold wf in *; rewrite (q_pos _ _ SQ), (q_input _ _ SQ); exact W).
  assert (I2 : Inv (stack s2) a) by (rewrite (q_stack _ _ SQ); exact I).
  assert (L2 : limit s2 = None) by (rewrite (q_lim _ _ SQ); exact L).
  pose proof (exec_post cfg E g p s2 a W2 I2) as P.
  destruct (exec cfg E g p s2) as [s1|s1|k|] eqn:Ep; try discriminate.
  - (* rule_ok never fails *) exfalso. revert Ex. unfold rule_ok.
    match goal with |- context [if emits ?x then _ else _] => destruct (emits x) end.
    + destruct (set_start_end _ _ _); [|discriminate]. destruct (pa_enabled _); [|discriminate].
      destruct (try_add_rule_to_stack _ _ _ _); discriminate.
    + destruct (pa_enabled _); [|discriminate]. destruct (try_add_rule_to_stack _ _ _ _); discriminate.
  - cbn in P. destruct P as (F & _).
    destruct (Hp g s2 s1 a ltac:(lia) W2 I2 L2 Ep) as (A1 & A2 & A3).
    destruct (rule_err_shape _ _ _ _ Ex) as (B1 & B2 & B3).
    assert (Em : emits s1 = emits s).
    { rewrite (emits_frame s2 s1 (f_la _ _ F) (f_at _ _ F)). apply emits_frame; [apply (q_la _ _ SQ)|apply (q_at _ _ SQ)]. }
    repeat split.
    + rewrite B1, A1. apply (q_pos _ _ SQ).
    + rewrite B3, Em, Ri. rewrite Q in A2. destruct (emits s).
      * rewrite untagq_vtruncate, A2.
        change (untagq (QStart 0 (pos s) :: queue s)) with ([QStart 0 (pos s)] ++ untagq (queue s)).
        apply vtruncate_app. apply untagq_length.
      * exact A2.
    + intros M. rewrite B2, (A3 M). now rewrite (q_stack _ _ SQ).
Qed.

(* of the hard-coded built-ins only POP and POP_ALL can leave the stack changed when they fail *)
Lemma builtins_clean m f e :
  Forall (fun y => (m = true -> negb (str_eqb (fst y) (nm "POP") || str_eqb (fst y) (nm "POP_ALL")) = true) -> cl m f (snd y))
         (fixed_builtins e).
Proof.
  unfold fixed_builtins, rng.
  repeat (constructor; [cbn [fst snd]; intros H;
    repeat first [apply cl_else | apply cl_rule | apply cl_prim; intros M; first [reflexivity|discriminate (H M)]]|]).
  constructor.
Qed.

Lemma cl_call m f k p : E k = Some p -> cl m f p -> cl m (S f) (PCall k).
Proof. intros Ek Hp g s s' a Hg W I L Ex. start g Ex. rewrite Ek in Ex. exact (Hp g s s' a ltac:(lia) W I L Ex). Qed.
Lemma cl_call_none m f k : E k = None -> cl m f (PCall k).
Proof. intros Ek g s s' a Hg W I L Ex. start g Ex. rewrite Ek in Ex. discriminate. Qed.

Lemma cl_zero m p : cl m 0 p.
Proof. intros g s s' a Hg W I L Ex. destruct g; [discriminate Ex|inversion Hg]. Qed.

End Clean.

Section VmClean.
Variable cfg : config.
Variable G : ogrammar.
Variable ur : name -> option (list (N * N)).
Variable C : list name.
Hypothesis HC : consistent G C = true.
Let Ev := vm_env G ur.

Lemma in_C_clean n : existsb (str_eqb n) C = true ->
  exists r, nth_error G (orule_id G n) = Some r /\ fail_clean G C (oexpr_of r) = true.
Proof.
  intros H. apply existsb_exists in H. destruct H as (x & Hin & Ex). apply str_eqb_eq in Ex. subst x.
  unfold consistent in HC. rewrite forallb_forall in HC. specialize (HC _ Hin).
  unfold rule_clean, first_rule in HC. destruct (nth_error G (orule_id G n)) as [r|]; [|discriminate]. eauto.
Qed.

Lemma cl_body m f r : cl cfg Ev m f (vm_expr G ur (oexpr_of r)) -> cl cfg Ev m f (vm_rule_body G ur r).
Proof.
  intros H. unfold vm_rule_body. destruct (is_special_name (oname r)), (oty r);
    repeat first [exact H | apply cl_rule | apply cl_atomic].
Qed.

Lemma cl_vm_call m f n :
  (m = true -> negb (str_eqb n (nm "POP") || str_eqb n (nm "POP_ALL")) && (negb (has_orule G n) || existsb (str_eqb n) C) = true) ->
  (forall r, nth_error G (orule_id G n) = Some r -> (m = true -> fail_clean G C (oexpr_of r) = true) -> cl cfg Ev m f (vm_rule_body G ur r)) ->
  cl cfg Ev m (S f) (vm_call G ur n).
Proof.
  intros Hn IH. destruct (has_orule G n) eqn:Ho.
  - unfold vm_call. rewrite Ho. destruct (has_orule_first G n Ho) as (r & Er & _).
    eapply cl_call; [unfold Ev; apply vm_env_at; exact Er|]. apply IH; auto.
    intros M. specialize (Hn M). apply andb_prop in Hn. destruct Hn as [_ Hn]. cbn in Hn.
    destruct (in_C_clean n Hn) as (r' & Er' & Fc). congruence.
  - pose proof (vm_call_builtin G ur n Ho) as B.
    destruct (bindex (fixed_builtins (eoi_id G)) n 0) as [i|]; [destruct B as (y & Hy & Ey & ->)|rewrite B].
    + apply (proj1 (Forall_forall _ _) (builtins_clean cfg Ev m (S f) _) y (nth_error_In _ _ Hy)).
      intros M. subst n. specialize (Hn M). apply andb_prop in Hn. apply Hn.
    + destruct (ur n); [apply cl_prim; intros _; reflexivity|].
      apply cl_call_none. unfold Ev, vm_env. replace (nth_error G (S (List.length G))) with (@None orule); [reflexivity|].
      symmetry. apply nth_error_None. lia.
Qed.

Theorem vm_clean : forall f m e, (m = true -> fail_clean G C e = true) -> cl cfg Ev m f (vm_expr G ur e).
Proof.
  induction f as [|f IHf]; intros m e; [intros _; apply cl_zero|].
  revert m. induction e; intros m Hm; cbn [vm_expr];
    try (apply cl_prim; intros _; reflexivity); try apply cl_seq; try apply cl_look; try apply cl_opt.
  - (* OIdent *) apply cl_vm_call; [exact Hm|]. intros r Er Hr. apply cl_body. apply IHf. exact Hr.
  - (* OChoice *) apply cl_else; [apply IHe1|apply IHe2]; intros M; specialize (Hm M); cbn in Hm; apply andb_prop in Hm; tauto.
  - (* OPush *) apply cl_push. apply IHe. exact Hm.
  - (* ONodeTag *) apply cl_then_tag. apply IHe. exact Hm.
  - (* ORestoreOnErr *) apply cl_roe. apply IHe. discriminate.
Qed.

End VmClean.
