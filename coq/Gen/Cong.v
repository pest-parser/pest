(* C02 proofs, part 2: simulation between two closure environments, and its congruence for every
   combinator of Layer C.  `fwd A n p q`: from related states, whenever `p` under E1 terminates
   within fuel n, `q` under E2 terminates in a related result.  A = true restricts the claim to
   atomic states (atomicity <> NonAtomic).  The eight combinators that bracket one sub-run
   (ExecInd.v) share one congruence, fwd_bracket.  `sim` is `fwd` in both directions; since the
   relation of Rel.v is symmetric, every congruence of `fwd` is one of `sim`.                  *)
From Coq Require Import List Arith NArith ZArith Bool Lia.
Import ListNotations.
Require Import PV.Stack.Model PV.Stack.Proofs PV.Comb.PState PV.Comb.Bytes PV.Comb.Prog PV.Comb.Exec PV.Comb.ExecInd
               PV.Comb.Frame PV.Comb.Contracts PV.Comb.CallLimit PV.Gen.Rel PV.Peg.Refine0.

Arguments Nat.sub : simpl never.
Arguments Nat.ltb : simpl never.
Arguments Nat.leb : simpl never.
Arguments Nat.eqb : simpl never.
Arguments skipn : simpl never.
Arguments firstn : simpl never.

Section Cong.
Variable cfg : config.
Variable E1 E2 : env.

Definition amode (A : bool) (s : pst) : Prop := A = true -> atomicity s <> NonAtomic.

Definition fwd (A : bool) (n : nat) (p q : prog) : Prop :=
  forall f s t, f <= n -> srel s t -> amode A s -> exec cfg E1 f p s <> ROutOfFuel ->
    exists f', rrel (exec cfg E1 f p s) (exec cfg E2 f' q t).

Lemma fwd_weaken n p q : fwd false n p q -> fwd true n p q.
Proof. intros H f s t Hf R _. apply H; auto. intros X; discriminate X. Qed.

Lemma rrel_nofuel r r' : rrel r r' -> r' <> ROutOfFuel.
Proof. destruct r, r'; cbn; intros H; try contradiction; discriminate. Qed.

Lemma rrel_more r f f' q t : rrel r (exec cfg E2 f q t) -> f <= f' -> rrel r (exec cfg E2 f' q t).
Proof. intros H Hle. rewrite (exec_mono cfg E2 f f' q t Hle (rrel_nofuel _ _ H)). exact H. Qed.

Ltac start f Hne := destruct f as [|f]; [exfalso; apply Hne; reflexivity|].

Lemma amode_frame A s s' : amode A s -> atomicity s' = atomicity s -> amode A s'.
Proof. unfold amode. intros H E X. rewrite E. auto. Qed.

(* the inner run of a unary combinator cannot be out of fuel when the whole is not *)
Ltac inner Hne L := let X := fresh "X" in intros X; apply Hne; cbn [exec]; rewrite ?(inc_call_none _ L), X; reflexivity.

Lemma frame_amode A s s' : amode A s -> frame s s' -> amode A s'.
Proof. intros H F. eapply amode_frame; [exact H|apply (f_at _ _ F)]. Qed.

Lemma fwd_prim A n o : fwd A n (PPrim o) (PPrim o).
Proof.
  intros f s t Hf R HA Hne. start f Hne. destruct (srel_inv _ _ R) as (W & Wt & L & L2 & a & b & Ia & Ib & Cab). exists 1.
  eapply (rrel_of_core s a t b); [exact L|now apply exec_post|now apply exec_post|].
  cbn [exec]. destruct R as (st & -> & C & _). now apply exec_prim_core.
Qed.

Lemma fwd_then A n p1 q1 p2 q2 : fwd A n p1 q1 -> fwd A n p2 q2 -> fwd A n (PAndThen p1 p2) (PAndThen q1 q2).
Proof.
  intros H1 H2 f s t Hf R HA Hne. start f Hne. destruct (srel_inv _ _ R) as (W & Wt & L & L2 & a & b & Ia & Ib & Cab).
  assert (Hi : exec cfg E1 f p1 s <> ROutOfFuel) by inner Hne L.
  destruct (H1 f _ _ ltac:(lia) R HA Hi) as [f1 Hr].
  pose proof (exec_post cfg E1 f p1 s a W Ia) as P1.
  cbn [exec] in Hne |- *.
  destruct (exec cfg E1 f p1 s) as [s'|s'|k|] eqn:Eg.
  - destruct (exec cfg E2 f1 q1 t) as [t'|t'|k'|] eqn:Ev; cbn in Hr; try contradiction.
    destruct P1 as (F & _).
    destruct (H2 f _ _ ltac:(lia) Hr (frame_amode _ _ _ HA F) Hne) as [f2 Hr2].
    exists (S (Nat.max f1 f2)). cbn [exec].
    rewrite (exec_mono cfg E2 f1 (Nat.max f1 f2) q1 t ltac:(lia)) by (rewrite Ev; discriminate). rewrite Ev.
    apply (rrel_more _ f2); [exact Hr2|lia].
  - exists (S f1). cbn [exec]. destruct (exec cfg E2 f1 q1 t); cbn in Hr; try contradiction; exact Hr.
  - exists (S f1). cbn [exec]. destruct (exec cfg E2 f1 q1 t); cbn in Hr; try contradiction; exact Hr.
  - contradiction.
Qed.

Lemma fwd_else A n p1 q1 p2 q2 : fwd A n p1 q1 -> fwd A n p2 q2 -> fwd A n (POrElse p1 p2) (POrElse q1 q2).
Proof.
  intros H1 H2 f s t Hf R HA Hne. start f Hne. destruct (srel_inv _ _ R) as (W & Wt & L & L2 & a & b & Ia & Ib & Cab).
  assert (Hi : exec cfg E1 f p1 s <> ROutOfFuel) by inner Hne L.
  destruct (H1 f _ _ ltac:(lia) R HA Hi) as [f1 Hr].
  pose proof (exec_post cfg E1 f p1 s a W Ia) as P1.
  cbn [exec] in Hne |- *.
  destruct (exec cfg E1 f p1 s) as [s'|s'|k|] eqn:Eg.
  - exists (S f1). cbn [exec]. destruct (exec cfg E2 f1 q1 t); cbn in Hr; try contradiction; exact Hr.
  - destruct (exec cfg E2 f1 q1 t) as [t'|t'|k'|] eqn:Ev; cbn in Hr; try contradiction.
    destruct P1 as (F & _).
    destruct (H2 f _ _ ltac:(lia) Hr (frame_amode _ _ _ HA F) Hne) as [f2 Hr2].
    exists (S (Nat.max f1 f2)). cbn [exec].
    rewrite (exec_mono cfg E2 f1 (Nat.max f1 f2) q1 t ltac:(lia)) by (rewrite Ev; discriminate). rewrite Ev.
    apply (rrel_more _ f2); [exact Hr2|lia].
  - exists (S f1). cbn [exec]. destruct (exec cfg E2 f1 q1 t); cbn in Hr; try contradiction; exact Hr.
  - contradiction.
Qed.

Lemma fwd_ifna A n p1 q1 p2 q2 : fwd A n p1 q1 -> fwd A n p2 q2 -> fwd A n (PIfNonAtomic p1 p2) (PIfNonAtomic q1 q2).
Proof.
  intros H1 H2 f s t Hf R HA Hne. start f Hne.
  cbn [exec] in Hne |- *. pose proof (srel_at _ _ R) as Et.
  destruct (atom_eqb (atomicity s) NonAtomic) eqn:Ea.
  - destruct (H1 f _ _ ltac:(lia) R HA Hne) as [f1 Hr]. exists (S f1). cbn [exec]. rewrite Et, Ea. exact Hr.
  - destruct (H2 f _ _ ltac:(lia) R HA Hne) as [f1 Hr]. exists (S f1). cbn [exec]. rewrite Et, Ea. exact Hr.
Qed.

Lemma fwd_call A n k1 k2 p q : E1 k1 = Some p -> E2 k2 = Some q -> fwd A n p q -> fwd A (S n) (PCall k1) (PCall k2).
Proof.
  intros X1 X2 H f s t Hf R HA Hne. start f Hne. cbn [exec] in Hne |- *. rewrite X1 in *.
  destruct (H f _ _ ltac:(lia) R HA Hne) as [f1 Hr]. exists (S f1). cbn [exec]. rewrite X2. exact Hr.
Qed.
Lemma fwd_call_none A n k1 k2 : E1 k1 = None -> E2 k2 = None -> fwd A n (PCall k1) (PCall k2).
Proof.
  intros X1 X2 f s t Hf R HA Hne. start f Hne. exists 1. cbn [exec]. rewrite X1, X2. reflexivity.
Qed.
(* a closure on one side against the inlined body on the other *)
Lemma fwd_call_left A n k p q : E1 k = Some p -> fwd A n p q -> fwd A n (PCall k) q.
Proof.
  intros X1 H f s t Hf R HA Hne. start f Hne. cbn [exec] in Hne |- *. rewrite X1 in *.
  exact (H f _ _ ltac:(lia) R HA Hne).
Qed.
Lemma fwd_call_right A n k p q : E2 k = Some q -> fwd A n p q -> fwd A n p (PCall k).
Proof.
  intros X2 H f s t Hf R HA Hne. destruct (H f s t Hf R HA Hne) as [f' Hr]. exists (S f'). cbn [exec]. rewrite X2. exact Hr.
Qed.

Lemma fwd_reploop A n p q : fwd A n p q -> fwd A n (PRepeatLoop p) (PRepeatLoop q).
Proof.
  intros H f. induction f as [|f IH]; intros s t Hf R HA Hne; [exfalso; apply Hne; reflexivity|].
  destruct (srel_inv _ _ R) as (W & Wt & L & L2 & a & b & Ia & Ib & Cab).
  assert (Hi : exec cfg E1 f p s <> ROutOfFuel) by inner Hne L.
  destruct (H f _ _ ltac:(lia) R HA Hi) as [f1 Hr].
  pose proof (exec_post cfg E1 f p s a W Ia) as P1.
  cbn [exec] in Hne |- *.
  destruct (exec cfg E1 f p s) as [s'|s'|k|] eqn:Eg.
  - destruct (exec cfg E2 f1 q t) as [t'|t'|k'|] eqn:Ev; cbn in Hr; try contradiction.
    destruct P1 as (F & _).
    destruct (IH _ _ ltac:(lia) Hr (frame_amode _ _ _ HA F) Hne) as [f2 Hr2].
    exists (S (Nat.max f1 f2)). cbn [exec].
    rewrite (exec_mono cfg E2 f1 (Nat.max f1 f2) q t ltac:(lia)) by (rewrite Ev; discriminate). rewrite Ev.
    apply (rrel_more _ f2); [exact Hr2|lia].
  - exists (S f1). cbn [exec]. destruct (exec cfg E2 f1 q t); cbn in Hr; try contradiction; exact Hr.
  - exists (S f1). cbn [exec]. destruct (exec cfg E2 f1 q t); cbn in Hr; try contradiction; exact Hr.
  - contradiction.
Qed.

Lemma srel_rule_enter s t : srel s t -> srel (snd (rule_enter s)) (snd (rule_enter t)) /\ fst (rule_enter t) = fst (rule_enter s).
Proof.
  intros (st & -> & C & W & Ia & Ib & L). rewrite rule_enter_sw. fields. split; [|reflexivity].
  destruct (rule_enter_spec s) as (_ & _ & _ & _ & _ & SQ).
  pose proof (q_stack _ _ SQ) as Q1. pose proof (q_pos _ _ SQ) as Q2. pose proof (q_input _ _ SQ) as Q3. pose proof (q_lim _ _ SQ) as Q4.
  exists st. repeat split; auto; try congruence.
  - unfold wf in *. congruence.
  - rewrite Q1. exact Ia.
Qed.
Lemma atom_eqb_eq x y : atom_eqb x y = true -> x = y.
Proof. destruct x, y; cbn; congruence. Qed.
Lemma guard_none k s : limit s = None -> guard k s = Some s.
Proof. intros L. destruct k; [apply (inc_call_none s L)|reflexivity]. Qed.

(* entering a bracket keeps the relation; its exits take related results of the body to related results *)
Lemma bracket_rel p b : bracket_of p = Some b -> forall s t a c, srel s t -> Inv (stack s) a -> Inv (stack t) c -> cur c = cur a ->
  srel (b_enter b s) (b_enter b t) /\ exists a2 c2, Inv (stack (b_enter b s)) a2 /\ Inv (stack (b_enter b t)) c2 /\
    forall r r', post (b_enter b s) a2 r -> post (b_enter b t) c2 r' -> rrel r r' ->
      rcore (bind r (b_ok b s) (b_err b s)) (bind r' (b_ok b t) (b_err b t)).
Proof.
  destruct p as [o|r p|p|p|p|p|b0 p|at0 p|p|p|p1 p2|p1 p2|p1 p2|f]; try discriminate; intros [= <-] s t a c R Ia Ic Cab;
    cbn [b_enter b_ok b_err].
  - (* PRule *)
    destruct (srel_rule_enter _ _ R) as [R2 Efr]. split; [exact R2|]. rewrite Efr.
    destruct (rule_enter_spec s) as (_ & _ & _ & _ & _ & SQ), (rule_enter_spec t) as (_ & _ & _ & _ & _ & TQ).
    exists a, c. split; [rewrite (q_stack _ _ SQ); exact Ia|]. split; [rewrite (q_stack _ _ TQ); exact Ic|].
    intros [s'|s'|k|] [t'|t'|k'|] _ _ Hr; cbn in Hr; try contradiction; cbn [bind]; [| |exact Hr];
      destruct Hr as (st' & -> & C' & _); [now apply rule_ok_core|now apply rule_err_core].
  - (* PSequence *)
    split; [now apply srel_checkpoint|]. exists (ssnapshot a), (ssnapshot c).
    split; [now apply inv_snapshot|]. split; [now apply inv_snapshot|].
    intros [s'|s'|k|] [t'|t'|k'|] P1 P2 Hr; cbn in Hr; try contradiction; cbn [bind]; [apply clear_core; auto| |exact Hr].
    destruct R as (st & -> & _). fields.
    apply (restore_after RErr (or_intror (fun x => eq_refl))
             (fun z => set_queue (set_pos z (pos s)) (vtruncate (length (queue s)) (queue z))) _ _ a c _ _ Cab P1 P2 Hr); reflexivity.
  - (* PRepeat *)
    split; [exact R|]. exists a, c. split; [exact Ia|]. split; [exact Ic|].
    intros [s'|s'|k|] [t'|t'|k'|] _ _ Hr; cbn in Hr; try contradiction; cbn [bind]; try exact Hr; now apply core_of_srel.
  - (* POptional *)
    split; [exact R|]. exists a, c. split; [exact Ia|]. split; [exact Ic|].
    intros [s'|s'|k|] [t'|t'|k'|] _ _ Hr; cbn in Hr; try contradiction; cbn [bind]; try exact Hr; now apply core_of_srel.
  - (* PLookahead *)
    assert (R2 : srel (set_lookahead s (enter_lookahead b0 (lookahead s))) (set_lookahead t (enter_lookahead b0 (lookahead t)))).
    { destruct R as (st & -> & C & W & Ia' & Ib' & L). exists st. fields. repeat split; auto. }
    split; [now apply srel_checkpoint|]. exists (ssnapshot a), (ssnapshot c).
    split; [now apply inv_snapshot|]. split; [now apply inv_snapshot|].
    destruct R as (st & -> & _). fields.
    intros [s'|s'|k|] [t'|t'|k'|] P1 P2 Hr; cbn in Hr; try contradiction; cbn [bind]; [| |exact Hr].
    + apply (restore_after (fun x => if b0 then ROk x else RErr x) ltac:(destruct b0; auto)
               (fun z => set_lookahead (set_pos z (pos s)) (lookahead s)) _ _ a c _ _ Cab P1 P2 Hr); reflexivity.
    + apply (restore_after (fun x => if b0 then RErr x else ROk x) ltac:(destruct b0; auto)
               (fun z => set_lookahead (set_pos z (pos s)) (lookahead s)) _ _ a c _ _ Cab P1 P2 Hr); reflexivity.
  - (* PAtomic *)
    destruct R as (st & -> & C & W & Ia' & Ib' & L). fields.
    split; [exists st; destruct (negb _); fields; repeat split; auto|].
    exists a, c. split; [destruct (negb _); exact Ia|]. split; [destruct (negb _); exact Ic|].
    intros [s'|s'|k|] [t'|t'|k'|] _ _ Hr; cbn in Hr; try contradiction; cbn [bind]; [| |exact Hr];
      destruct Hr as (st' & -> & C' & _); exists st'; destruct (negb _); fields; split; auto.
  - (* PStackPush *)
    split; [exact R|]. exists a, c. split; [exact Ia|]. split; [exact Ic|].
    destruct R as (st & -> & _). fields.
    intros [s'|s'|k|] [t'|t'|k'|] _ _ Hr; cbn in Hr; try contradiction; cbn [bind]; [|exact (core_of_srel _ _ Hr)|exact Hr].
    destruct Hr as (st' & -> & C' & _). fields. destruct (Nat.ltb (pos s') (pos s)); [reflexivity|].
    exists (push st' (firstn (pos s' - pos s) (skipn (pos s) (input s')))). split; [reflexivity|].
    unfold push. simpl. f_equal. exact C'.
  - (* PRestoreOnErr *)
    split; [now apply srel_checkpoint|]. exists (ssnapshot a), (ssnapshot c).
    split; [now apply inv_snapshot|]. split; [now apply inv_snapshot|].
    intros [s'|s'|k|] [t'|t'|k'|] P1 P2 Hr; cbn in Hr; try contradiction; cbn [bind]; [apply clear_core; auto| |exact Hr].
    apply (restore_after RErr (or_intror (fun x => eq_refl)) (fun z => z) _ _ a c _ _ Cab P1 P2 Hr); reflexivity.
Qed.

(* the mode a bracket runs its body in: `atomic` sets it, the others leave it *)
Definition amode_in (A : bool) (p : prog) (Ain : bool) : Prop :=
  match p with PAtomic a _ => Ain = true -> a <> NonAtomic | _ => Ain = A end.
Lemma enter_amode A Ain p b s : bracket_of p = Some b -> amode_in A p Ain -> amode A s -> amode Ain (b_enter b s).
Proof.
  destruct p; try discriminate; intros [= <-] HI HA; cbn in HI |- *; try (subst Ain; exact HA).
  - subst Ain. eapply amode_frame; [exact HA|]. destruct (rule_enter_spec s) as (_ & _ & _ & _ & _ & SQ). apply (q_at _ _ SQ).
  - intros X. destruct (atom_eqb (atomicity s) a) eqn:Ea; cbn; [rewrite (atom_eqb_eq _ _ Ea)|]; auto.
Qed.

Definition rebody (b : bracket) (q : prog) : bracket :=
  {| b_counted := b_counted b; b_body := q; b_enter := b_enter b; b_ok := b_ok b; b_err := b_err b |}.

(* Q is P with another body *)
Lemma fwd_bracket A Ain n P Q b q : bracket_of P = Some b -> bracket_of Q = Some (rebody b q) -> amode_in A P Ain ->
  fwd Ain n (b_body b) q -> fwd A n P Q.
Proof.
  intros BP BQ HI H f s t Hf R HA Hne. start f Hne.
  destruct (srel_inv _ _ R) as (W & Wt & L & L2 & a & c & Ia & Ic & Cab).
  destruct (bracket_rel P b BP s t a c R Ia Ic Cab) as (R2 & a2 & c2 & I1 & I2 & X).
  pose proof (exec_post cfg E1 (S f) P s a W Ia) as Y1.
  rewrite (exec_bracket cfg E1 f P b s BP), (guard_none _ s L) in Hne, Y1 |- *.
  assert (Hi : exec cfg E1 f (b_body b) (b_enter b s) <> ROutOfFuel) by (intros Y; rewrite Y in Hne; apply Hne; reflexivity).
  destruct (H f _ _ ltac:(lia) R2 (enter_amode A Ain P b s BP HI HA) Hi) as [f' Hr]. exists (S f').
  pose proof (exec_post cfg E2 (S f') Q t c Wt Ic) as Y2.
  rewrite (exec_bracket cfg E2 f' Q _ t BQ) in Y2 |- *. cbn [rebody b_counted b_body b_enter b_ok b_err] in Y2 |- *.
  rewrite (guard_none _ t L2) in Y2 |- *.
  eapply (rrel_of_core s a t c); [exact L|exact Y1|exact Y2|].
  apply X; [apply exec_post; [exact (r_wf _ _ R2)|exact I1]|apply exec_post; [exact (srel_wft _ _ R2)|exact I2]|exact Hr].
Qed.

End Cong.

(* reflexivity: the result of a program does not depend on the snapshot bookkeeping of the stack it
   starts from, only on its contents *)
Lemma fwd_zero cfg E1 E2 A p q : fwd cfg E1 E2 A 0 p q.
Proof. intros f s t Hf R HA Hne. exfalso. apply Hne. destruct f; [reflexivity|inversion Hf]. Qed.

Theorem fwd_refl cfg E : forall n A p, fwd cfg E E A n p p.
Proof.
  induction n as [|n IHn]; [intros; apply fwd_zero|].
  intros A p. revert A. induction p; intros A;
    try (eapply (fwd_bracket cfg E E A A); [reflexivity|reflexivity|reflexivity|]); try apply IHp.
  - apply fwd_prim.
  - apply fwd_reploop, IHp.
  - apply fwd_reploop, IHp.
  - eapply (fwd_bracket cfg E E A (match a with NonAtomic => false | _ => true end));
      [reflexivity|reflexivity|destruct a; cbn; congruence|apply IHp].
  - apply fwd_then; [apply IHp1|apply IHp2].
  - apply fwd_else; [apply IHp1|apply IHp2].
  - apply fwd_ifna; [apply IHp1|apply IHp2].
  - destruct (E f) as [b|] eqn:Ef.
    + eapply fwd_call; eauto.
    + apply fwd_call_none; auto.
Qed.

Lemma srel_trans s t u : srel s t -> srel t u -> srel s u.
Proof.
  intros (st & -> & C & W & Ia & Ib & L) (st' & -> & C' & _ & _ & Ic & _). fields_in C'.
  exists st'. repeat split; auto. congruence.
Qed.
Lemma srel_self_r s t : srel s t -> srel t t.
Proof. intros R. exact (srel_trans _ _ _ (srel_sym _ _ R) R). Qed.
Lemma rrel_trans r1 r2 r3 : rrel r1 r2 -> rrel r2 r3 -> rrel r1 r3.
Proof.
  destruct r1, r2, r3; cbn; try contradiction; try congruence; apply srel_trans.
Qed.

Lemma fwd_trans cfg E1 E2 A n p q q' :
  fwd cfg E1 E2 A n p q -> (forall m, fwd cfg E2 E2 A m q q') -> fwd cfg E1 E2 A n p q'.
Proof.
  intros H1 H2 f s t Hf R HA Hne.
  destruct (H1 f s t Hf R HA Hne) as [f1 Hr].
  assert (At : amode A t) by (intros X; rewrite (srel_at _ _ R); auto).
  destruct (H2 f1 f1 t t (le_n _) (srel_self_r _ _ R) At (rrel_nofuel _ _ Hr)) as [f2 Hr2].
  exists f2. eapply rrel_trans; eauto.
Qed.

(* both directions: `fwd`, and under an assumption R its converse (Equiv.v: the converse direction
   rests on a property of the generated code that follows from the forward direction) *)
Section Sim.
Variable R : Prop.
Variable cfg : config.
Variable E1 E2 : env.

Definition sim (A : bool) (n : nat) (p q : prog) : Prop := fwd cfg E1 E2 A n p q /\ (R -> fwd cfg E2 E1 A n q p).

Lemma sim_zero A p q : sim A 0 p q.
Proof. split; [|intros _]; apply fwd_zero. Qed.
Lemma sim_weaken n p q : sim false n p q -> sim true n p q.
Proof. intros [H1 H2]. split; [|intros r; specialize (H2 r)]; apply fwd_weaken; assumption. Qed.
Lemma sim_prim A n o : sim A n (PPrim o) (PPrim o).
Proof. split; [|intros _]; apply fwd_prim. Qed.
Lemma cong_reploop A n p q : sim A n p q -> sim A n (PRepeatLoop p) (PRepeatLoop q).
Proof. intros [H1 H2]. split; [|intros r; specialize (H2 r)]; apply fwd_reploop; assumption. Qed.
Lemma cong_bracket A Ain n P Q b q : bracket_of P = Some b -> bracket_of Q = Some (rebody b q) ->
  amode_in A P Ain -> amode_in A Q Ain -> sim Ain n (b_body b) q -> sim A n P Q.
Proof.
  intros BP BQ HP HQ [H1 H2]. split; [exact (fwd_bracket _ _ _ A Ain n P Q b q BP BQ HP H1)|]. intros r.
  apply (fwd_bracket _ _ _ A Ain n Q P (rebody b q) (b_body b)); [exact BQ|rewrite BP; destruct b; reflexivity|exact HQ|exact (H2 r)].
Qed.
Lemma cong_atomic A Ain n a p q : (Ain = true -> a <> NonAtomic) -> sim Ain n p q -> sim A n (PAtomic a p) (PAtomic a q).
Proof. intros Ha H. eapply cong_bracket; [reflexivity|reflexivity|exact Ha|exact Ha|exact H]. Qed.
Lemma cong_then A n p1 q1 p2 q2 : sim A n p1 q1 -> sim A n p2 q2 -> sim A n (PAndThen p1 p2) (PAndThen q1 q2).
Proof. intros [H1 H2] [H3 H4]. split; [|intros r; specialize (H2 r); specialize (H4 r)]; apply fwd_then; assumption. Qed.
Lemma cong_else A n p1 q1 p2 q2 : sim A n p1 q1 -> sim A n p2 q2 -> sim A n (POrElse p1 p2) (POrElse q1 q2).
Proof. intros [H1 H2] [H3 H4]. split; [|intros r; specialize (H2 r); specialize (H4 r)]; apply fwd_else; assumption. Qed.
Lemma cong_ifna A n p1 q1 p2 q2 : sim A n p1 q1 -> sim A n p2 q2 -> sim A n (PIfNonAtomic p1 p2) (PIfNonAtomic q1 q2).
Proof. intros [H1 H2] [H3 H4]. split; [|intros r; specialize (H2 r); specialize (H4 r)]; apply fwd_ifna; assumption. Qed.
Lemma cong_call A n k1 k2 p q : E1 k1 = Some p -> E2 k2 = Some q -> sim A n p q -> sim A (S n) (PCall k1) (PCall k2).
Proof. intros X1 X2 [H1 H2]. split; [|intros r; specialize (H2 r)]; eapply fwd_call; eassumption. Qed.
Lemma cong_call_none A n k1 k2 : E1 k1 = None -> E2 k2 = None -> sim A n (PCall k1) (PCall k2).
Proof. intros X1 X2. split; [|intros _]; apply fwd_call_none; assumption. Qed.
Lemma cong_call_left A n k p q : E1 k = Some p -> sim A n p q -> sim A n (PCall k) q.
Proof. intros X [H1 H2]. split; [eapply fwd_call_left|intros r; eapply fwd_call_right]; eauto. Qed.
End Sim.

(* for a combinator other than `atomic`: the side conditions of fwd_bracket / cong_bracket hold by computation *)
Ltac fbracket := eapply fwd_bracket; [reflexivity|reflexivity|reflexivity|].
Ltac bracket := eapply cong_bracket; [reflexivity|reflexivity|reflexivity|reflexivity|].

Lemma fwd_rep cfg E1 E2 A n p q : fwd cfg E1 E2 A n p q -> fwd cfg E1 E2 A n (PRepeat p) (PRepeat q).
Proof. intros H. fbracket. apply fwd_reploop, H. Qed.
Lemma cong_rep R cfg E1 E2 A n p q : sim R cfg E1 E2 A n p q -> sim R cfg E1 E2 A n (PRepeat p) (PRepeat q).
Proof. intros H. bracket. apply cong_reploop, H. Qed.
