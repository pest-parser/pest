(* C02 proofs, part 3: laws of Layer-C programs within ONE closure environment, up to the relation
   of Rel.v (same observable state, possibly different snapshot bookkeeping):
     - and_then / or_else are associative;
     - a `sequence` around the tail of a `sequence` is absorbed:
           sequence(X ; Y)  ~  sequence(X ; sequence(Y))
     - in atomic mode, for a body that fails cleanly and a skip that is the identity:
           repeat(x)  ~  sequence(optional(x ; repeat(sequence(skip ; x))))
   These are the differences between the code generate_expr/_atomic emits and what the VM runs.
   Each law is proved from left to right; read from right to left it needs only that termination
   carries over (eqv_conv). *)
From Coq Require Import List Arith NArith ZArith Bool Lia.
Import ListNotations.
Require Import PV.Stack.Model PV.Stack.Proofs PV.Comb.PState PV.Comb.Bytes PV.Comb.Prog PV.Comb.Exec
               PV.Comb.Frame PV.Comb.Contracts PV.Comb.CallLimit PV.Peg.Ast PV.Gen.GenCompile PV.Gen.Rel PV.Gen.Cong PV.Peg.Refine0.

Arguments Nat.sub : simpl never.
Arguments Nat.ltb : simpl never.
Arguments Nat.leb : simpl never.
Arguments Nat.eqb : simpl never.
Arguments skipn : simpl never.
Arguments firstn : simpl never.

Section Laws.
Variable cfg : config.
Variable E : env.

(* terminating runs, fuel hidden *)
Definition runs (p : prog) (s : pst) (r : res) : Prop := r <> ROutOfFuel /\ exists f, exec cfg E f p s = r.

Lemma runs_at p s r : runs p s r -> (exists f0, forall f', f0 <= f' -> exec cfg E f' p s = r).
Proof. intros [N [f0 E0]]. exists f0. intros f' Hle. rewrite <- E0. apply exec_mono; auto. congruence. Qed.
Lemma runs_post p s a r : wf s -> Inv (stack s) a -> runs p s r -> post s a r.
Proof. intros W I [_ [f <-]]. now apply exec_post. Qed.

Definition eqv (A : bool) (q q' : prog) : Prop :=
  forall s t r, srel s t -> amode A s -> runs q s r -> exists r', runs q' t r' /\ rrel r r'.

Lemma eqv_fwd A q q' : eqv A q q' -> forall m, fwd cfg E E A m q q'.
Proof.
  intros H m f s t Hf R HA Hne.
  destruct (H s t _ R HA (conj Hne (ex_intro _ f eq_refl))) as (r' & [N [f' Ef]] & Hr).
  exists f'. rewrite Ef. exact Hr.
Qed.
Lemma fwd_eqv A q q' : (forall m, fwd cfg E E A m q q') -> eqv A q q'.
Proof.
  intros H s t r R HA [N [f Ef]]. subst r.
  destruct (H f f s t (le_n _) R HA N) as [f' Hr].
  exists (exec cfg E f' q' t). split; [split; [eapply rrel_nofuel; eauto|eauto]|exact Hr].
Qed.
Lemma eqv_refl A q : eqv A q q.
Proof. apply fwd_eqv. intros m. apply fwd_refl. Qed.
Lemma eqv_trans A q1 q2 q3 : eqv A q1 q2 -> eqv A q2 q3 -> eqv A q1 q3.
Proof.
  intros H1 H2 s t r R HA Hr. destruct (H1 s t r R HA Hr) as (r2 & Hr2 & R12).
  assert (At : amode A t) by (intros X; rewrite (srel_at _ _ R); auto).
  destruct (H2 t t r2 (srel_self_r _ _ R) At Hr2) as (r3 & Hr3 & R23). exists r3. split; auto. eapply rrel_trans; eauto.
Qed.

(* a program has at most one result, and srel is symmetric: the converse of a law holds as soon as
   termination carries over from right to left *)
Definition stops (p : prog) (s : pst) : Prop := exists r, runs p s r.
Lemma eqv_conv A p q : eqv A p q -> (forall s t, srel s t -> amode A s -> stops q s -> stops p t) -> eqv A q p.
Proof.
  intros H Hh s t r R HA Hr. destruct (Hh s t R HA (ex_intro _ r Hr)) as [r0 Hr0].
  assert (At : amode A t) by (intros X; rewrite (srel_at _ _ R); auto).
  destruct (H t s r0 (srel_sym _ _ R) At Hr0) as (r' & Hr' & Rr).
  exists r0. split; [exact Hr0|]. rewrite (runs_det cfg E _ _ _ _ Hr Hr'). apply rrel_sym. exact Rr.
Qed.

Lemma eqv_seq A p q : eqv A p q -> eqv A (PSequence p) (PSequence q).
Proof. intros H. apply fwd_eqv. intros m. fbracket. now apply eqv_fwd. Qed.

Lemma runs_atom p s t s1 : srel s t -> runs p s (ROk s1) -> atomicity s1 = atomicity s.
Proof.
  intros R Hr. destruct (r_is _ _ R) as [a Ia]. pose proof (runs_post _ _ _ _ (r_wf _ _ R) Ia Hr) as P.
  cbn in P. destruct P as (F & _). apply (f_at _ _ F).
Qed.

Definition peq (q q' : prog) : Prop := forall s r, runs q s r -> runs q' s r.
Lemma eqv_of_peq A q q' : peq q q' -> eqv A q q'.
Proof. intros H s t r R HA Hr. apply (eqv_refl A q' s t r R HA). now apply H. Qed.
Lemma peq_refl a : peq a a.
Proof. intros s r Hr. exact Hr. Qed.

Lemma runs_then_inv p q s r : runs (PAndThen p q) s r ->
  (exists s1, runs p s (ROk s1) /\ runs q s1 r) \/ (runs p s r /\ forall s1, r <> ROk s1).
Proof.
  intros [N [f Ef]]. destruct f as [|f]; [cbn in Ef; congruence|]. cbn [exec] in Ef.
  destruct (exec cfg E f p s) as [s1|s1|k|] eqn:Ep.
  - left. exists s1. split; [split; [discriminate|eauto]|split; eauto].
  - right. subst r. split; [split; eauto|discriminate].
  - right. subst r. split; [split; eauto|discriminate].
  - congruence.
Qed.

Lemma runs_else_inv p q s r : runs (POrElse p q) s r ->
  (exists s1, runs p s (RErr s1) /\ runs q s1 r) \/ (runs p s r /\ forall s1, r <> RErr s1).
Proof.
  intros [N [f Ef]]. destruct f as [|f]; [cbn in Ef; congruence|]. cbn [exec] in Ef.
  destruct (exec cfg E f p s) as [s1|s1|k|] eqn:Ep.
  - right. subst r. split; [split; eauto|discriminate].
  - left. exists s1. split; [split; [discriminate|eauto]|split; eauto].
  - right. subst r. split; [split; eauto|discriminate].
  - congruence.
Qed.

Lemma then_assoc p q r0 : peq (PAndThen (PAndThen p q) r0) (PAndThen p (PAndThen q r0)).
Proof.
  intros s r H. destruct (runs_then_inv _ _ _ _ H) as [(s2 & H1 & H2)|[H1 Hn]].
  - destruct (runs_then_inv _ _ _ _ H1) as [(s1 & Hp & Hq)|[Hp Hn]]; [|exfalso; eapply Hn; eauto].
    eapply runs_andthen_ok; [exact Hp|]. eapply runs_andthen_ok; eauto.
  - destruct (runs_then_inv _ _ _ _ H1) as [(s1 & Hp & Hq)|[Hp _]].
    + eapply runs_andthen_ok; [exact Hp|]. apply runs_andthen_stop; auto.
    + apply runs_andthen_stop; auto.
Qed.
Lemma else_assoc p q r0 : peq (POrElse (POrElse p q) r0) (POrElse p (POrElse q r0)).
Proof.
  intros s r H. destruct (runs_else_inv _ _ _ _ H) as [(s2 & H1 & H2)|[H1 Hn]].
  - destruct (runs_else_inv _ _ _ _ H1) as [(s1 & Hp & Hq)|[Hp Hn]]; [|exfalso; eapply Hn; eauto].
    eapply runs_orelse_err; [exact Hp|]. eapply runs_orelse_err; eauto.
  - destruct (runs_else_inv _ _ _ _ H1) as [(s1 & Hp & Hq)|[Hp _]].
    + eapply runs_orelse_err; [exact Hp|]. apply runs_orelse_stop; auto.
    + apply runs_orelse_stop; auto.
Qed.
Lemma then_assoc_rev p q r0 : peq (PAndThen p (PAndThen q r0)) (PAndThen (PAndThen p q) r0).
Proof.
  intros s r H. destruct (runs_then_inv _ _ _ _ H) as [(s1 & Hp & H2)|[Hp Hn]].
  - destruct (runs_then_inv _ _ _ _ H2) as [(s2 & Hq & Hr)|[Hq Hn]].
    + eapply runs_andthen_ok; [|exact Hr]. eapply runs_andthen_ok; eauto.
    + apply runs_andthen_stop; auto. eapply runs_andthen_ok; eauto.
  - apply runs_andthen_stop; auto. apply runs_andthen_stop; auto.
Qed.
Lemma else_assoc_rev p q r0 : peq (POrElse p (POrElse q r0)) (POrElse (POrElse p q) r0).
Proof.
  intros s r H. destruct (runs_else_inv _ _ _ _ H) as [(s1 & Hp & H2)|[Hp Hn]].
  - destruct (runs_else_inv _ _ _ _ H2) as [(s2 & Hq & Hr)|[Hq Hn]].
    + eapply runs_orelse_err; [|exact Hr]. eapply runs_orelse_err; eauto.
    + apply runs_orelse_stop; auto. eapply runs_orelse_err; eauto.
  - apply runs_orelse_stop; auto. apply runs_orelse_stop; auto.
Qed.
Lemma assoc4 X a k b : peq (PAndThen (PAndThen (PAndThen X a) k) b) (PAndThen X (PAndThen (PAndThen a k) b)).
Proof.
  intros s r H. destruct (runs_then_inv _ _ _ _ H) as [(s3 & H1 & Hb)|[H1 Hn]].
  - destruct (runs_then_inv _ _ _ _ H1) as [(s2 & H2 & Hk)|[H2 Hn]]; [|exfalso; eapply Hn; eauto].
    destruct (runs_then_inv _ _ _ _ H2) as [(s1 & HX & Ha)|[HX Hn]]; [|exfalso; eapply Hn; eauto].
    eapply runs_andthen_ok; [exact HX|]. eapply runs_andthen_ok; [|exact Hb]. eapply runs_andthen_ok; eauto.
  - destruct (runs_then_inv _ _ _ _ H1) as [(s2 & H2 & Hk)|[H2 _]].
    + destruct (runs_then_inv _ _ _ _ H2) as [(s1 & HX & Ha)|[HX Hn']]; [|exfalso; eapply Hn'; eauto].
      eapply runs_andthen_ok; [exact HX|]. apply runs_andthen_stop; auto. eapply runs_andthen_ok; eauto.
    + destruct (runs_then_inv _ _ _ _ H2) as [(s1 & HX & Ha)|[HX _]].
      * eapply runs_andthen_ok; [exact HX|]. apply runs_andthen_stop; auto. apply runs_andthen_stop; auto.
      * apply runs_andthen_stop; auto.
Qed.
Lemma assoc4_rev X a k b : peq (PAndThen X (PAndThen (PAndThen a k) b)) (PAndThen (PAndThen (PAndThen X a) k) b).
Proof.
  intros s r H. destruct (runs_then_inv _ _ _ _ H) as [(s1 & HX & H2)|[HX Hn]].
  - destruct (runs_then_inv _ _ _ _ H2) as [(s3 & H3 & Hb)|[H3 Hn]].
    + destruct (runs_then_inv _ _ _ _ H3) as [(s2 & Ha & Hk)|[Ha Hn]]; [|exfalso; eapply Hn; eauto].
      eapply runs_andthen_ok; [|exact Hb]. eapply runs_andthen_ok; [|exact Hk]. eapply runs_andthen_ok; eauto.
    + destruct (runs_then_inv _ _ _ _ H3) as [(s2 & Ha & Hk)|[Ha _]].
      * apply runs_andthen_stop; auto. eapply runs_andthen_ok; [|exact Hk]. eapply runs_andthen_ok; eauto.
      * apply runs_andthen_stop; auto. apply runs_andthen_stop; auto. eapply runs_andthen_ok; eauto.
  - apply runs_andthen_stop; auto. apply runs_andthen_stop; auto. apply runs_andthen_stop; auto.
Qed.

Definition seq_post (s : pst) (rb : res) : res :=
  match rb with
  | ROk s' => lift ROk (checkpoint_ok s')
  | RErr s' => lift RErr (restore_st (set_queue (set_pos s' (pos s)) (vtruncate (length (queue s)) (queue s'))))
  | RPanic k => RPanic k
  | ROutOfFuel => ROutOfFuel
  end.
Lemma exec_seq f p s : limit s = None -> exec cfg E (S f) (PSequence p) s = seq_post s (exec cfg E f p (checkpoint s)).
Proof. intros L. cbn [exec]. rewrite (inc_call_none s L). reflexivity. Qed.
Lemma seq_post_nofuel s rb : rb <> ROutOfFuel -> seq_post s rb <> ROutOfFuel.
Proof.
  destruct rb as [s'|s'|k|]; cbn; intros H; try congruence.
  - destruct (checkpoint_ok s'); cbn; discriminate.
  - destruct (restore_st _); cbn; discriminate.
Qed.
Lemma runs_seq_inv p s r : limit s = None -> runs (PSequence p) s r -> exists rb, runs p (checkpoint s) rb /\ r = seq_post s rb.
Proof.
  intros L [N [f Ef]]. destruct f as [|f]; [cbn in Ef; congruence|]. rewrite (exec_seq f p s L) in Ef.
  exists (exec cfg E f p (checkpoint s)). split; auto. split; eauto.
  intros X. rewrite X in Ef. cbn in Ef. congruence.
Qed.
Lemma runs_seq p s rb : limit s = None -> runs p (checkpoint s) rb -> runs (PSequence p) s (seq_post s rb).
Proof.
  intros L H. apply (runs_wrap cfg E (PSequence p) _ s rb eq_refl L H). apply seq_post_nofuel, H.
Qed.

Lemma vtruncate_vtruncate {A} (n m : nat) (l : list A) : n <= m -> vtruncate n (vtruncate m l) = vtruncate n l.
Proof.
  intros H. unfold vtruncate.
  destruct (Nat.ltb_spec m (length l)) as [Hm|Hm]; [|reflexivity].
  rewrite skipn_length. replace (length l - (length l - m)) with m by lia.
  destruct (Nat.ltb_spec n m) as [Hn|Hn], (Nat.ltb_spec n (length l)) as [Hl|Hl]; try lia.
  - rewrite Proofs.skipn_skipn'. f_equal. lia.
  - replace n with m by lia. reflexivity.
Qed.

Lemma frame_qlen s s' : frame s s' -> length (queue s) <= length (queue s').
Proof.
  intros F. destruct (f_queue _ _ F) as [new Eq]. apply (f_equal (@length _)) in Eq.
  rewrite app_length, !untagq_length in Eq. lia.
Qed.

Lemma srel_checkpoint_r s t : srel s t -> srel s (checkpoint t).
Proof.
  intros (st & -> & C & W & Ia & [b Ib] & L). exists (snapshot st). unfold checkpoint. fields.
  repeat split; auto. exists (ssnapshot b). now apply inv_snapshot.
Qed.

Lemma srel_self_l s t : srel s t -> srel s s.
Proof. intros R. destruct (r_is _ _ R) as [a Ia]. eapply srel_refl; eauto; [eapply r_wf|eapply r_lim]; eauto. Qed.

Lemma srel_checkpoint_l s t : srel s t -> srel (checkpoint s) t.
Proof. intros R. apply srel_sym, srel_checkpoint_r, srel_sym, R. Qed.

Lemma seq_absorb A X Y : eqv A (PSequence (PAndThen X Y)) (PSequence (PAndThen X (PSequence Y))).
Proof.
  intros s t r R HA H.
  destruct (srel_inv _ _ R) as (W & Wt & L & L2 & a & b & Ia & Ib & Cab).
  destruct (runs_seq_inv _ _ _ L H) as (rb & Hb & ->).
  pose proof (srel_checkpoint _ _ R) as R1.
  assert (A1 : amode A (checkpoint s)) by (eapply amode_frame; [exact HA|reflexivity]).
  assert (W1 : wf (checkpoint s)) by exact W. assert (W2 : wf (checkpoint t)) by exact Wt.
  pose proof (inv_snapshot Ia) as I1. pose proof (inv_snapshot Ib) as I2.
  change (snapshot (stack s)) with (stack (checkpoint s)) in I1. change (snapshot (stack t)) with (stack (checkpoint t)) in I2.
  destruct (runs_then_inv _ _ _ _ Hb) as [(s1 & HX & HY)|[HX Hn]].
  - destruct (eqv_refl A X _ _ _ R1 A1 HX) as (rx' & HX' & RX).
    destruct rx' as [t1| | |]; cbn in RX; try contradiction.
    pose proof (runs_post _ _ _ _ W1 I1 HX) as PX. pose proof (runs_post _ _ _ _ W2 I2 HX') as PX'.
    cbn in PX, PX'. destruct PX as (FX & Ws1 & a1 & Ia1 & Sa1), PX' as (FX' & Wt1 & b1 & Ib1 & Sb1).
    assert (A2 : amode A s1) by (eapply frame_amode; eauto).
    destruct (eqv_refl A Y _ _ _ (srel_checkpoint_r _ _ RX) A2 HY) as (ry' & HY' & RY).
    pose proof (srel_limt _ _ RX) as L1.
    pose proof (runs_seq _ _ _ L1 HY') as T1.
    pose proof (runs_andthen_ok cfg E _ _ _ _ _ HX' T1) as T2.
    pose proof (runs_seq _ _ _ L2 T2) as T3.
    eexists; split; [exact T3|].
    eapply (rrel_of_core s a t b); [exact L|eapply runs_post; eauto|eapply runs_post; eauto|].
    pose proof (runs_post _ _ _ _ Ws1 Ia1 HY) as PY.
    assert (Wc : wf (checkpoint t1)) by exact Wt1.
    pose proof (inv_snapshot Ib1) as Ic. change (snapshot (stack t1)) with (stack (checkpoint t1)) in Ic.
    pose proof (runs_post _ _ _ _ Wc Ic HY') as PY'.
    destruct rb as [sy|sy|k|], ry' as [ty|ty|k'|]; cbn in RY; try contradiction; cbn [seq_post].
    + (* Y succeeds *)
      cbn in PY'. destruct PY' as (_ & _ & b2 & Ib2 & Sb2).
      unfold checkpoint_ok at 2. destruct (inv_clear Ib2) as (stc & Ec & Ic2). rewrite Ec. fields.
      apply clear_core; [left; reflexivity|].
      destruct RY as (sty & -> & Cy & Wy & Iy & _ & Ly). fields_in Ib2. fields.
      exists stc. repeat split; auto; [|exists (sclear b2); exact Ic2].
      rewrite (inv_cache' _ _ Ic2). cbn. rewrite <- (inv_cache' _ _ Ib2). exact Cy.
    + (* Y fails: the inner restore, then the outer one *)
      cbn in PY, PY'. destruct PY as (FY & _ & a2 & Ia2 & Sa2), PY' as (_ & _ & b2 & Ib2 & Sb2).
      destruct RY as (sty & -> & Cy & _). fields_in Ib2.
      unfold restore_st at 2. fields. destruct (inv_restore Ib2) as (str & Er & Ir). rewrite Er. fields.
      destruct R as (st0 & -> & C0 & _). destruct RX as (st1 & -> & C1 & _). fields.
      cbn [seq_post]. fields. rewrite vtruncate_vtruncate by (exact (frame_qlen _ _ FX)).
      change (set_queue (set_pos (set_stack (set_queue (set_pos (sw sty sy) ?p1) ?q1) str) ?p2) ?q2)
        with (sw str (set_queue (set_pos sy p2) q2)).
      eapply (restore_core RErr (or_intror (fun x => eq_refl))) with (a := a2) (b := srestore b2); fields; auto.
      * rewrite Sa2, Sa1. cbn. reflexivity.
      * unfold srestore. rewrite Sb2. cbn. rewrite Sb1. cbn. rewrite Cab. reflexivity.
    + exact RY.
  - (* X does not succeed: both sides stop there *)
    destruct (eqv_refl A X _ _ _ R1 A1 HX) as (rx' & HX' & RX).
    assert (Hn' : forall t1, rx' <> ROk t1) by (intros t1 ->; destruct rb; cbn in RX; try contradiction; eapply Hn; eauto).
    pose proof (runs_andthen_stop cfg E _ (PSequence Y) _ _ HX' Hn') as T2.
    pose proof (runs_seq _ _ _ L2 T2) as T3.
    eexists; split; [exact T3|].
    (* the same as for sequence(X) on both sides *)
    pose proof (runs_seq _ _ _ L HX) as S3.
    destruct (eqv_refl A (PSequence X) _ _ _ R HA S3) as (r' & Hr' & Rr).
    rewrite (runs_det cfg E _ _ _ _ (runs_seq _ _ _ L2 HX') Hr'). exact Rr.
Qed.

Lemma seq_unabsorb A X Y : eqv A (PSequence (PAndThen X (PSequence Y))) (PSequence (PAndThen X Y)).
Proof.
  apply eqv_conv; [apply seq_absorb|]. intros s t R HA [r H].
  pose proof (r_lim _ _ R) as L. pose proof (srel_limt _ _ R) as L2. pose proof (srel_checkpoint _ _ R) as R1.
  destruct (runs_seq_inv _ _ _ L H) as (rb & Hb & _).
  destruct (runs_then_inv _ _ _ _ Hb) as [(s1 & HX & HS)|[HX Hn]];
    destruct (eqv_refl A X _ _ _ R1 HA HX) as (rx' & HX' & RX).
  - destruct rx' as [t1| | |]; cbn in RX; try contradiction.
    destruct (runs_seq_inv _ _ _ (r_lim _ _ RX) HS) as (ry & HY & _).
    assert (A2 : amode A (checkpoint s1)) by (intros M; cbn; rewrite (runs_atom _ _ _ _ R1 HX); exact (HA M)).
    destruct (eqv_refl A Y _ _ _ (srel_checkpoint_l _ _ RX) A2 HY) as (ry' & HY' & _).
    exists (seq_post t ry'). apply (runs_seq _ _ _ L2). eapply runs_andthen_ok; eauto.
  - exists (seq_post t rx'). apply (runs_seq _ _ _ L2). apply runs_andthen_stop; [exact HX'|].
    intros t1 ->. destruct rb; cbn in RX; try contradiction. eapply Hn; eauto.
Qed.

Definition opt_post (rb : res) : res := match rb with ROk s' | RErr s' => ROk s' | RPanic k => RPanic k | ROutOfFuel => ROutOfFuel end.
Lemma runs_opt p s rb : limit s = None -> runs p s rb -> runs (POptional p) s (opt_post rb).
Proof.
  intros L H. apply (runs_wrap cfg E (POptional p) _ s rb eq_refl L H). destruct H, rb; cbn; congruence.
Qed.
Lemma runs_rep p s r : limit s = None -> runs (PRepeatLoop p) s r -> runs (PRepeat p) s r.
Proof. intros L H. exact (runs_step cfg E (fin := fun x => x) (fun k => exec_repeat cfg E k p s L) H (proj1 H)). Qed.
Lemma runs_opt_inv p s r : limit s = None -> runs (POptional p) s r -> exists rb, runs p s rb /\ r = opt_post rb.
Proof.
  intros L [N [f Ef]]. destruct f as [|f]; [cbn in Ef; congruence|]. cbn [exec] in Ef. rewrite (inc_call_none s L) in Ef.
  exists (exec cfg E f p s). split; [split; eauto|].
  - intros X. rewrite X in Ef. congruence.
  - rewrite <- Ef. destruct (exec cfg E f p s); reflexivity.
Qed.
Lemma runs_rep_inv p s r : limit s = None -> runs (PRepeat p) s r -> runs (PRepeatLoop p) s r.
Proof.
  intros L [N [f Ef]]. destruct f as [|f]; [cbn in Ef; congruence|]. cbn [exec] in Ef. rewrite (inc_call_none s L) in Ef.
  split; eauto.
Qed.

Lemma set_pos_id s : set_pos s (pos s) = s.
Proof. destruct s; reflexivity. Qed.
Lemma set_queue_id s : set_queue s (queue s) = s.
Proof. destruct s; reflexivity. Qed.
Lemma vtruncate_all {A} (l : list A) n : n = length l -> vtruncate n l = l.
Proof. intros ->. unfold vtruncate. now rewrite Nat.ltb_irrefl. Qed.

Lemma srel_clear_r s t : srel s t -> exists t', checkpoint_ok t = Some t' /\ srel s t'.
Proof.
  intros (st & -> & C & W & Ia & [b Ib] & L). unfold checkpoint_ok. fields.
  destruct (inv_clear Ib) as (stc & Ec & Ic). rewrite Ec. fields. eexists; split; [reflexivity|].
  exists stc. repeat split; auto; [|exists (sclear b); exact Ic].
  rewrite (inv_cache' _ _ Ic). cbn. rewrite <- (inv_cache' _ _ Ib). exact C.
Qed.
Lemma srel_clear_l s t : srel s t -> exists s', checkpoint_ok s = Some s' /\ srel s' t.
Proof.
  intros R. destruct (srel_clear_r _ _ (srel_sym _ _ R)) as (s' & Ec & Rc). exists s'. split; [exact Ec|apply srel_sym, Rc].
Qed.

Definition skip_id (k : prog) : Prop := forall s, atomicity s <> NonAtomic -> runs k s (ROk s).
Definition fails_clean (x : prog) : Prop :=
  forall s s' a, wf s -> Inv (stack s) a -> limit s = None -> atomicity s <> NonAtomic -> runs x s (RErr s') ->
    pos s' = pos s /\ length (queue s') = length (queue s) /\ cache (stack s') = cache (stack s).

Lemma then_skip_r k q t r a : skip_id k -> wf t -> Inv (stack t) a -> atomicity t <> NonAtomic ->
  runs q t r -> runs (PAndThen q k) t r.
Proof.
  intros Hk W I HA Hq. destruct r as [t1|t1|kk|].
  - eapply runs_andthen_ok; [exact Hq|]. apply Hk.
    pose proof (runs_post _ _ _ _ W I Hq) as P. cbn in P. destruct P as (F & _). rewrite (f_at _ _ F). exact HA.
  - apply runs_andthen_stop; auto. discriminate.
  - apply runs_andthen_stop; auto. discriminate.
  - destruct Hq as [N _]. congruence.
Qed.
Lemma then_skip_l k q t r : skip_id k -> atomicity t <> NonAtomic -> runs q t r -> runs (PAndThen k q) t r.
Proof. intros Hk HA Hq. eapply runs_andthen_ok; [apply Hk; exact HA|exact Hq]. Qed.

Section RepAtomic.
Variable x k : prog.
Hypothesis Hk : skip_id k.
Hypothesis Hx : fails_clean x.
Let body' := PSequence (PAndThen k x).

(* one later iteration on the right for one iteration on the left *)
Lemma iter_right s t rx : srel s t -> atomicity s <> NonAtomic -> runs x s rx ->
  exists rb, runs body' t rb /\
    match rx with
    | ROk s1 => exists t1, rb = ROk t1 /\ srel s1 t1
    | RErr s' => exists tr, rb = RErr tr /\ srel s' tr
    | RPanic kk => rb = RPanic kk
    | ROutOfFuel => False
    end.
Proof.
  intros R HA HX.
  destruct (srel_inv _ _ R) as (W & Wt & L & L2 & a & b & Ia & Ib & Cab).
  assert (Ac : atomicity (checkpoint t) <> NonAtomic) by (cbn; rewrite (srel_at _ _ R); exact HA).
  pose proof (Hk _ Ac) as K1.
  destruct (eqv_refl true x _ _ _ (srel_checkpoint_r _ _ R) (fun _ => HA) HX) as (rx' & HX' & RX).
  assert (Wc : wf (checkpoint t)) by exact Wt.
  pose proof (inv_snapshot Ib) as Ic. change (snapshot (stack t)) with (stack (checkpoint t)) in Ic.
  pose proof (runs_andthen_ok cfg E _ _ _ _ _ K1 HX') as T1.
  pose proof (runs_seq _ _ _ L2 T1) as T2.
  exists (seq_post t rx'). split; [exact T2|].
  pose proof (runs_post _ _ _ _ Wc Ic HX') as PX'.
  destruct rx as [s1|s'|kk|], rx' as [t1|t'|kk'|]; cbn in RX; try contradiction; cbn [seq_post].
  - destruct (srel_clear_r _ _ RX) as (tc & Ec & Rc). rewrite Ec. cbn. eauto.
  - pose proof (runs_post _ _ _ _ W Ia HX) as PX. cbn in PX, PX'.
    destruct PX as (FX & Ws' & a' & Ia' & Sa'), PX' as (_ & _ & b' & Ib' & Sb').
    destruct (Hx _ _ _ W Ia L HA HX) as (Cp & Cq & Cs).
    destruct RX as (st' & -> & C' & _). destruct R as (st & -> & C & _). fields_in Ib'. fields_in Ib.
    unfold restore_st. fields. destruct (inv_restore Ib') as (str & Er & Ir). rewrite Er. fields.
    eexists; split; [reflexivity|].
    rewrite <- Cp, <- Cq, (vtruncate_all (queue s') _ eq_refl).
    change (set_queue (set_pos (sw st' s') (pos s')) (queue s')) with (sw st' (set_queue (set_pos s' (pos s')) (queue s'))).
    rewrite set_pos_id, set_queue_id. fields.
    exists str. repeat split; auto; [|exists a'; exact Ia'|exists (srestore b'); exact Ir|rewrite (f_lim _ _ FX); exact L].
    rewrite (inv_cache' _ _ Ir). unfold srestore. rewrite Sb'. cbn.
    rewrite <- (inv_cache' _ _ Ib), C. symmetry. exact Cs.
  - subst kk'. reflexivity.
Qed.

Lemma loop_right : forall f s t, srel s t -> atomicity s <> NonAtomic ->
  exec cfg E f (PRepeatLoop x) s <> ROutOfFuel ->
  exists r', runs (PRepeatLoop body') t r' /\ rrel (exec cfg E f (PRepeatLoop x) s) r'.
Proof.
  induction f as [|f IH]; intros s t R HA Hne; [exfalso; apply Hne; reflexivity|].
  cbn [exec] in Hne |- *. remember (exec cfg E f x s) as rx eqn:Ex.
  assert (HX : runs x s rx) by (split; [intros X; rewrite X in Hne; congruence|eauto]).
  destruct (iter_right _ _ _ R HA HX) as (rb & Hb & Rb).
  destruct rx as [s1|s'|kk|]; [destruct Rb as (t1 & -> & R1)|destruct Rb as (tr & -> & R1)|subst rb|contradiction].
  - assert (A1 : atomicity s1 <> NonAtomic) by (rewrite (runs_atom _ _ _ _ R HX); exact HA).
    destruct (IH _ _ R1 A1 Hne) as (r' & Hr' & Rr). exists r'. split; auto. eapply runs_loop_ok; eauto.
  - exists (ROk tr). split; [apply (runs_loop_stop cfg E _ _ (RErr _)); [assumption|discriminate]|exact R1].
  - exists (RPanic kk). split; [apply (runs_loop_stop cfg E _ _ (RPanic _)); [assumption|discriminate]|reflexivity].
Qed.

Lemma rep_atomic : eqv true (PRepeat x) (PSequence (POptional (PAndThen x (PRepeat body')))).
Proof.
  intros s t r R HA0 [N [f Ef]]. assert (HA : atomicity s <> NonAtomic) by (apply HA0; reflexivity).
  destruct (srel_inv _ _ R) as (W & Wt & L & L2 & a & b & Ia & Ib & Cab).
  destruct f as [|f]; [cbn in Ef; congruence|]. cbn [exec] in Ef. rewrite (inc_call_none s L) in Ef.
  destruct f as [|f]; [cbn in Ef; congruence|]. cbn [exec] in Ef.
  pose proof (srel_checkpoint_r _ _ R) as Rc.
  assert (Lc : limit (checkpoint t) = None) by exact L2.
  remember (exec cfg E f x s) as rx eqn:Ex.
  assert (HX : runs x s rx) by (split; [intros X; rewrite X in Ef; congruence|eauto]).
  destruct (eqv_refl true x _ _ _ Rc (fun _ => HA) HX) as (rx' & HX' & RX).
  destruct rx as [s1|s'|kk|], rx' as [t1|t'|kk'|]; cbn in RX; try contradiction.
  - (* first iteration succeeds: the rest is the loop *)
    assert (A1 : atomicity s1 <> NonAtomic) by (rewrite (runs_atom _ _ _ _ R HX); exact HA).
    assert (Hne : exec cfg E f (PRepeatLoop x) s1 <> ROutOfFuel) by congruence.
    destruct (loop_right f _ _ RX A1 Hne) as (r' & Hr' & Rr). rewrite Ef in Rr.
    pose proof (runs_rep _ _ _ (srel_limt _ _ RX) Hr') as T1.
    pose proof (runs_seq _ _ _ L2 (runs_opt _ _ _ Lc (runs_andthen_ok cfg E _ _ _ _ _ HX' T1))) as T.
    eexists; split; [exact T|].
    destruct r as [sz|sz|kz|], r' as [tz|tz|kz'|]; cbn in Rr; try contradiction; cbn [opt_post seq_post].
    + destruct (srel_clear_r _ _ Rr) as (tc & Ec & Rc'). rewrite Ec. exact Rc'.
    + exfalso. eapply loop_no_err; eauto.
    + exact Rr.
  - (* first iteration fails: nothing matched *)
    pose proof (runs_seq _ _ _ L2 (runs_opt _ _ _ Lc (runs_andthen_stop cfg E _ (PRepeat body') _ _ HX' ltac:(discriminate)))) as T.
    eexists; split; [exact T|]. subst r. cbn [opt_post seq_post].
    destruct (srel_clear_r _ _ RX) as (tc & Ec & Rc'). rewrite Ec. exact Rc'.
  - subst kk'.
    pose proof (runs_seq _ _ _ L2 (runs_opt _ _ _ Lc (runs_andthen_stop cfg E _ (PRepeat body') _ _ HX' ltac:(discriminate)))) as T.
    eexists; split; [exact T|]. subst r. reflexivity.
Qed.

(* the converse: one iteration of the nest on the left is one iteration of the plain loop on the right *)
Lemma body_inv s t rb : srel s t -> atomicity s <> NonAtomic -> runs body' s rb ->
  exists rq rx, rb = seq_post s rq /\ runs x t rx /\ rrel rq rx.
Proof.
  intros R HA HB. destruct (runs_seq_inv _ _ _ (r_lim _ _ R) HB) as (rq & Hq & ->).
  pose proof (Hk (checkpoint s) HA) as K1.
  assert (HX : runs x (checkpoint s) rq).
  { destruct (runs_then_inv _ _ _ _ Hq) as [(s2 & Hk2 & Hx2)|[Hk2 Hn]]; pose proof (runs_det cfg E _ _ _ _ K1 Hk2) as Eq.
    - injection Eq as <-. exact Hx2.
    - exfalso. eapply Hn; eauto. }
  destruct (eqv_refl true x _ _ _ (srel_checkpoint_l _ _ R) (fun _ => HA) HX) as (rx & HX' & RX). eauto.
Qed.

Lemma loop_stops : forall f s t, srel s t -> atomicity s <> NonAtomic ->
  exec cfg E f (PRepeatLoop body') s <> ROutOfFuel -> stops (PRepeatLoop x) t.
Proof.
  induction f as [|f IH]; intros s t R HA Hne; [exfalso; apply Hne; reflexivity|].
  cbn [exec] in Hne.
  assert (HB : runs body' s (exec cfg E f body' s)).
  { split; [|eauto]. intros X. rewrite X in Hne. apply Hne. reflexivity. }
  destruct (body_inv _ _ _ R HA HB) as (rq & rx & Eb & HX' & RX). rewrite Eb in Hne.
  destruct rq as [s1|s'|kk|], rx as [t1|t'|kk'|]; cbn in RX; try contradiction; cbn [seq_post] in Hne.
  - destruct (srel_clear_l _ _ RX) as (sc & Ec & Rc). rewrite Ec in Hne.
    assert (A1 : atomicity sc <> NonAtomic).
    { rewrite <- (srel_at _ _ Rc), (runs_atom _ _ _ _ (srel_sym _ _ R) HX'), (srel_at _ _ R). exact HA. }
    destruct (IH _ _ Rc A1 Hne) as [r' Hr']. exists r'. eapply runs_loop_ok; eauto.
  - exists (ROk t'). apply (runs_loop_stop cfg E _ _ (RErr _)); [assumption|discriminate].
  - exists (RPanic kk'). apply (runs_loop_stop cfg E _ _ (RPanic _)); [assumption|discriminate].
Qed.

Lemma rep_atomic_rev : eqv true (PSequence (POptional (PAndThen x (PRepeat body')))) (PRepeat x).
Proof.
  apply eqv_conv; [exact rep_atomic|]. intros s t R HA0 [r H].
  assert (HA : atomicity s <> NonAtomic) by (apply HA0; reflexivity).
  pose proof (r_lim _ _ R) as L. pose proof (srel_checkpoint_l _ _ R) as Rc.
  destruct (runs_seq_inv _ _ _ L H) as (ro & Ho & _).
  destruct (runs_opt_inv _ (checkpoint s) _ L Ho) as (rq & Hq & _).
  assert (X : stops (PRepeatLoop x) t);
    [|destruct X as [r' Hr']; exists r'; apply (runs_rep _ _ _ (srel_limt _ _ R)); exact Hr'].
  destruct (runs_then_inv _ _ _ _ Hq) as [(s1 & HX & HL)|[HX Hn]];
    destruct (eqv_refl true x _ _ _ Rc (fun _ => HA) HX) as (rx' & HX' & RX).
  - destruct rx' as [t1| | |]; cbn in RX; try contradiction.
    destruct (runs_rep_inv _ _ _ (r_lim _ _ RX) HL) as [N [f Ef]].
    assert (A1 : atomicity s1 <> NonAtomic) by (rewrite (runs_atom _ _ _ _ Rc HX); exact HA).
    destruct (loop_stops f _ _ RX A1 ltac:(congruence)) as [r' Hr']. exists r'. eapply runs_loop_ok; eauto.
  - destruct rq as [sz|s'|kk|], rx' as [|t'|kk'|]; cbn in RX; try contradiction.
    + exfalso. eapply Hn; eauto.
    + exists (ROk t'). apply (runs_loop_stop cfg E _ _ (RErr _)); [assumption|discriminate].
    + exists (RPanic kk'). apply (runs_loop_stop cfg E _ _ (RPanic _)); [assumption|discriminate].
Qed.

End RepAtomic.

Definition eqv2 (A : bool) (p q : prog) : Prop := eqv A p q /\ eqv A q p.
Lemma eqv2_refl A p : eqv2 A p p.
Proof. split; apply eqv_refl. Qed.
Lemma eqv2_trans A p q r : eqv2 A p q -> eqv2 A q r -> eqv2 A p r.
Proof. intros [H1 H2] [H3 H4]. split; eapply eqv_trans; eauto. Qed.
Lemma eqv2_seq A p q : eqv2 A p q -> eqv2 A (PSequence p) (PSequence q).
Proof. intros [H1 H2]. split; apply eqv_seq; assumption. Qed.
Lemma eqv2_of_peq A p q : peq p q -> peq q p -> eqv2 A p q.
Proof. intros H1 H2. split; apply eqv_of_peq; assumption. Qed.

Section Flat.
Variable c : oexpr -> prog.
Variable pre : prog -> prog.                      (* acc |-> acc.and_then(skip), or acc itself *)
Definition lkp (acc x : prog) : prog := PAndThen (pre acc) x.
Hypothesis pre_assoc : forall X a b, peq (lkp (lkp X a) b) (lkp X (lkp a b)) /\ peq (lkp X (lkp a b)) (lkp (lkp X a) b).

(* the right spine of a sequence / choice as the VM nests it *)
Fixpoint nest (e : oexpr) : prog := match e with OSeq l r => PSequence (lkp (c l) (nest r)) | _ => c e end.
Fixpoint nestc (e : oexpr) : prog := match e with OChoice l r => POrElse (c l) (nestc r) | _ => c e end.

Lemma chain_nest A : forall e acc, eqv2 A (PSequence (seq_chain c lkp acc e)) (PSequence (lkp acc (nest e))).
Proof.
  induction e; intros acc; try apply eqv2_refl. cbn [seq_chain nest].
  eapply eqv2_trans; [apply IHe2|].
  eapply eqv2_trans; [apply eqv2_seq, eqv2_of_peq; apply pre_assoc|].
  split; [apply seq_absorb|apply seq_unabsorb].
Qed.
Lemma cchain_nestc A : forall e acc, eqv2 A (cho_chain c POrElse acc e) (POrElse acc (nestc e)).
Proof.
  induction e; intros acc; try apply eqv2_refl. cbn [cho_chain nestc].
  eapply eqv2_trans; [apply IHe2|]. apply eqv2_of_peq; [apply else_assoc|apply else_assoc_rev].
Qed.

(* a compiler that nests *)
Lemma nest_id : (forall l r, c (OSeq l r) = PSequence (lkp (c l) (c r))) -> forall e, nest e = c e.
Proof. intros Hc. induction e; try reflexivity. cbn [nest]. rewrite IHe2, Hc. reflexivity. Qed.
Lemma nestc_id : (forall l r, c (OChoice l r) = POrElse (c l) (c r)) -> forall e, nestc e = c e.
Proof. intros Hc. induction e; try reflexivity. cbn [nestc]. rewrite IHe2, Hc. reflexivity. Qed.
Lemma seq_flat A : (forall l r, c (OSeq l r) = PSequence (lkp (c l) (c r))) ->
  forall e acc, eqv A (PSequence (seq_chain c lkp acc e)) (PSequence (lkp acc (c e))).
Proof. intros Hc e acc. rewrite <- (nest_id Hc e). apply chain_nest. Qed.
Lemma cho_flat A : (forall l r, c (OChoice l r) = POrElse (c l) (c r)) ->
  forall e acc, eqv A (cho_chain c POrElse acc e) (POrElse acc (c e)).
Proof. intros Hc e acc. rewrite <- (nestc_id Hc e). apply cchain_nestc. Qed.
(* a compiler that flattens *)
Lemma nest_flat A : (forall l r, c (OSeq l r) = PSequence (seq_chain c lkp (c l) r)) -> forall e, eqv A (nest e) (c e).
Proof. intros Hc. destruct e; try apply eqv_refl. rewrite Hc. apply chain_nest. Qed.
Lemma nestc_flat A : (forall l r, c (OChoice l r) = cho_chain c POrElse (c l) r) -> forall e, eqv A (nestc e) (c e).
Proof. intros Hc. destruct e; try apply eqv_refl. rewrite Hc. apply cchain_nestc. Qed.
End Flat.

Lemma assoc_plain X a b :
  peq (lkp (fun y => y) (lkp (fun y => y) X a) b) (lkp (fun y => y) X (lkp (fun y => y) a b)) /\
  peq (lkp (fun y => y) X (lkp (fun y => y) a b)) (lkp (fun y => y) (lkp (fun y => y) X a) b).
Proof. split; [apply then_assoc|apply then_assoc_rev]. Qed.
Lemma assoc_skip k X a b : let pre := fun y => PAndThen y k in
  peq (lkp pre (lkp pre X a) b) (lkp pre X (lkp pre a b)) /\ peq (lkp pre X (lkp pre a b)) (lkp pre (lkp pre X a) b).
Proof. split; [apply assoc4|apply assoc4_rev]. Qed.

End Laws.
