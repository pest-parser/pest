(* Small facts about rule lookup (orule_id / has_orule), names, the closure tables, the table of
   built-ins, and a form of in_H fit for evaluation. *)
From Coq Require Import List Arith NArith ZArith Bool String Ascii Lia.
Import ListNotations.
Require Import PV.Comb.PState PV.Comb.Prog PV.Peg.Ast PV.Peg.AstFacts PV.Peg.VmCompile PV.Gen.GenCompile PV.Gen.ClassH.

Lemma index_of_spec names n k i : index_of names n k = Some i ->
  k <= i /\ exists x, nth_error names (i - k) = Some x /\ str_eqb x n = true.
Proof.
  revert k; induction names as [|x r IH]; intros k; cbn; [discriminate|].
  destruct (str_eqb x n) eqn:E.
  - intros [= <-]. split; [lia|]. exists x. rewrite Nat.sub_diag. auto.
  - intros H. apply IH in H. destruct H as (H1 & y & H2 & H3). split; [lia|]. exists y. split; auto.
    replace (i - k) with (S (i - S k)) by lia. exact H2.
Qed.
Lemma index_of_none names n k : index_of names n k = None -> forall x, In x names -> str_eqb x n = false.
Proof.
  revert k; induction names as [|y r IH]; intros k; cbn; [tauto|].
  destruct (str_eqb y n) eqn:E; [discriminate|]. intros H x [<-|Hx]; eauto.
Qed.

Lemma find_orule_some G n : (exists r, In r G /\ str_eqb (oname r) n = true) -> has_orule G n = true.
Proof.
  unfold has_orule. induction G as [|r g IH]; intros (x & Hin & Hx); [destruct Hin|]. cbn.
  destruct (find_orule g n) eqn:Ef; [reflexivity|].
  destruct Hin as [->|Hin]; [rewrite Hx; reflexivity|].
  exfalso. assert (X : false = true) by (apply IH; eauto). discriminate.
Qed.
Lemma find_orule_none G n : has_orule G n = false -> forall r, In r G -> str_eqb (oname r) n = false.
Proof.
  intros H r Hin. destruct (str_eqb (oname r) n) eqn:E; auto.
  rewrite find_orule_some in H; [discriminate|eauto].
Qed.

(* a name that has a rule: the closure called is the first rule of that name *)
Lemma has_orule_first G n : has_orule G n = true ->
  exists r, nth_error G (orule_id G n) = Some r /\ oname r = n /\ orule_id G n < List.length G.
Proof.
  intros H. unfold orule_id, onames. destruct (index_of (map oname G) n 0) as [i|] eqn:Ei.
  - destruct (index_of_spec _ _ _ _ Ei) as (_ & x & Hx & Ex). rewrite Nat.sub_0_r in Hx.
    rewrite nth_error_map in Hx. destruct (nth_error G i) as [r|] eqn:Er; [|discriminate]. cbn in Hx. injection Hx as <-.
    exists r. split; auto. split; [now apply str_eqb_eq|]. apply nth_error_Some. congruence.
  - exfalso. pose proof (index_of_none _ _ _ Ei) as X.
    unfold has_orule in H. destruct (find_orule G n) as [r|] eqn:Ef; [|discriminate].
    assert (Y : exists r, In r G /\ str_eqb (oname r) n = true).
    { clear - Ef. induction G as [|y g IH]; cbn in Ef; [discriminate|].
      destruct (find_orule g n) eqn:E2.
      - destruct IH as (z & Hz & Ez); eauto. exists z. split; [right; auto|auto].
      - destruct (str_eqb (oname y) n) eqn:E3; [|discriminate]. exists y. split; [left; auto|auto]. }
    destruct Y as (z & Hz & Ez). rewrite (X (oname z)) in Ez; [discriminate|]. now apply in_map.
Qed.
Lemma no_orule_id G n : has_orule G n = false -> orule_id G n = List.length G.
Proof.
  intros H. unfold orule_id, onames. destruct (index_of (map oname G) n 0) as [i|] eqn:Ei; auto.
  exfalso. destruct (index_of_spec _ _ _ _ Ei) as (_ & x & Hx & Ex). rewrite Nat.sub_0_r in Hx.
  rewrite nth_error_map in Hx. destruct (nth_error G i) as [r|] eqn:Er; [|discriminate]. cbn in Hx. injection Hx as <-.
  rewrite (find_orule_none G n H r) in Ex; [discriminate|]. eapply nth_error_In; eauto.
Qed.

(* the names vm/src/lib.rs hard-codes are the table of generate_builtin_rules, in its order *)
Fixpoint name_chain (l : list (name * prog)) (n : name) (d : prog) : prog :=
  match l with [] => d | (x, p) :: r => if str_eqb n x then p else name_chain r n d end.

Lemma name_chain_bindex l n d : forall k,
  match bindex l n k with
  | Some i => k <= i /\ exists y, nth_error l (i - k) = Some y /\ fst y = n /\ name_chain l n d = snd y
  | None => name_chain l n d = d
  end.
Proof.
  induction l as [|[x p] r IH]; intros k; cbn; [reflexivity|].
  rewrite (str_eqb_sym n x). destruct (str_eqb x n) eqn:Ex.
  - split; [lia|]. exists (x, p). rewrite Nat.sub_diag. apply str_eqb_eq in Ex. auto.
  - specialize (IH (S k)). destruct (bindex r n (S k)) as [i|]; [|exact IH].
    destruct IH as (H1 & y & H2 & H3). split; [lia|]. exists y. split; [|exact H3].
    replace (i - k) with (S (i - S k)) by lia. exact H2.
Qed.

Lemma vm_call_builtin G ur x : has_orule G x = false ->
  match bindex (fixed_builtins (eoi_id G)) x 0 with
  | Some i => exists y, nth_error (fixed_builtins (eoi_id G)) i = Some y /\ fst y = x /\ vm_call G ur x = snd y
  | None => vm_call G ur x = match ur x with Some rs => PPrim (MMatchCharBy rs) | None => PCall (S (List.length G)) end
  end.
Proof.
  intros Ho.
  assert (E : vm_call G ur x = name_chain (fixed_builtins (eoi_id G)) x
                (match ur x with Some rs => PPrim (MMatchCharBy rs) | None => PCall (S (List.length G)) end)).
  { unfold vm_call. rewrite Ho. reflexivity. }
  rewrite E. pose proof (name_chain_bindex (fixed_builtins (eoi_id G)) x
    (match ur x with Some rs => PPrim (MMatchCharBy rs) | None => PCall (S (List.length G)) end) 0) as X.
  destruct (bindex _ x 0) as [i|]; [|exact X]. destruct X as (_ & y & Hy & Ey). rewrite Nat.sub_0_r in Hy. eauto.
Qed.

Lemma ulookup_uindex U n : forall k,
  match ulookup U n, uindex U n k with
  | Some rs, Some j => k <= j /\ exists x, nth_error U (j - k) = Some (x, rs)
  | None, None => True
  | _, _ => False
  end.
Proof.
  induction U as [|[x rs] r IH]; intros k; cbn; auto.
  destruct (str_eqb x n).
  - split; [lia|]. exists x. rewrite Nat.sub_diag. reflexivity.
  - specialize (IH (S k)). destruct (ulookup r n), (uindex r n (S k)) as [j|]; auto.
    destruct IH as (H1 & y & H2). split; [lia|]. exists y. replace (j - k) with (S (j - S k)) by lia. exact H2.
Qed.

Lemma vm_env_at G ur k r : nth_error G k = Some r -> vm_env G ur k = Some (vm_rule_body G ur r).
Proof. intros H. unfold vm_env. rewrite H. reflexivity. Qed.
Lemma gen_env_at G U k r : nth_error G k = Some r -> gen_env G U k = Some (gen_rule G U r).
Proof.
  intros H. unfold gen_env. assert (k < base G) by (apply nth_error_Some; congruence).
  destruct (Nat.ltb_spec k (base G)); [|lia]. rewrite H. reflexivity.
Qed.

(* in_H for evaluation:
   cleanset runs |G| rounds of clean_step and in_H mentions it once per rule; a consistent set is a
   fixed point of clean_step, so the rounds may stop at the first consistent set, and the set can be
   computed once. *)
Lemma filter_all {A} (p : A -> bool) l : forallb p l = true -> filter p l = l.
Proof.
  induction l as [|a l IH]; cbn; [reflexivity|]. destruct (p a); [|discriminate]. intros H. f_equal. exact (IH H).
Qed.

Fixpoint settle (G : ogrammar) (k : nat) (C : list name) : list name :=
  match k with
  | O => C
  | S k' => if consistent G C then C else settle G k' (clean_step G C)
  end.

Lemma settle_iter G k : forall C, settle G k C = iter k (clean_step G) C.
Proof.
  induction k as [|k IH]; intros C; cbn [settle iter]; [reflexivity|].
  destruct (consistent G C) eqn:Hc; [|apply IH].
  apply filter_all in Hc. fold (clean_step G C) in Hc. rewrite Hc.
  clear IH. induction k as [|k IH]; cbn [iter]; [reflexivity|]. rewrite Hc. exact IH.
Qed.

Definition in_H_eval (G : ogrammar) (extras : bool) : bool :=
  let C := settle G (List.length G) (map oname G) in
  consistent G C &&
  forallb (fun r =>
    negb (is_special_name (oname r) && match oty r with RNonAtomic => true | _ => false end) &&
    subexprs_ok (if extras then tag_ok else plain_ok) (oexpr_of r) &&
    (if atomic_compiled r then subexprs_ok (rep_ok G C) (oexpr_of r) else true)) G.

Lemma in_H_eval_eq G extras : in_H_eval G extras = in_H G extras.
Proof. unfold in_H_eval, in_H, rule_in_H, cleanset. rewrite settle_iter. reflexivity. Qed.
