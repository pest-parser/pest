(* C02 proofs, part 5: for every optimized grammar in class H the generated parser (gen_env) and the
   VM (vm_env) simulate each other: from related states, every rule, every expression in either
   compilation mode, every start symbol.  One induction gives both directions: from the generated
   parser to the VM outright, and from the VM to the generated parser under the assumption that
   the atomic expressions of the generated parser fail cleanly - which then follows from the first
   direction and the same fact about the VM (Clean.v).                                        *)
From Coq Require Import List Arith NArith ZArith Bool String Ascii Lia.
Import ListNotations.
Require Import PV.Stack.Model PV.Stack.Proofs PV.Comb.PState PV.Comb.Bytes PV.Comb.Prog PV.Comb.Exec
               PV.Comb.Frame PV.Comb.Contracts PV.Comb.CallLimit PV.Peg.Ast PV.Peg.VmCompile
               PV.Gen.GenCompile PV.Gen.ClassH PV.Gen.Lookup PV.Gen.Rel PV.Gen.Cong PV.Gen.Laws PV.Gen.Clean.

Arguments Nat.sub : simpl never.
Arguments Nat.ltb : simpl never.
Arguments Nat.leb : simpl never.
Arguments Nat.eqb : simpl never.

Section Equiv.
Variable cfg : config.
Variable G : ogrammar.
Variable U : utable.
Variable extras : bool.
Hypothesis HH : in_H G extras = true.

Let ur := ulookup U.
Let Eg := gen_env G U.
Let Ev := vm_env G ur.
Let C := cleanset G.
Notation fgv := (fwd cfg Eg Ev).
Notation fvg := (fwd cfg Ev Eg).
Notation gx := (gen_expr G U).
Notation ga := (gen_expr_atomic G U).
Notation vx := (vm_expr G ur).
Notation vsk := (vm_skip G ur).
Notation csk := (call_skip G).

Lemma HC : consistent G C = true.
Proof. unfold in_H in HH. apply andb_prop in HH. tauto. Qed.
Lemma HR r : In r G -> rule_in_H G extras r = true.
Proof. unfold in_H in HH. apply andb_prop in HH. destruct HH as [_ H]. rewrite forallb_forall in H. apply H. Qed.

Lemma Eg_skip : Eg (skip_closure G) = Some (gen_skip G).
Proof.
  unfold Eg, gen_env, skip_closure, base. destruct (Nat.ltb_spec (List.length G + 2) (List.length G)); [lia|].
  rewrite Nat.eqb_refl. reflexivity.
Qed.
Lemma Eg_undef : Eg (undefined_closure G) = None.
Proof.
  unfold Eg, gen_env, undefined_closure, skip_closure, fixed_closure, base.
  destruct (Nat.ltb_spec (S (List.length G)) (List.length G)); [lia|].
  destruct (Nat.eqb_spec (S (List.length G)) (List.length G + 2)); [lia|].
  destruct (Nat.ltb_spec (S (List.length G)) (List.length G + 3 + 0)); [reflexivity|lia].
Qed.
Lemma Eg_fixed i x : nth_error (fixed_builtins (eoi_id G)) i = Some x -> Eg (fixed_closure G i) = Some (snd x).
Proof.
  intros H. assert (Hi : i < n_fixed).
  { change n_fixed with (List.length (fixed_builtins (eoi_id G))). apply nth_error_Some. congruence. }
  unfold Eg, gen_env, skip_closure, fixed_closure, unicode_closure, base.
  destruct (Nat.ltb_spec (List.length G + 3 + i) (List.length G)); [lia|].
  destruct (Nat.eqb_spec (List.length G + 3 + i) (List.length G + 2)); [lia|].
  destruct (Nat.ltb_spec (List.length G + 3 + i) (List.length G + 3 + 0)); [lia|].
  destruct (Nat.ltb_spec (List.length G + 3 + i) (List.length G + 3 + n_fixed + 0)); [|lia].
  replace (List.length G + 3 + i - (List.length G + 3 + 0)) with i by lia. rewrite H. reflexivity.
Qed.
Lemma Eg_unicode j x : nth_error U j = Some x -> Eg (unicode_closure G j) = Some (PPrim (MMatchCharBy (snd x))).
Proof.
  intros H. unfold Eg, gen_env, skip_closure, fixed_closure, unicode_closure, base.
  destruct (Nat.ltb_spec (List.length G + 3 + n_fixed + j) (List.length G)); [lia|].
  destruct (Nat.eqb_spec (List.length G + 3 + n_fixed + j) (List.length G + 2)); [lia|].
  destruct (Nat.ltb_spec (List.length G + 3 + n_fixed + j) (List.length G + 3 + 0)); [lia|].
  destruct (Nat.ltb_spec (List.length G + 3 + n_fixed + j) (List.length G + 3 + n_fixed + 0)); [lia|].
  replace (List.length G + 3 + n_fixed + j - (List.length G + 3 + n_fixed + 0)) with j by lia. rewrite H. reflexivity.
Qed.
Lemma Ev_undef : Ev (S (List.length G)) = None.
Proof.
  unfold Ev, vm_env. replace (nth_error G (S (List.length G))) with (@None orule); [reflexivity|].
  symmetry. apply nth_error_None. lia.
Qed.

Definition gm (A : bool) : oexpr -> prog := if A then ga else gx.
Definition okm (A : bool) (e : oexpr) : Prop :=
  subexprs_ok tag_ok e = true /\ (A = true -> subexprs_ok (rep_ok G C) e = true).

Definition gen_fails_clean : Prop := forall x, okm true x -> fail_clean G C x = true -> fails_clean cfg Eg (ga x).
Notation simgv := (sim gen_fails_clean cfg Eg Ev).

(* the built-ins call nothing: each is related to itself across the two environments *)
Lemma builtins_sim A n e : Forall (fun y => simgv A n (snd y) (snd y)) (fixed_builtins e).
Proof.
  unfold fixed_builtins, rng.
  repeat (constructor; [cbn [snd]; repeat first [apply sim_prim | apply cong_else | bracket]|]). constructor.
Qed.

Definition Calls (n : nat) : Prop :=
  forall k r, nth_error G k = Some r -> simgv false n (gen_rule G U r) (vm_rule_body G ur r).

(* `self::name(state)` against parse_rule(name) *)
Lemma vm_call_special x : has_orule G x = true -> vm_call G ur x = PCall (orule_id G x).
Proof. intros Ho. unfold vm_call. rewrite Ho. reflexivity. Qed.

Lemma sim_rule_call A n x : Calls n -> has_orule G x = true -> simgv A (S n) (PCall (orule_id G x)) (PCall (orule_id G x)).
Proof.
  intros HCalls Ho. destruct (has_orule_first G x Ho) as (r & Er & _).
  eapply cong_call; [apply gen_env_at; exact Er|apply vm_env_at; exact Er|].
  destruct A; [apply sim_weaken|]; apply (HCalls _ _ Er).
Qed.

Lemma sim_call A n x : Calls n -> simgv A (S n) (gen_call G U x) (vm_call G ur x).
Proof.
  intros HCalls. unfold gen_call.
  destruct (has_orule G x) eqn:Ho.
  - (* a user rule: both back-ends look the user's rules up first (shadowing of built-ins included) *)
    rewrite (vm_call_special x Ho). now apply sim_rule_call.
  - pose proof (vm_call_builtin G ur x Ho) as B.
    destruct (bindex (fixed_builtins (eoi_id G)) x 0) as [i|]; [destruct B as (y & Hy & _ & ->)|rewrite B].
    { eapply cong_call_left; [apply Eg_fixed; exact Hy|].
      apply (proj1 (Forall_forall _ _) (builtins_sim A (S n) _) y (nth_error_In _ _ Hy)). }
    pose proof (ulookup_uindex U x 0) as X. fold ur in X.
    destruct (ur x) as [rs|], (uindex U x 0) as [j|]; try contradiction.
    + destruct X as (_ & y & Hy). rewrite Nat.sub_0_r in Hy.
      eapply cong_call_left; [apply Eg_unicode; exact Hy|apply sim_prim].
    + apply cong_call_none; [apply Eg_undef|apply Ev_undef].
Qed.

Lemma sim_skip A n : Calls n -> simgv A (S n) csk vsk.
Proof.
  intros HCalls. eapply cong_call_left; [apply Eg_skip|].
  unfold gen_skip, vm_skip.
  destruct (has_orule G (nm "WHITESPACE")) eqn:Hw, (has_orule G (nm "COMMENT")) eqn:Hc;
    rewrite ?(vm_call_special (nm "WHITESPACE") Hw), ?(vm_call_special (nm "COMMENT") Hc).
  - apply cong_ifna; [|apply sim_prim]. bracket. apply cong_then; [apply cong_rep, sim_rule_call; auto|].
    apply cong_rep. bracket. apply cong_then; [apply sim_rule_call; auto|apply cong_rep, sim_rule_call; auto].
  - apply cong_ifna; [|apply sim_prim]. apply cong_rep, sim_rule_call; auto.
  - apply cong_ifna; [|apply sim_prim]. apply cong_rep, sim_rule_call; auto.
  - apply sim_prim.
Qed.

(* in atomic mode both skips are the identity *)
Lemma vsk_id : skip_id cfg Ev vsk.
Proof.
  intros s HA. split; [discriminate|]. exists 2. unfold vm_skip.
  assert (X : atom_eqb (atomicity s) NonAtomic = false) by (destruct (atomicity s); auto; congruence).
  destruct (has_orule G (nm "WHITESPACE")), (has_orule G (nm "COMMENT")); cbn [exec exec_prim]; rewrite ?X; reflexivity.
Qed.
Lemma csk_id : skip_id cfg Eg csk.
Proof.
  intros s HA. split; [discriminate|]. exists 3. unfold call_skip. cbn [exec]. rewrite Eg_skip.
  assert (X : atom_eqb (atomicity s) NonAtomic = false) by (destruct (atomicity s); auto; congruence).
  unfold gen_skip. destruct (has_orule G (nm "WHITESPACE")), (has_orule G (nm "COMMENT")); cbn [exec exec_prim]; rewrite ?X; reflexivity.
Qed.

(* so the VM's skip between two elements may be added where the VM is the target ... *)
Lemma skip_right n p q : fgv true n p q -> fgv true n p (PAndThen q vsk).
Proof.
  intros H f s t Hf R HA Hne. destruct (H f s t Hf R HA Hne) as [f1 Hr].
  destruct (r_it _ _ R) as [b Ib].
  assert (At : atomicity t <> NonAtomic) by (rewrite (srel_at _ _ R); apply HA; reflexivity).
  assert (Hq : runs cfg Ev q t (exec cfg Ev f1 q t)) by (split; [eapply rrel_nofuel; eauto|eauto]).
  destruct (then_skip_r cfg Ev vsk q t _ b vsk_id (srel_wft _ _ R) Ib At Hq) as [_ [f2 E2]].
  exists f2. rewrite E2. exact Hr.
Qed.
Lemma skip_left n p q : fgv true n p q -> fgv true n p (PAndThen vsk q).
Proof.
  intros H f s t Hf R HA Hne. destruct (H f s t Hf R HA Hne) as [f1 Hr].
  assert (At : atomicity t <> NonAtomic) by (rewrite (srel_at _ _ R); apply HA; reflexivity).
  assert (Hq : runs cfg Ev q t (exec cfg Ev f1 q t)) by (split; [eapply rrel_nofuel; eauto|eauto]).
  destruct (then_skip_l cfg Ev vsk q t _ vsk_id At Hq) as [_ [f2 E2]].
  exists f2. rewrite E2. exact Hr.
Qed.
(* ... and dropped where it is the source *)
Lemma skip_src_r n p q : fvg true n p q -> fvg true n (PAndThen p vsk) q.
Proof.
  intros H f s t Hf R HA Hne. destruct f as [|f]; [exfalso; apply Hne; reflexivity|].
  assert (E : exec cfg Ev (S f) (PAndThen p vsk) s = exec cfg Ev f p s).
  { cbn [exec] in Hne |- *. destruct (exec cfg Ev f p s) as [s1|s1|k|] eqn:Ep; auto.
    destruct (r_is _ _ R) as [a Ia]. pose proof (exec_post cfg Ev f p s a (r_wf _ _ R) Ia) as P. rewrite Ep in P. cbn in P. destruct P as (F & _).
    assert (A1 : atomicity s1 <> NonAtomic) by (rewrite (f_at _ _ F); apply HA; reflexivity).
    destruct (vsk_id s1 A1) as [_ [f0 E0]].
    rewrite <- E0. apply exec_fuel_irrelevant; [exact Hne|rewrite E0; discriminate]. }
  rewrite E in *. apply (H f s t); auto. lia.
Qed.
Lemma skip_src_l n p q : fvg true n p q -> fvg true n (PAndThen vsk p) q.
Proof.
  intros H f s t Hf R HA Hne. destruct f as [|f]; [exfalso; apply Hne; reflexivity|].
  assert (A0 : atomicity s <> NonAtomic) by (apply HA; reflexivity).
  assert (E : exec cfg Ev (S f) (PAndThen vsk p) s = exec cfg Ev f p s).
  { cbn [exec] in Hne |- *. destruct (vsk_id s A0) as [_ [f0 E0]].
    assert (X : exec cfg Ev f vsk s = ROk s).
    { rewrite <- E0. apply exec_fuel_irrelevant; [|rewrite E0; discriminate]. intros Y. rewrite Y in Hne. apply Hne. reflexivity. }
    rewrite X. reflexivity. }
  rewrite E in *. apply (H f s t); auto. lia.
Qed.

Definition prem (A : bool) : prog -> prog := if A then (fun a => a) else (fun a => PAndThen a csk).
Notation prev := (fun a => PAndThen a vsk).

Lemma prem_assoc A X a b :
  peq cfg Eg (lkp (prem A) (lkp (prem A) X a) b) (lkp (prem A) X (lkp (prem A) a b)) /\
  peq cfg Eg (lkp (prem A) X (lkp (prem A) a b)) (lkp (prem A) (lkp (prem A) X a) b).
Proof. destruct A; [apply assoc_plain|apply assoc_skip]. Qed.
Lemma gm_seq A l r : gm A (OSeq l r) = PSequence (seq_chain (gm A) (lkp (prem A)) (gm A l) r).
Proof. destruct A; reflexivity. Qed.
Lemma gm_cho A l r : gm A (OChoice l r) = cho_chain (gm A) POrElse (gm A l) r.
Proof. destruct A; reflexivity. Qed.

(* beside the two programs of e itself, e as the tail of a longer sequence or choice.  Towards the VM: the
   generated parser's chain against the same chain of the VM's pieces, which the laws turn into the VM's
   nest in the VM's environment.  From the VM: its nest against the same nest of the generated parser's
   pieces, which the laws turn into the chain in the generated parser's environment.  (A law can only be
   applied on the target's side: the index of `fwd` bounds the fuel of the source alone.) *)
Definition T (A : bool) (N : nat) (e : oexpr) : Prop :=
  simgv A N (gm A e) (vx e) /\
  (forall ag av, fgv A N ag av -> fgv A N (seq_chain (gm A) (lkp (prem A)) ag e) (seq_chain vx (lkp prev) av e)) /\
  (forall ag av, fgv A N ag av -> fgv A N (cho_chain (gm A) POrElse ag e) (cho_chain vx POrElse av e)) /\
  (gen_fails_clean -> fvg A N (vx e) (nest (gm A) (prem A) e) /\ fvg A N (vx e) (nestc (gm A) e)).

Lemma okm1 A (p : oexpr -> oexpr) x :
  (forall q, subexprs_ok q (p x) = q (p x) && subexprs_ok q x) -> okm A (p x) -> okm A x.
Proof.
  intros Hp [H1 H2]. rewrite Hp in H1. apply andb_prop in H1. split; [tauto|].
  intros M. specialize (H2 M). rewrite Hp in H2. apply andb_prop in H2. tauto.
Qed.
Lemma okm2 A (p : oexpr -> oexpr -> oexpr) x y :
  (forall q, subexprs_ok q (p x y) = q (p x y) && (subexprs_ok q x && subexprs_ok q y)) -> okm A (p x y) -> okm A x /\ okm A y.
Proof.
  intros Hp [H1 H2]. rewrite Hp in H1. apply andb_prop in H1. destruct H1 as [_ H1]. apply andb_prop in H1.
  split; (split; [tauto|]); intros M; specialize (H2 M); rewrite Hp in H2; apply andb_prop in H2; destruct H2 as [_ H2];
    apply andb_prop in H2; tauto.
Qed.

Section Level.
Variable n : nat.
Hypothesis HCalls : Calls n.
Notation N := (S n).

Lemma link_sim A ag av x y : fgv A N ag av -> fgv A N x y -> fgv A N (lkp (prem A) ag x) (lkp prev av y).
Proof.
  intros H1 H2. unfold lkp. destruct A.
  - apply fwd_then; [apply skip_right; exact H1|exact H2].
  - apply fwd_then; [apply fwd_then; [exact H1|apply sim_skip; exact HCalls]|exact H2].
Qed.
Lemma pre_sim A l : gen_fails_clean -> fvg A N (vx l) (gm A l) -> fvg A N (PAndThen (vx l) vsk) (prem A (gm A l)).
Proof.
  intros Hg P. destruct A; unfold prem.
  - apply skip_src_r. exact P.
  - apply fwd_then; [exact P|apply (sim_skip false n HCalls); exact Hg].
Qed.

Definition not_seq (e : oexpr) : Prop := match e with OSeq _ _ => False | _ => True end.
Definition not_cho (e : oexpr) : Prop := match e with OChoice _ _ => False | _ => True end.

Lemma seq_leaf A e : not_seq e -> fgv A N (gm A e) (vx e) ->
  forall ag av, fgv A N ag av -> fgv A N (seq_chain (gm A) (lkp (prem A)) ag e) (seq_chain vx (lkp prev) av e).
Proof. intros Hn P ag av H. destruct e; try contradiction; cbn [seq_chain]; apply link_sim; auto. Qed.
Lemma cho_leaf A e : not_cho e -> fgv A N (gm A e) (vx e) ->
  forall ag av, fgv A N ag av -> fgv A N (cho_chain (gm A) POrElse ag e) (cho_chain vx POrElse av e).
Proof. intros Hn P ag av H. destruct e; try contradiction; cbn [cho_chain]; apply fwd_else; auto. Qed.
Lemma nest_leaf A e : not_seq e -> nest (gm A) (prem A) e = gm A e.
Proof. destruct e; cbn; auto; contradiction. Qed.
Lemma nestc_leaf A e : not_cho e -> nestc (gm A) e = gm A e.
Proof. destruct e; cbn; auto; contradiction. Qed.
Lemma T_leaf A e : not_seq e -> not_cho e -> simgv A N (gm A e) (vx e) -> T A N e.
Proof.
  intros H1 H2 P. split; [exact P|]. split; [apply seq_leaf; [exact H1|apply P]|]. split; [apply cho_leaf; [exact H2|apply P]|].
  intros Hg. rewrite nest_leaf, nestc_leaf by assumption. split; apply P, Hg.
Qed.

Lemma clean_of x : fail_clean G C x = true -> fails_clean cfg Ev (vx x).
Proof.
  intros Hc s s' a W I L _ [_ [f Ef]].
  destruct (vm_clean cfg G ur C HC f true x (fun _ => Hc) f s s' a (le_n _) W I L Ef) as (A1 & A2 & A3).
  split; [exact A1|]. split; [|apply A3; reflexivity].
  rewrite <- (untagq_length (queue s')), <- (untagq_length (queue s)), A2. reflexivity.
Qed.

Lemma gen_tag_general x t : tag_ok (ONodeTag x t) = true ->
  gx (ONodeTag x t) = PAndThen (gx x) (tagp t) /\ ga (ONodeTag x t) = PAndThen (ga x) (tagp t).
Proof. destruct x; cbn; intros H; try discriminate H; split; reflexivity. Qed.

Lemma expr_sim : forall e A, okm A e -> T A N e.
Proof.
  induction e; intros A Hok;
    (* the leaves that both back-ends compile to the same primitive *)
    try (apply T_leaf; cbn; auto; destruct A; apply sim_prim);
    (* the operators that both compile to the same bracket around the operand *)
    try (match goal with |- T _ _ (?c ?x) => destruct (IHe A (okm1 A c x (fun q => eq_refl) Hok)) as (P & _) end;
         apply T_leaf; cbn; auto; destruct A; bracket; exact P).
  - (* OIdent *) apply T_leaf; cbn; auto. destruct A; apply sim_call; exact HCalls.
  - (* OSeq *) destruct (okm2 A OSeq e1 e2 (fun q => eq_refl) Hok) as [O1 O2].
    destruct (IHe1 A O1) as ([P1 P1'] & _). destruct (IHe2 A O2) as (_ & S2 & _ & Q2).
    assert (Q : gen_fails_clean -> fvg A N (vx (OSeq e1 e2)) (nest (gm A) (prem A) (OSeq e1 e2))).
    { intros Hg. cbn [vm_expr nest]. fbracket. apply fwd_then; [apply pre_sim, P1'; exact Hg|apply Q2, Hg]. }
    assert (P : simgv A N (gm A (OSeq e1 e2)) (vx (OSeq e1 e2))).
    { split.
      - eapply fwd_trans with (q := PSequence (seq_chain vx (lkp prev) (vx e1) e2)).
        + rewrite gm_seq. fbracket. apply S2, P1.
        + apply eqv_fwd, (seq_flat cfg Ev vx prev (assoc_skip cfg Ev vsk) A (fun l r => eq_refl)).
      - intros Hg. eapply fwd_trans; [exact (Q Hg)|].
        apply eqv_fwd, (nest_flat cfg Eg (gm A) (prem A) (prem_assoc A) A (gm_seq A)). }
    split; [exact P|]. split; [intros ag av H; cbn [seq_chain]; apply S2, link_sim; auto|].
    split; [apply cho_leaf; [exact I|apply P]|].
    intros Hg. split; [exact (Q Hg)|]. rewrite nestc_leaf by exact I. apply P, Hg.
  - (* OChoice *) destruct (okm2 A OChoice e1 e2 (fun q => eq_refl) Hok) as [O1 O2].
    destruct (IHe1 A O1) as ([P1 P1'] & _). destruct (IHe2 A O2) as (_ & _ & C2 & Q2).
    assert (Q : gen_fails_clean -> fvg A N (vx (OChoice e1 e2)) (nestc (gm A) (OChoice e1 e2))).
    { intros Hg. cbn [vm_expr nestc]. apply fwd_else; [apply P1', Hg|apply Q2, Hg]. }
    assert (P : simgv A N (gm A (OChoice e1 e2)) (vx (OChoice e1 e2))).
    { split.
      - eapply fwd_trans with (q := cho_chain vx POrElse (vx e1) e2).
        + rewrite gm_cho. apply C2, P1.
        + apply eqv_fwd, (cho_flat cfg Ev vx A (fun l r => eq_refl)).
      - intros Hg. eapply fwd_trans; [exact (Q Hg)|]. apply eqv_fwd, (nestc_flat cfg Eg (gm A) A (gm_cho A)). }
    split; [exact P|]. split; [apply seq_leaf; [exact I|apply P]|].
    split; [intros ag av H; cbn [cho_chain]; apply C2, fwd_else; auto|].
    intros Hg. split; [|exact (Q Hg)]. rewrite nest_leaf by exact I. apply P, Hg.
  - (* ORep *) destruct (IHe A (okm1 A ORep e (fun q => eq_refl) Hok)) as (P & _).
    apply T_leaf; cbn; auto. destruct A.
    + (* atomic: repeat(x) against the VM's nest, by the law in the target's environment *)
      assert (Hc : fail_clean G C e = true).
      { destruct Hok as [_ H2]. specialize (H2 eq_refl). cbn in H2. apply andb_prop in H2. tauto. }
      destruct P as [P P']. split.
      * eapply fwd_trans with (q := PRepeat (vx e)); [apply fwd_rep; exact P|].
        apply eqv_fwd, (rep_atomic cfg Ev (vx e) vsk vsk_id), clean_of, Hc.
      * intros Hg. specialize (P' Hg).
        eapply fwd_trans with (q := PSequence (POptional (PAndThen (ga e) (PRepeat (PSequence (PAndThen csk (ga e))))))).
        -- cbn [vm_expr]. do 2 fbracket. apply fwd_then; [exact P'|].
           apply fwd_rep. fbracket. apply fwd_then; [apply (sim_skip true n HCalls), Hg|exact P'].
        -- apply eqv_fwd, (rep_atomic_rev cfg Eg (ga e) csk csk_id), Hg; [|exact Hc].
           exact (okm1 true ORep e (fun q => eq_refl) Hok).
    + cbn [gm gen_expr vm_expr]. do 2 bracket. apply cong_then; [exact P|].
      apply cong_rep. bracket. apply cong_then; [apply sim_skip; exact HCalls|exact P].
  - (* ORepOnce *) destruct (IHe A (okm1 A ORepOnce e (fun q => eq_refl) Hok)) as (P & _).
    apply T_leaf; cbn; auto. destruct A.
    + cbn [gm gen_expr_atomic vm_expr]. bracket. apply cong_then; [exact P|].
      apply cong_rep. bracket. destruct P as [P P']. split; [apply skip_left, P|intros Hg; apply skip_src_l, P', Hg].
    + cbn [gm gen_expr vm_expr]. bracket. apply cong_then; [exact P|].
      apply cong_rep. bracket. apply cong_then; [apply sim_skip; exact HCalls|exact P].
  - (* ONodeTag *) destruct (IHe A (okm1 A (fun x => ONodeTag x t) e (fun q => eq_refl) Hok)) as (P & _).
    assert (Tg : tag_ok (ONodeTag e t) = true).
    { destruct Hok as [H1 _]. cbn [subexprs_ok] in H1. apply andb_prop in H1. tauto. }
    destruct (gen_tag_general e t Tg) as [E1 E2].
    apply T_leaf; cbn [not_seq not_cho]; auto. unfold gm. destruct A; [rewrite E2|rewrite E1]; cbn [vm_expr];
      (apply cong_then; [exact P|apply sim_prim]).
Qed.

End Level.

Lemma subexprs_ok_impl (p q : oexpr -> bool) : (forall e, p e = true -> q e = true) ->
  forall e, subexprs_ok p e = true -> subexprs_ok q e = true.
Proof.
  intros Hpq. induction e; cbn [subexprs_ok]; intros H; apply andb_prop in H; destruct H as [H1 H2];
    apply andb_true_intro; (split; [now apply Hpq|]); auto;
    apply andb_prop in H2; destruct H2; apply andb_true_intro; auto.
Qed.

Lemma rule_sim n : Calls n -> Calls (S n).
Proof.
  intros HCalls k r Er.
  pose proof (HR r (nth_error_In _ _ Er)) as X. unfold rule_in_H in X.
  apply andb_prop in X. destruct X as [X X4]. apply andb_prop in X. destruct X as [X2 X3].
  assert (Tg : subexprs_ok tag_ok (oexpr_of r) = true).
  { eapply subexprs_ok_impl; [|exact X3]. intros e. destruct extras; auto. destruct e; cbn; try discriminate; auto. }
  assert (Pn : simgv false (S n) (gx (oexpr_of r)) (vx (oexpr_of r))).
  { apply (expr_sim n HCalls (oexpr_of r) false). split; [exact Tg|discriminate]. }
  assert (Pa : atomic_compiled r = true -> simgv true (S n) (ga (oexpr_of r)) (vx (oexpr_of r))).
  { intros Ac. rewrite Ac in X4. apply (expr_sim n HCalls (oexpr_of r) true). split; [exact Tg|intros _; exact X4]. }
  unfold atomic_compiled in Pa.
  unfold gen_rule, vm_rule_body.
  destruct (oty r) eqn:Ety, (is_special_name (oname r)) eqn:Esp; cbn [is_atomic_ty orb] in *;
    try discriminate X2;
    repeat first [ exact Pn | apply Pa; reflexivity
                 | apply (cong_atomic _ cfg Eg Ev false true); [discriminate|]
                 | apply (cong_atomic _ cfg Eg Ev false false); [discriminate|]
                 | apply (cong_atomic _ cfg Eg Ev true true); [discriminate|]
                 | bracket ].
Qed.

Lemma all_calls : forall n, Calls n.
Proof. induction n as [|n IH]; [intros k r _; apply sim_zero|now apply rule_sim]. Qed.

Theorem start_sim : forall n x, simgv false n (gen_start G U x) (vm_start G ur x).
Proof.
  intros [|n] x; [apply sim_zero|]. apply sim_call. apply all_calls.
Qed.

(* a failing atomic expression of the generated parser fails cleanly, since the VM's does *)
Lemma gen_clean : gen_fails_clean.
Proof.
  intros x Hok Hc s s' a W I L HA [_ [f Ef]].
  destruct (expr_sim f (all_calls f) x true Hok) as ([P _] & _).
  assert (R : srel s s) by (eapply srel_refl; eauto).
  assert (Hne : exec cfg Eg f (ga x) s <> ROutOfFuel) by (rewrite Ef; discriminate).
  destruct (P f s s ltac:(lia) R (fun _ => HA) Hne) as [f' Hr]. unfold gm in Hr. rewrite Ef in Hr.
  destruct (exec cfg Ev f' (vx x) s) as [t'|t'|kk|] eqn:Ev'; cbn in Hr; try contradiction.
  destruct (vm_clean cfg G ur C HC f' true x (fun _ => Hc) f' s t' a (le_n _) W I L Ev') as (A1 & A2 & A3).
  destruct Hr as (st & -> & Cc & _). fields_in A1. fields_in A2. fields_in A3.
  split; [exact A1|]. split; [|rewrite <- Cc; apply A3; reflexivity].
  rewrite <- (untagq_length (queue s')), <- (untagq_length (queue s)), A2. reflexivity.
Qed.

End Equiv.

Inductive obsr :=
| ObsOk (p : nat) (q : list qtoken) (st : list (list byte)) (ap : nat) (pa na : list nat)
| ObsErr (p : nat) (q : list qtoken) (st : list (list byte)) (ap : nat) (pa na : list nat)
| ObsPanic (k : pkind)
| ObsFuel.
Definition obs (r : res) : obsr :=
  match r with
  | ROk s => ObsOk (pos s) (queue s) (cache (stack s)) (attempt_pos s) (pos_attempts s) (neg_attempts s)
  | RErr s => ObsErr (pos s) (queue s) (cache (stack s)) (attempt_pos s) (pos_attempts s) (neg_attempts s)
  | RPanic k => ObsPanic k
  | ROutOfFuel => ObsFuel
  end.

Lemma rrel_obs r r' : rrel r r' -> obs r = obs r'.
Proof.
  destruct r as [s|s|k|], r' as [t|t|k'|]; cbn; try contradiction; try congruence;
    intros (st & -> & Cc & _); fields; rewrite Cc; reflexivity.
Qed.
Lemma rrel_outcome cfg r r' : rrel r r' -> outcome_of cfg r = outcome_of cfg r'.
Proof.
  destruct r as [s|s|k|], r' as [t|t|k'|]; cbn [rrel outcome_of]; try contradiction; try congruence;
    intros (st & -> & Cc & _ & _ & _ & L); unfold limit_reached; fields; rewrite L; rewrite ?andb_false_r; reflexivity.
Qed.

Lemma srel_init inp detail : srel (init inp None detail) (init inp None detail).
Proof. eapply srel_refl; [unfold wf; cbn; lia|cbn; apply (@inv_empty (list byte))|reflexivity]. Qed.

(* the two back-ends, run from the initial state of ::pest::state without a call limit *)
Theorem gen_vm_agree cfg G U extras : in_H G extras = true ->
  forall x inp detail f1 f2,
    let rg := exec cfg (gen_env G U) f1 (gen_start G U x) (init inp None detail) in
    let rv := exec cfg (vm_env G (ulookup U)) f2 (vm_start G (ulookup U) x) (init inp None detail) in
    rg <> ROutOfFuel ->
    (exists f, exec cfg (vm_env G (ulookup U)) f (vm_start G (ulookup U) x) (init inp None detail) <> ROutOfFuel) /\
    (rv <> ROutOfFuel -> rrel rg rv).
Proof.
  intros HH x inp detail f1 f2 rg rv Hg.
  destruct (proj1 (start_sim cfg G U extras HH f1 x) f1 _ _ (le_n _) (srel_init inp detail) (fun X => ltac:(discriminate X)) Hg) as [f' Hr].
  split; [exists f'; eapply rrel_nofuel; exact Hr|].
  intros Hv. unfold rv. rewrite (exec_fuel_irrelevant cfg _ f2 f' _ _ Hv (rrel_nofuel _ _ Hr)). exact Hr.
Qed.

(* whenever the VM returns, the generated parser returns a related result *)
Theorem vm_gen_agree cfg G U extras : in_H G extras = true ->
  forall x inp detail f2,
    exec cfg (vm_env G (ulookup U)) f2 (vm_start G (ulookup U) x) (init inp None detail) <> ROutOfFuel ->
    exists f1, exec cfg (gen_env G U) f1 (gen_start G U x) (init inp None detail) <> ROutOfFuel.
Proof.
  intros HH x inp detail f2 Hv.
  destruct (proj2 (start_sim cfg G U extras HH f2 x) (gen_clean cfg G U extras HH) f2 _ _ (le_n _) (srel_init inp detail)
              (fun X => ltac:(discriminate X)) Hv) as [f' Hr].
  exists f'. eapply rrel_nofuel. exact Hr.
Qed.
