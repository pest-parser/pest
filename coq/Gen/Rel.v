(* C02 proofs, part 1: the relation between a state of the generated parser and a state of the VM.
   The two back-ends wrap different numbers of `sequence` calls around the same work, so their
   stacks differ in the snapshot bookkeeping (popped / lengths vectors of stack.rs) while holding
   the same contents; every other field is equal (with no call limit the call counter is never
   touched).  `srel s t`: t is s with another stack whose contents are the same, both stacks in
   the representation invariant of C11, both states well-formed.                               *)
From Coq Require Import List Arith NArith ZArith Bool Lia.
Import ListNotations.
Require Import PV.Stack.Model PV.Stack.Proofs PV.Comb.PState PV.Comb.Bytes PV.Comb.Prog PV.Comb.Exec
               PV.Comb.Detail PV.Comb.Frame PV.Comb.Contracts PV.Comb.CallLimit PV.Peg.Refine0.

Arguments Nat.sub : simpl never.
Arguments Nat.ltb : simpl never.
Arguments Nat.leb : simpl never.
Arguments Nat.eqb : simpl never.
Arguments skipn : simpl never.
Arguments firstn : simpl never.

Notation sspec := (spec (list byte)).
Notation bstk := (stk (list byte)).

Definition sw (st : bstk) (s : pst) : pst := set_stack s st.

Ltac fields := cbn [input pos queue lookahead pos_attempts neg_attempts attempt_pos atomicity stack calls limit pa_enabled
  call_stacks expected unexpected max_position set_pos set_queue set_lookahead set_pos_attempts set_neg_attempts
  set_attempt_pos set_atomicity set_stack set_calls set_limit set_pa_enabled set_call_stacks set_expected set_unexpected
  set_max_position sw map_res fst snd option_map lift].
Ltac fields_in H := cbn [input pos queue lookahead pos_attempts neg_attempts attempt_pos atomicity stack calls limit pa_enabled
  call_stacks expected unexpected max_position set_pos set_queue set_lookahead set_pos_attempts set_neg_attempts
  set_attempt_pos set_atomicity set_stack set_calls set_limit set_pa_enabled set_call_stacks set_expected set_unexpected
  set_max_position sw map_res fst snd option_map lift] in H.

Lemma sw_sw a b s : sw a (sw b s) = sw a s.
Proof. reflexivity. Qed.
Lemma sw_id s : sw (stack s) s = s.
Proof. destruct s; reflexivity. Qed.

Lemma rule_enter_sw st s : rule_enter (sw st s) = (fst (rule_enter s), sw st (snd (rule_enter s))).
Proof.
  unfold rule_enter, emits, attempts_at. fields.
  destruct (Nat.eqb (pos s) (attempt_pos s)); destruct (_ && _); fields; reflexivity.
Qed.

Lemma track_sw st s r p a b c : track (sw st s) r p a b c = sw st (track s r p a b c).
Proof.
  unfold track, attempts_at. fields.
  destruct (atom_eqb (atomicity s) Atomic); [reflexivity|].
  destruct (_ && _); [reflexivity|].
  destruct (Nat.eqb p (attempt_pos s)) eqn:E1; fields.
  - destruct (Nat.ltb (attempt_pos s) p) eqn:E2; fields.
    + rewrite Nat.eqb_refl. destruct (negb (lk_eqb (lookahead s) LNeg)); reflexivity.
    + rewrite E1. destruct (negb (lk_eqb (lookahead s) LNeg)); reflexivity.
  - destruct (Nat.ltb (attempt_pos s) p) eqn:E2; fields.
    + rewrite Nat.eqb_refl. destruct (negb (lk_eqb (lookahead s) LNeg)); reflexivity.
    + rewrite E1. reflexivity.
Qed.

Lemma try_add_rule_to_stack_sw st s r c m :
  try_add_rule_to_stack (sw st s) r c m = option_map (sw st) (try_add_rule_to_stack s r c m).
Proof.
  unfold try_add_rule_to_stack, try_add_new_stack_rule. fields.
  destruct (negb (atom_eqb (atomicity s) Atomic)); [|reflexivity].
  destruct (Nat.ltb (length (call_stacks s)) _); [reflexivity|].
  match goal with |- context [if Nat.leb ?c ?d then _ else _] => destruct (Nat.leb c d) end; reflexivity.
Qed.

Lemma rule_ok_sw st r fr s : rule_ok r fr (sw st s) = map_res (sw st) (rule_ok r fr s).
Proof.
  unfold rule_ok, emits. fields.
  assert (K : forall x, (if pa_enabled x then lift ROk (try_add_rule_to_stack (sw st x) r (rf_csn fr) (rf_max fr)) else ROk (sw st x))
                      = map_res (sw st) (if pa_enabled x then lift ROk (try_add_rule_to_stack x r (rf_csn fr) (rf_max fr)) else ROk x)).
  { intros x. destruct (pa_enabled x); [|reflexivity]. rewrite try_add_rule_to_stack_sw.
    destruct (try_add_rule_to_stack x r _ _); reflexivity. }
  destruct (lk_eqb (lookahead s) LNeg).
  - rewrite track_sw. fields. set (s1 := track s r _ _ _ _).
    destruct (_ && _); fields.
    + destruct (set_start_end _ _ _); fields; [|reflexivity].
      change (set_queue (sw st s1) ?q) with (sw st (set_queue s1 q)). apply (K (set_queue s1 _)).
    + apply (K s1).
  - destruct (_ && _); fields.
    + destruct (set_start_end _ _ _); fields; [|reflexivity].
      change (set_queue (sw st s) ?q) with (sw st (set_queue s q)). apply (K (set_queue s _)).
    + apply (K s).
Qed.

Lemma rule_err_sw st r fr s : rule_err r fr (sw st s) = map_res (sw st) (rule_err r fr s).
Proof.
  unfold rule_err, emits. fields.
  destruct (negb (lk_eqb (lookahead s) LNeg)).
  - rewrite track_sw. fields. set (s1 := track s r _ _ _ _).
    destruct (pa_enabled s1).
    + rewrite try_add_rule_to_stack_sw. destruct (try_add_rule_to_stack s1 r _ _) as [y|]; fields; [|reflexivity].
      destruct (_ && _); reflexivity.
    + fields. destruct (_ && _); reflexivity.
  - fields. destruct (_ && _); reflexivity.
Qed.

Lemma push_token_sw st s t n : push_token (sw st s) t n = sw st (push_token s t n).
Proof. unfold push_token. destruct n; reflexivity. Qed.

Lemma try_add_new_token_sw st s t sp p n : try_add_new_token (sw st s) t sp p n = sw st (try_add_new_token s t sp p n).
Proof.
  unfold try_add_new_token. fields.
  destruct (Nat.ltb (max_position s) p).
  - destruct (n && _); [reflexivity|]. rewrite push_token_sw. destruct n; reflexivity.
  - destruct (Nat.eqb p (max_position s)); [|reflexivity]. rewrite push_token_sw. reflexivity.
Qed.

Lemma handle_token_sw st s sp t ok : handle_token_parse_result (sw st s) sp t ok = sw st (handle_token_parse_result s sp t ok).
Proof.
  unfold handle_token_parse_result, nullify_expected_tokens. fields.
  destruct ok.
  - destruct (lk_eqb (lookahead s) LNeg); [apply try_add_new_token_sw|].
    destruct (Nat.ltb (max_position s) (pos s)); reflexivity.
  - destruct (negb (lk_eqb (lookahead s) LNeg)); [apply try_add_new_token_sw|reflexivity].
Qed.

Lemma apply_pres_sw st s r t : apply_pres (sw st s) r t = map_res (sw st) (apply_pres s r t).
Proof.
  unfold apply_pres. destruct r as [p| |]; fields; [| |reflexivity].
  - destruct t as [tk|]; [|reflexivity]. destruct (pa_enabled s); [|reflexivity].
    change (set_pos (sw st s) p) with (sw st (set_pos s p)). rewrite handle_token_sw. reflexivity.
  - destruct t as [tk|]; [|reflexivity]. destruct (pa_enabled s); [|reflexivity].
    rewrite handle_token_sw. reflexivity.
Qed.

Definition srel (s t : pst) : Prop :=
  exists st, t = sw st s /\ cache st = cache (stack s) /\ wf s /\ (exists a, Inv (stack s) a) /\ (exists b, Inv st b) /\ limit s = None.

Definition rrel (r1 r2 : res) : Prop :=
  match r1, r2 with
  | ROk s, ROk t | RErr s, RErr t => srel s t
  | RPanic k, RPanic k' => k = k'
  | _, _ => False
  end.

Lemma inv_cache' (st : bstk) (a : sspec) : Inv st a -> cache st = cur a.
Proof. intros [H _]. exact H. Qed.

Lemma srel_refl s a : wf s -> Inv (stack s) a -> limit s = None -> srel s s.
Proof. intros W I L. exists (stack s). repeat split; auto; try (exists a; exact I). symmetry. apply sw_id. Qed.

Lemma srel_sym s t : srel s t -> srel t s.
Proof.
  intros (st & -> & C & W & Ia & Ib & L). exists (stack s).
  split; [rewrite sw_sw; symmetry; apply sw_id|]. fields. repeat split; auto.
Qed.
Lemma rrel_sym r r' : rrel r r' -> rrel r' r.
Proof. destruct r, r'; cbn; try contradiction; auto using srel_sym. Qed.

Lemma r_wf s t : srel s t -> wf s.
Proof. intros (st & _ & _ & W & _). exact W. Qed.
Lemma r_lim s t : srel s t -> limit s = None.
Proof. intros (st & _ & _ & _ & _ & _ & L). exact L. Qed.
Lemma r_is s t : srel s t -> exists a, Inv (stack s) a.
Proof. intros (st & _ & _ & _ & I & _). exact I. Qed.
Lemma r_it s t : srel s t -> exists b, Inv (stack t) b.
Proof. intros (st & -> & _ & _ & _ & I & _). exact I. Qed.
Lemma srel_wft s t : srel s t -> wf t.
Proof. intros (st & -> & _ & W & _). exact W. Qed.
Lemma srel_limt s t : srel s t -> limit t = None.
Proof. intros (st & -> & _ & _ & _ & _ & L). exact L. Qed.
Lemma srel_at s t : srel s t -> atomicity t = atomicity s.
Proof. intros (st & -> & _). reflexivity. Qed.

Lemma srel_inv s t : srel s t ->
  wf s /\ wf t /\ limit s = None /\ limit t = None /\ exists a b, Inv (stack s) a /\ Inv (stack t) b /\ cur b = cur a.
Proof.
  intros (st & -> & C & W & [a Ia] & [b Ib] & L). repeat split; auto. exists a, b. split; [exact Ia|]. split; [exact Ib|].
  rewrite <- (inv_cache' _ _ Ia), <- (inv_cache' _ _ Ib). exact C.
Qed.

(* from the frame theorem on both sides, only the two core facts remain to be shown *)
Definition core (s t : pst) : Prop := exists st, t = sw st s /\ cache st = cache (stack s).
Definition rcore (r1 r2 : res) : Prop :=
  match r1, r2 with
  | ROk s, ROk t | RErr s, RErr t => core s t
  | RPanic k, RPanic k' => k = k'
  | _, _ => False
  end.

Lemma rrel_of_core s a t b r1 r2 :
  limit s = None -> post s a r1 -> post t b r2 -> rcore r1 r2 -> rrel r1 r2.
Proof.
  intros L P1 P2 C. destruct r1 as [s'|s'|k|], r2 as [t'|t'|k'|]; cbn in *; try contradiction; auto.
  - destruct P1 as (F1 & W1 & a1 & I1 & _), P2 as (_ & _ & b1 & I2 & _), C as (st & -> & C2).
    exists st. repeat split; auto; [exists a1; auto|exists b1; auto|rewrite (f_lim _ _ F1); auto].
  - destruct P1 as (F1 & W1 & a1 & I1 & _), P2 as (_ & _ & b1 & I2 & _), C as (st & -> & C2).
    exists st. repeat split; auto; [exists a1; auto|exists b1; auto|rewrite (f_lim _ _ F1); auto].
Qed.

Lemma core_of_srel s t : srel s t -> core s t.
Proof. intros (st & A & B & _). exists st; auto. Qed.

Lemma srel_checkpoint s t : srel s t -> srel (checkpoint s) (checkpoint t).
Proof.
  intros (st & -> & C & W & [a Ia] & [b Ib] & L). unfold checkpoint. fields.
  exists (snapshot st). repeat split; fields; auto.
  - exists (ssnapshot a). now apply inv_snapshot.
  - exists (ssnapshot b). now apply inv_snapshot.
Qed.

Lemma clear_core (k : pst -> res) (kk : (forall x, k x = ROk x) \/ (forall x, k x = RErr x)) s t :
  srel s t -> rcore (lift k (checkpoint_ok s)) (lift k (checkpoint_ok t)).
Proof.
  intros (st & -> & C & W & [a Ia] & [b Ib] & L). unfold checkpoint_ok. fields.
  destruct (inv_clear Ia) as (st1 & E1 & I1). destruct (inv_clear Ib) as (st2 & E2 & I2).
  rewrite E1, E2. fields.
  assert (X : core (set_stack s st1) (set_stack s st2)).
  { exists st2. split; fields; [reflexivity|].
    rewrite (inv_cache' _ _ I1), (inv_cache' _ _ I2). cbn. rewrite <- (inv_cache' _ _ Ia), <- (inv_cache' _ _ Ib). exact C. }
  destruct kk as [K|K]; rewrite !K; exact X.
Qed.

(* restoring the snapshot on both sides: the snapshots restored must hold the same contents *)
Lemma restore_core (k : pst -> res) (kk : (forall x, k x = ROk x) \/ (forall x, k x = RErr x)) s st a b c ra rb :
  Inv (stack s) a -> Inv st b -> snaps a = c :: ra -> snaps b = c :: rb ->
  rcore (lift k (restore_st s)) (lift k (restore_st (sw st s))).
Proof.
  intros Ia Ib Sa Sb. unfold restore_st. fields.
  destruct (inv_restore Ia) as (st1 & E1 & I1). destruct (inv_restore Ib) as (st2 & E2 & I2).
  rewrite E1, E2. fields.
  assert (X : core (set_stack s st1) (set_stack s st2)).
  { exists st2. split; fields; [reflexivity|].
    rewrite (inv_cache' _ _ I1), (inv_cache' _ _ I2). unfold srestore. rewrite Sa, Sb. reflexivity. }
  destruct kk as [K|K]; rewrite !K; exact X.
Qed.

(* after a sub-run from a checkpoint on both sides (P1, P2: what exec_post says of its result): restoring,
   possibly after an adjustment g that does not look at the stack *)
Lemma restore_after (k : pst -> res) (kk : (forall x, k x = ROk x) \/ (forall x, k x = RErr x)) (g : pst -> pst) x y a b s' t' :
  cur b = cur a ->
  (frame x s' /\ wf s' /\ exists a', Inv (stack s') a' /\ snaps a' = snaps (ssnapshot a)) ->
  (frame y t' /\ wf t' /\ exists b', Inv (stack t') b' /\ snaps b' = snaps (ssnapshot b)) ->
  srel s' t' -> (forall st z, g (sw st z) = sw st (g z)) -> (forall z, stack (g z) = stack z) ->
  rcore (lift k (restore_st (g s'))) (lift k (restore_st (g t'))).
Proof.
  intros Cab (_ & _ & a' & Ia' & Sa) (_ & _ & b' & Ib' & Sb) (st' & -> & _) Hg Hs. fields_in Ib'. rewrite Hg.
  eapply (restore_core k kk) with (a := a') (b := b');
    [rewrite Hs; exact Ia'|exact Ib'|rewrite Sa; reflexivity|rewrite Sb; cbn; rewrite Cab; reflexivity].
Qed.

(* a step that commutes with replacing the stack (by any stack of the same contents) leaves the stack of its
   state alone - take the stack the state has - and so gives core-related results on two such stacks *)
Lemma sw_core (k : pst -> res) s st :
  (forall st', cache st' = cache (stack s) -> k (sw st' s) = map_res (sw st') (k s)) -> k s <> ROutOfFuel ->
  cache st = cache (stack s) -> rcore (k s) (k (sw st s)).
Proof.
  intros Hk N C. pose proof (Hk (stack s) eq_refl) as Hid. rewrite sw_id in Hid. rewrite (Hk st C).
  destruct (k s) as [s'|s'|kk|]; cbn in *; try congruence; injection Hid as Hid; apply (f_equal stack) in Hid; cbn in Hid;
    exists st; rewrite Hid; auto.
Qed.

Lemma apply_pres_core s st r t : cache st = cache (stack s) -> rcore (apply_pres s r t) (apply_pres (sw st s) r t).
Proof.
  apply (sw_core (fun x => apply_pres x r t)); [intros st' _; apply apply_pres_sw|]. destruct r; discriminate.
Qed.
Lemma rule_ok_core r fr s st : cache st = cache (stack s) -> rcore (rule_ok r fr s) (rule_ok r fr (sw st s)).
Proof.
  apply (sw_core (rule_ok r fr)); [intros st' _; apply rule_ok_sw|]. unfold rule_ok.
  destruct (if emits _ then _ else _) as [s2|]; [destruct (pa_enabled s2); [destruct (try_add_rule_to_stack _ _ _ _)|]|]; discriminate.
Qed.
Lemma rule_err_core r fr s st : cache st = cache (stack s) -> rcore (rule_err r fr s) (rule_err r fr (sw st s)).
Proof.
  apply (sw_core (rule_err r fr)); [intros st' _; apply rule_err_sw|]. unfold rule_err.
  destruct (if negb _ then _ else _); discriminate.
Qed.

Lemma pop_same (a b : bstk) : cache a = cache b ->
  snd (pop a) = snd (pop b) /\ cache (fst (pop a)) = cache (fst (pop b)).
Proof.
  intros C. unfold pop. destruct (cache a) as [|x c1] eqn:Ea, (cache b) as [|y c2] eqn:Eb; try discriminate C.
  - cbn. rewrite Ea, Eb. auto.
  - injection C as -> ->.
    destruct (lengths a) as [|[l r] ls], (lengths b) as [|[l' r'] ls'];
      repeat match goal with |- context [if ?c then _ else _] => destruct c end; cbn; auto.
Qed.

Lemma match_pop_loop_S f inp (st : bstk) p :
  match_pop_loop (S f) inp st p =
  match pop st with
  | (st', None) => Some (st', p, true)
  | (st', Some x) => match match_string inp p x with PMoved p' => match_pop_loop f inp st' p' | _ => Some (st', p, false) end
  end.
Proof. reflexivity. Qed.

Lemma match_pop_loop_same f inp (a b : bstk) p : cache a = cache b ->
  match match_pop_loop f inp a p, match_pop_loop f inp b p with
  | Some (a', pa, ba), Some (b', pb, bb) => cache a' = cache b' /\ pa = pb /\ ba = bb
  | _, _ => False
  end.
Proof.
  revert a b p; induction f as [|f IH]; intros a b p C.
  - cbn. repeat split; auto.
  - rewrite !match_pop_loop_S. destruct (pop_same a b C) as [E1 E2]. destruct (pop a) as [a1 oa], (pop b) as [b1 ob]. cbn in E1, E2. subst ob.
    destruct oa as [x|]; [|repeat split; auto].
    destruct (match_string inp p x); [apply IH; exact E2|repeat split; auto|repeat split; auto].
Qed.

Lemma peek_slice_sw st s i j d : cache st = cache (stack s) -> peek_slice (sw st s) i j d = map_res (sw st) (peek_slice s i j d).
Proof.
  intros C. unfold peek_slice. fields. rewrite C.
  destruct (constrain_idxs i j _) as [[a b]|]; [|reflexivity].
  destruct (Nat.leb b a); [reflexivity|]. destruct (match_all _ _ _); reflexivity.
Qed.
Lemma peek_slice_core s st i j d : cache st = cache (stack s) -> rcore (peek_slice s i j d) (peek_slice (sw st s) i j d).
Proof.
  apply (sw_core (fun x => peek_slice x i j d)); [intros st' C; now apply peek_slice_sw|]. unfold peek_slice.
  destruct (constrain_idxs i j _) as [[a b]|]; [destruct (Nat.leb b a); [|destruct (match_all _ _ _)]|]; discriminate.
Qed.

Lemma exec_prim_core cfg o s st : cache st = cache (stack s) -> rcore (exec_prim cfg o s) (exec_prim cfg o (sw st s)).
Proof.
  intros C. destruct o; cbn [exec_prim].
  - exists st; auto.
  - exists st; auto.
  - now apply apply_pres_core.
  - fields. now apply apply_pres_core.
  - fields. now apply apply_pres_core.
  - fields. now apply apply_pres_core.
  - fields. now apply apply_pres_core.
  - fields. destruct (skip_until _ _ _ _); cbn; auto. exists st; auto.
  - fields. destruct (Nat.eqb (pos s) 0); exists st; auto.
  - fields. destruct (Nat.eqb (pos s) _); exists st; auto.
  - fields. exists (push st s0). split; [reflexivity|]. unfold push. simpl. f_equal. exact C.
  - fields. unfold peek. rewrite C. destruct (hd_error (cache (stack s))); cbn; auto.
    now apply apply_pres_core.
  - fields. destruct (pop_same st (stack s) C) as [X1 X2]. destruct (pop st) as [st1 o1], (pop (stack s)) as [st2 o2].
    cbn in X1, X2. subst o2. destruct o1 as [x|]; cbn; auto.
    change (set_stack (sw st s) st1) with (sw st1 (set_stack s st2)). now apply apply_pres_core.
  - fields. destruct (pop_same st (stack s) C) as [X1 X2]. destruct (pop st) as [st1 o1], (pop (stack s)) as [st2 o2].
    cbn in X1, X2. subst o2. destruct o1 as [x|]; [exists st1; auto|exists st; auto].
  - now apply peek_slice_core.
  - fields. rewrite C. pose proof (match_pop_loop_same (S (length (cache (stack s)))) (input s) st (stack s) (pos s) C) as X.
    destruct (match_pop_loop _ _ st _) as [[[a1 p1] b1]|], (match_pop_loop _ _ (stack s) _) as [[[a2 p2] b2]|]; try contradiction.
    destruct X as (X1 & -> & ->). destruct b2; exists a1; auto.
  - now apply peek_slice_core.
  - fields. destruct (negb (lk_eqb (lookahead s) LNone)); [exists st; auto|].
    destruct (queue s) as [|[e p|si r tg p] q]; exists st; auto.
Qed.
