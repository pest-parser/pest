(* C07 - tokenisation half: the claims about a printed concrete expression, by level (PL postfix chain over an atom,
   RL prefix operators, TL the term, EL the infix chain), how each level is obtained from the one below, the term /
   expression rules assembled, and the step lemmas of the induction: one more postfix operator, one more prefix
   operator, a tag, one more infix operand. *)
From Coq Require Import List Arith NArith ZArith Bool Lia String.
Import ListNotations.
Require Import PV.Comb.PState PV.Comb.Bytes PV.Comb.Utf8 PV.Iter.Queue PV.Peg.Ast PV.Peg.Spec PV.Peg.SpecFacts.
Require Import PV.Meta.Tokens PV.Meta.Unescape PV.Meta.Spell PV.Meta.LexProofs PV.Meta.Text PV.Meta.Proofs.
Require Import PV.Meta.PegRules PV.Meta.LexPeg PV.Meta.TokBase PV.Meta.TokLex PV.Meta.TokPost PV.Meta.TokOper PV.Meta.TokAtom.
Local Open Scope string_scope.
Local Open Scope list_scope.

(* what can follow a complete operand:  ~ | ) } ? * + {   - after a term: ~ | ) }  - after an expression: ) } *)
Definition stopb (b : byte) : bool := existsb (N.eqb b) [126; 124; 41; 125; 63; 42; 43; 123]%N.
Definition tstopb (b : byte) : bool := existsb (N.eqb b) [126; 124; 41; 125]%N.
Definition cstopb (b : byte) : bool := existsb (N.eqb b) [41; 125]%N.
Definition headb (b : byte) : bool := ident_start b || existsb (N.eqb b) [34; 94; 39; 40; 35; 38; 33]%N.

Lemma existsb_eqb_In b l : existsb (N.eqb b) l = true -> In b l.
Proof. intros H. apply existsb_exists in H. destruct H as (x & I & E). apply N.eqb_eq in E. now subst. Qed.
Lemma stop_hard b : stopb b = true -> hardb b = true.
Proof. intros H. apply existsb_eqb_In in H. cbn [In] in H. repeat (destruct H as [<-|H]; [reflexivity|]). destruct H. Qed.
Lemma tstop_stop b : tstopb b = true -> stopb b = true.
Proof. intros H. apply existsb_eqb_In in H. cbn [In] in H. repeat (destruct H as [<-|H]; [reflexivity|]). destruct H. Qed.
Lemma cstop_tstop b : cstopb b = true -> tstopb b = true.
Proof. intros H. apply existsb_eqb_In in H. cbn [In] in H. repeat (destruct H as [<-|H]; [reflexivity|]). destruct H. Qed.
Lemma test_ne (P : byte -> bool) b c : P b = true -> P c = false -> b <> c.
Proof. intros H1 H2 ->. congruence. Qed.
Lemma head_gap_end b l : headb b = true -> gap_end (b :: l).
Proof.
  unfold headb. intros H. apply orb_prop in H. destruct H as [H|H]; [apply ident_gap_end; now apply ident_start_char|].
  apply existsb_eqb_In in H. cbn [In] in H. repeat (destruct H as [<-|H]; [now apply gap_end_b|]). destruct H.
Qed.

Section Term.
Variable w : list byte.
Variable sg : list str.
Notation G := meta_grammar.
Notation at_ := (at_ w).
Notation ok := (ok w sg).
Notation no := (no w sg).
Notation skp := (skp w sg).
Notation SM := (SM w).
Notation urun := (urun w sg).
Notation lands := (lands w).
Notation reads := (reads w sg).

Definition PL (c : cexpr) (wc : list byte) : Prop :=
  forall p g b r', at_ p (wc ++ g ++ b :: r') -> gap g -> stopb b = true ->
    exists pn Fn Fp, ok NODE p pn Fn /\ urun POSTOP pn (p + List.length wc) Fp /\ SM (tc c) (Fn ++ Fp).
Definition RL (c : cexpr) (wc : list byte) : Prop :=
  forall pt p g b r', lands pt p -> at_ p (wc ++ g ++ b :: r') -> gap g -> stopb b = true ->
    exists qk Fpre pnode pn Fn Fp, urun PREOP pt qk Fpre /\ lands qk pnode /\ no PREOP pnode /\ ok NODE pnode pn Fn /\
      urun POSTOP pn (p + List.length wc) Fp /\ SM (tc c) (Fpre ++ Fn ++ Fp).
Definition TL (c : cexpr) (wc : list byte) : Prop :=
  forall p g b r', at_ p (wc ++ g ++ b :: r') -> gap g -> tstopb b = true ->
    exists q F, ok TERM p q F /\ lands q (p + List.length wc + List.length g) /\ SM [SK MTerm LNone (tc c)] F.
Definition EL (c : cexpr) (wc : list byte) : Prop :=
  forall p g b r', at_ p (wc ++ g ++ b :: r') -> gap g -> tstopb b = true ->
    exists pt F1 q Ft, ok TERM p pt F1 /\ urun INFIXTERM pt q Ft /\ lands q (p + List.length wc + List.length g) /\ SM (fe c) (F1 ++ Ft).
Definition HD (c : cexpr) (wc : list byte) : Prop :=
  exists b0 l0, wc = b0 :: l0 /\ headb b0 = true /\ (3 <= lvl c -> b0 <> 35%N) /\ (4 <= lvl c -> b0 <> 38%N /\ b0 <> 33%N).
Definition Claims (c : cexpr) (wc : list byte) : Prop :=
  HD c wc /\ EL c wc /\ (2 <= lvl c -> TL c wc) /\ (3 <= lvl c -> RL c wc) /\ (4 <= lvl c -> PL c wc).

Lemma HD_gap_end c wc l : HD c wc -> gap_end (wc ++ l).
Proof. intros (b0 & l0 & -> & Hh & _). now apply head_gap_end. Qed.

(* ---- term = { node_tag? ~ prefix_operator* ~ node ~ postfix_operator* } ---- *)
Definition term_body : expr := ESeq (ESeq (ESeq (EOpt (Rf "node_tag")) (ERep PREOP)) NODE) (ERep POSTOP).
Lemma term_assemble p pt Ft qk Fpre pnode pn Fn q Fp e b l :
  ok (EOpt (Rf "node_tag")) p pt Ft -> urun PREOP pt qk Fpre -> lands qk pnode -> no PREOP pnode -> ok NODE pnode pn Fn ->
  urun POSTOP pn q Fp -> lands q e -> at_ e (b :: l) -> tstopb b = true ->
  exists qe, ok TERM p qe [Node (rule_id G (nm "term")) None p qe (Ft ++ Fpre ++ Fn ++ Fp)] /\ lands qe e.
Proof.
  intros T R1 L1 N1 O R2 L2 H Hb.
  destruct (seq_rep w sg _ PREOP p pt Ft qk Fpre pnode T R1 (lands_sk w sg _ _ L1) N1) as (q1 & X1 & E1).
  pose proof (lands_or w qk pnode q1 L1 E1) as L1'.
  pose proof (seq_ok w sg _ NODE p q1 _ pnode pn Fn X1 (lands_sk w sg _ _ L1') O) as X2.
  assert (NP : no POSTOP e) by (apply (postfix_no w sg (b :: l)); [..|exact H]; cbn; apply (test_ne tstopb b _ Hb); reflexivity).
  destruct (seq_rep w sg _ POSTOP p pn _ q Fp e X2 R2 (lands_sk w sg _ _ L2) NP) as (qe & X3 & E3).
  exists qe. split; [|exact (lands_or w q e qe L2 E3)].
  replace (Ft ++ Fpre ++ Fn ++ Fp) with (((Ft ++ Fpre) ++ Fn) ++ Fp) by (rewrite <- !app_assoc; reflexivity).
  exact (call_normal w sg (nm "term") {| rname := nm "term"; rty := RNormal; rexpr := term_body |} p qe _ eq_refl eq_refl X3).
Qed.

(* ---- expression = { choice_operator? ~ term ~ (infix_operator ~ term)* } ---- *)
Definition expr_body : expr := ESeq (ESeq (EOpt (Rf "choice_operator")) TERM) (ERep INFIXTERM).
Lemma expr_assemble p pb Fb pt0 pt F1 q Ft e b l :
  ok (EOpt (Rf "choice_operator")) p pb Fb -> skp pb pt0 -> ok TERM pt0 pt F1 -> urun INFIXTERM pt q Ft -> lands q e -> at_ e (b :: l) ->
  cstopb b = true ->
  exists qe, ok EXPR p qe [Node (rule_id G (nm "expression")) None p qe (Fb ++ F1 ++ Ft)] /\ lands qe e.
Proof.
  intros B S T R L H Hb.
  pose proof (seq_ok w sg _ TERM p pb Fb pt0 pt F1 B S T) as X1.
  assert (NI : no INFIXTERM e).
  { apply seq_no1. apply (infix_no w sg (b :: l)); [..|exact H]; cbn; apply (test_ne cstopb b _ Hb); reflexivity. }
  destruct (seq_rep w sg _ INFIXTERM p pt _ q Ft e X1 R (lands_sk w sg _ _ L) NI) as (qe & X2 & E2).
  exists qe. split; [|exact (lands_or w q e qe L E2)].
  replace (Fb ++ F1 ++ Ft) with ((Fb ++ F1) ++ Ft) by (rewrite <- !app_assoc; reflexivity).
  exact (call_normal w sg (nm "expression") {| rname := nm "expression"; rty := RNormal; rexpr := expr_body |} p qe _ eq_refl eq_refl X2).
Qed.

Lemma at_after p wc g b r' : at_ p (wc ++ g ++ b :: r') -> at_ (p + List.length wc + List.length g) (b :: r').
Proof. intros H. apply at_app. now apply at_app. Qed.
Lemma lands_after p wc g b r' : at_ p (wc ++ g ++ b :: r') -> gap g -> stopb b = true -> lands (p + List.length wc) (p + List.length wc + List.length g).
Proof. intros H Hg Hb. apply (lands_gap w _ g (b :: r') _ (at_app w p wc _ H) Hg); [|reflexivity]. apply hard_gap_end. now apply stop_hard. Qed.

Lemma PL_RL c wc : HD c wc -> 4 <= lvl c -> PL c wc -> RL c wc.
Proof.
  intros (b0 & l0 & -> & Hh & _ & H4) L P pt p g b r' La H Hg Hb. destruct (H4 L) as [N38 N33].
  destruct (P p g b r' H Hg Hb) as (pn & Fn & Fp & O & R & M).
  exists pt, [], p, pn, Fn, Fp. split; [constructor|]. split; [exact La|]. split; [|split; [exact O|split; [exact R|exact M]]].
  exact (prefix_no w sg ((b0 :: l0) ++ g ++ b :: r') N38 N33 p H).
Qed.

Lemma RL_TL c wc : HD c wc -> 3 <= lvl c -> RL c wc -> TL c wc.
Proof.
  intros Hd L R p g b r' H Hg Hb. pose proof (tstop_stop b Hb) as Hs.
  assert (T : ok (EOpt (Rf "node_tag")) p p []).
  { apply opt_none. destruct Hd as (b0 & l0 & -> & _ & H3 & _). exact (node_tag_no w sg ((b0 :: l0) ++ g ++ b :: r') (H3 L) p H). }
  pose proof (lands_refl w p _ H (HD_gap_end c wc _ Hd)) as La.
  destruct (R p p g b r' La H Hg Hs) as (qk & Fpre & pnode & pn & Fn & Fp & R1 & L1 & N1 & O & R2 & M).
  destruct (term_assemble p p [] qk Fpre pnode pn Fn _ Fp _ b r' T R1 L1 N1 O R2 (lands_after p _ g b r' H Hg Hs) (at_after p _ g b r' H) Hb)
    as (qe & X & Le).
  eexists qe, _. split; [exact X|]. split; [exact Le|]. eapply SM_node; [reflexivity|exact I|exact M].
Qed.

Lemma TL_EL c wc : 2 <= lvl c -> TL c wc -> EL c wc.
Proof.
  intros L T p g b r' H Hg Hb. destruct (T p g b r' H Hg Hb) as (q & F & X & La & M).
  exists q, F, q, []. split; [exact X|]. split; [constructor|]. split; [exact La|]. rewrite app_nil_r, (fe_term c L). exact M.
Qed.

Lemma claims4 c wc : HD c wc -> 4 <= lvl c -> PL c wc -> Claims c wc.
Proof.
  intros Hd L P. pose proof (PL_RL c wc Hd L P) as R. pose proof (RL_TL c wc Hd ltac:(lia) R) as T. pose proof (TL_EL c wc ltac:(lia) T) as E.
  repeat split; auto.
Qed.
Lemma claims3 c wc : HD c wc -> lvl c = 3 -> RL c wc -> Claims c wc.
Proof.
  intros Hd L R. pose proof (RL_TL c wc Hd ltac:(lia) R) as T. pose proof (TL_EL c wc ltac:(lia) T) as E.
  repeat split; auto. intros; lia.
Qed.
Lemma claims2 c wc : HD c wc -> lvl c = 2 -> TL c wc -> Claims c wc.
Proof. intros Hd L T. pose proof (TL_EL c wc ltac:(lia) T) as E. repeat split; auto; intros; lia. Qed.
Lemma claims1 c wc : HD c wc -> lvl c < 2 -> EL c wc -> Claims c wc.
Proof. intros Hd L E. repeat split; auto; intros; lia. Qed.

Lemma bar_reads (bar : bool) gb l : gap gb -> gap_end l -> hd_ne 124%N l ->
  exists l1, reads (EOpt (Rf "choice_operator")) (opt_bar bar gb ++ l) l1 (sk_bar bar) /\ gapped l1 l.
Proof.
  intros Gb GE N. destruct bar; cbn [opt_bar sk_bar app].
  - exists (gb ++ l). split; [|now apply gapped_intro]. apply reads_opt. now apply tok_reads.
  - exists l. split; [|now apply gapped_refl]. apply reads_opt_none. exact (tok_fails w sg "choice_operator" 124%N l eq_refl N).
Qed.

Lemma expr_ok c wc (bar : bool) gb g2 b r' p : Claims c wc -> gap gb -> gap g2 -> cstopb b = true ->
  at_ p (opt_bar bar gb ++ wc ++ g2 ++ b :: r') ->
  exists q F, ok EXPR p q F /\ lands q (p + List.length (opt_bar bar gb) + List.length wc + List.length g2) /\
    SM [SK MExpression LNone (sk_bar bar ++ fe c)] F.
Proof.
  intros (Hd & E & _) Gb G2 Hb H.
  assert (N : hd_ne 124%N (wc ++ g2 ++ b :: r')).
  { destruct Hd as (b0 & l0 & -> & Hh & _). cbn. apply (test_ne headb b0 _ Hh). reflexivity. }
  destruct (bar_reads bar gb _ Gb (HD_gap_end c wc _ Hd) N) as (l1 & Rb & g & -> & Hg & GE).
  destruct (Rb p H) as (t & Fb & Et & B & Mb). rewrite Et in H. pose proof (at_app w p t _ H) as H1. pose proof (at_app w _ g _ H1) as H2.
  rewrite (app_assoc t g) in Et. apply app_inv_tail in Et.
  destruct (E _ g2 b r' H2 G2 (cstop_tstop b Hb)) as (pt & F1 & q & Ft & T & R & La & M).
  destruct (expr_assemble p _ Fb _ pt F1 q Ft _ b r' B (skp_gap w sg _ g _ H1 Hg GE) T R La (at_after _ wc g2 b r' H2) Hb) as (qe & X & Le).
  eexists qe, _. split; [exact X|]. split; [apply (lands_eq w qe _ _ Le); rewrite Et; len|].
  eapply SM_node; [reflexivity|exact I|]. now apply SM_app.
Qed.

(* an atom is a postfix chain of length 0 *)
Lemma PL_of_atom c wc : (forall g b r', gap g -> stopb b = true -> reads NODE (wc ++ g ++ b :: r') (g ++ b :: r') (tc c)) -> PL c wc.
Proof.
  intros A p g b r' H Hg Hb. destruct (reads_at w sg _ _ wc _ _ p (A g b r' Hg Hb) eq_refl H) as (F & O & M & _). exists (p + List.length wc), F, [].
  split; [exact O|]. split; [constructor|]. now rewrite app_nil_r.
Qed.

Lemma post_head k t : post_text k t -> exists t0 t', t = t0 :: t' /\ stopb t0 = true.
Proof. destruct 1; eexists; eexists; (split; [reflexivity|reflexivity]). Qed.

Lemma PL_extend c' w' c g1 k t : PL c' w' -> gap g1 -> post_text k t -> tc c = tc c' ++ [k] -> PL c (w' ++ g1 ++ t).
Proof.
  intros P G1 T Etc p g b r' H Hg Hb. destruct (post_head k t T) as (t0 & t' & Et & St).
  rewrite <- !app_assoc in H.
  assert (H0 : at_ p (w' ++ g1 ++ t0 :: (t' ++ g ++ b :: r'))) by (rewrite Et in H; exact H).
  destruct (P p g1 t0 _ H0 G1 St) as (pn & Fn & Fp & O & R & M).
  pose proof (at_app w p w' _ H) as H1.
  destruct (reads_at w sg _ _ t _ _ _ (postfix_ok w sg k t _ T) eq_refl (at_app w _ g1 _ H1)) as (F & OF & MF & _).
  assert (S : skp (p + List.length w') (p + List.length w' + List.length g1)).
  { apply (skp_gap w sg _ g1 _ H1 G1). rewrite Et. apply hard_gap_end. now apply stop_hard. }
  exists pn, Fn, (Fp ++ F). split; [exact O|]. split.
  - apply (urun_eq w sg _ _ _ _ _ (urun_snoc w sg POSTOP pn _ Fp _ _ F R S OF)). len.
  - rewrite Etc, app_assoc. now apply SM_app.
Qed.

Lemma RL_pre c' w' c (neg : bool) g1 : RL c' w' -> HD c' w' -> gap g1 ->
  tc c = sk (if neg then MNegativePredicateOperator else MPositivePredicateOperator) :: tc c' ->
  RL c ((if neg then 33%N else 38%N) :: g1 ++ w').
Proof.
  intros R Hd G1 Etc pt p g b r' La H Hg Hb. norm H.
  pose proof (at_cons w p _ _ H) as H1. pose proof (at_app w _ g1 _ H1) as H2.
  pose proof (lands_gap w _ g1 _ _ H1 G1 (HD_gap_end c' w' _ Hd) eq_refl) as La'.
  destruct (R (p + 1) _ g b r' La' H2 Hg Hb) as (qk & Fpre & pnode & pn & Fn & Fp & R1 & L1 & N1 & O & R2 & M).
  destruct (reads_at w sg _ _ [_] _ _ p (prefix_reads w sg neg _) eq_refl H) as (F & X & Mn & _).
  exists qk, (F ++ Fpre), pnode, pn, Fn, Fp. split; [exact (ur_cons w sg PREOP pt p (p + 1) F qk Fpre (lands_sk w sg _ _ La) X R1)|].
  split; [exact L1|]. split; [exact N1|]. split; [exact O|]. split; [apply (urun_eq w sg _ _ _ _ _ R2); len|].
  rewrite Etc, <- app_assoc. exact (SM_app w [_] _ F _ Mn M).
Qed.

Lemma TL_tag c' w' c t g1 g2 : RL c' w' -> HD c' w' -> tag_ok t = true -> gap g1 -> gap g2 ->
  tc c = SK MTagId (LTag t) [] :: sk MAssignmentOperator :: tc c' ->
  TL c (35%N :: t ++ g1 ++ [61%N] ++ g2 ++ w').
Proof.
  intros R Hd OK G1 G2 Etc p g b r' H Hg Hb. pose proof (tstop_stop b Hb) as Hs.
  norm H.
  destruct (reads_at w sg _ _ (35%N :: t ++ g1 ++ [61%N]) _ _ p (node_tag_ok w sg t g1 _ OK G1) ltac:(normg; reflexivity) H) as (Ft & T & Mt & H1).
  pose proof (at_app w _ g2 _ H1) as H2.
  pose proof (lands_gap w _ g2 _ _ H1 G2 (HD_gap_end c' w' _ Hd) eq_refl) as La.
  destruct (R _ _ g b r' La H2 Hg Hs) as (qk & Fpre & pnode & pn & Fn & Fp & R1 & L1 & N1 & O & R2 & M).
  destruct (term_assemble p _ Ft qk Fpre pnode pn Fn _ Fp _ b r' (opt_some w sg _ _ _ _ T) R1 L1 N1 O R2
              (lands_after _ w' g b r' H2 Hg Hs) (at_after _ w' g b r' H2) Hb) as (qe & X & Le).
  eexists qe, _. split; [exact X|]. split; [apply (lands_eq w qe _ _ Le); len|].
  eapply SM_node; [reflexivity|exact I|]. rewrite Etc. exact (SM_app w [_; _] _ Ft _ Mt M).
Qed.

Lemma EL_infix a wa b' wb c (alt : bool) g1 g2 : EL a wa -> EL b' wb -> HD b' wb -> gap g1 -> gap g2 ->
  fe c = fe a ++ sk (if alt then MChoiceOperator else MSequenceOperator) :: fe b' ->
  EL c (wa ++ g1 ++ [if alt then 124%N else 126%N] ++ g2 ++ wb).
Proof.
  intros Ea Eb Hd G1 G2 Efe p g b r' H Hg Hb. norm H.
  assert (Tx : tstopb (if alt then 124%N else 126%N) = true) by (destruct alt; reflexivity).
  destruct (Ea p g1 _ _ H G1 Tx) as (pt & F1 & qa & Fa & T & Ra & La & Ma).
  pose proof (at_after p wa g1 _ _ H) as H1. set (ea := p + List.length wa + List.length g1) in *.
  pose proof (at_cons w _ _ _ H1) as H2. pose proof (at_app w _ g2 _ H2) as H3.
  destruct (Eb _ g b r' H3 Hg Hb) as (ptb & F1b & qb & Fbt & Tb & Rb & Lb & Mb).
  destruct (reads_at w sg _ _ [_] _ _ ea (infix_reads w sg alt _) eq_refl H1) as (Fi & X & Mn & _).
  pose proof (seq_ok w sg INFIX TERM ea _ _ _ ptb F1b X (skp_gap w sg _ g2 _ H2 G2 (HD_gap_end b' wb _ Hd)) Tb) as Y.
  pose proof (urun_app w sg INFIXTERM pt ptb qb _ _ (urun_snoc w sg INFIXTERM pt qa Fa ea ptb _ Ra (lands_sk w sg _ _ La) Y) Rb) as Rall.
  exists pt, F1, qb, ((Fa ++ Fi ++ F1b) ++ Fbt). split; [exact T|]. split; [exact Rall|]. split.
  - apply (lands_eq w qb _ _ Lb). unfold ea. len.
  - rewrite Efe. replace (F1 ++ (Fa ++ Fi ++ F1b) ++ Fbt) with ((F1 ++ Fa) ++ Fi ++ (F1b ++ Fbt)) by (rewrite <- !app_assoc; reflexivity).
    apply SM_app; [exact Ma|]. exact (SM_app w [_] _ Fi _ Mn Mb).
Qed.
End Term.
