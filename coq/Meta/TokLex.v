(* C07 - tokenisation half: the lexemes of LexPeg.v and the doc lines as the expression-level rules call them
   (NonAtomic, emitting), what each of them reads, and when each of them FAILS. *)
From Coq Require Import List Arith NArith ZArith Bool Lia String.
Import ListNotations.
Require Import PV.Comb.PState PV.Comb.Bytes PV.Comb.Utf8 PV.Iter.Queue PV.Peg.Ast PV.Peg.Spec PV.Peg.SpecFacts.
Require Import PV.Meta.Tokens PV.Meta.Unescape PV.Meta.Spell PV.Meta.LexProofs PV.Meta.Text PV.Meta.Proofs.
Require Import PV.Meta.PegRules PV.Meta.LexPeg PV.Meta.TokBase.
Local Open Scope string_scope.
Local Open Scope list_scope.

Definition hd_ne (c : byte) (l : list byte) : Prop := match l with [] => True | b :: _ => b <> c end.
Lemma hd_ne_prefix c s l : hd_ne c l -> prefixb (c :: s) l = false.
Proof. destruct l as [|b l']; [reflexivity|]. cbn. intros H. apply not_eq_sym in H. apply N.eqb_neq in H. now rewrite H. Qed.
Definition hd_in (P : byte -> bool) (l : list byte) : Prop := match l with [] => False | b :: _ => P b = true end.

Section Lex.
Variable w : list byte.
Variable sg : list str.
Notation G := meta_grammar.
Notation mev := (evals G false (fun _ => None) w).
Notation at_ := (at_ w).
Notation ok := (ok w sg).
Notation no := (no w sg).
Notation reads := (reads w sg).
Notation fails := (fails w sg).

Lemma fails_atomic s a body l : rule_named (nm s) = Some (mk s (match a with Atomic => RAtomic | _ => RCompound end) body) ->
  a <> NonAtomic -> (forall p, at_ p l -> mev a true body p sg SFail) -> fails (Rf s) l.
Proof.
  intros (PN & SP & FR)%rule_named_inv NA N p H. pose proof (evals_call G false (fun _ => None) w NonAtomic true (nm s) _ p sg SFail PN FR) as C.
  rewrite SP in C. apply C. specialize (N p H). destruct a; [exact N|exact N|congruence].
Qed.
Lemma fails_refuses s body l : rule_named (nm s) = Some (mk s RAtomic body) -> refuses w body l -> fails (Rf s) l.
Proof. intros Q R. apply (fails_atomic s Atomic body l Q ltac:(discriminate)). intros p H. exact (R true p sg H). Qed.

Lemma reads_leaf e id r lx t l : mrule_of_nat id = r -> lex_ok false lx t ->
  (forall p, at_ p (t ++ l) -> ok e p (p + List.length t) [Node id None p (p + List.length t) []]) -> reads e (t ++ l) l [SK r lx []].
Proof.
  intros Hr L A. apply reads_intro. intros p H. eexists. split; [exact (A p H)|]. apply (SM_node w id r lx [] _ _ [] Hr); [|apply SM_nil].
  now rewrite (slice_at w p t l _ H eq_refl).
Qed.

Lemma identifier_reads n rest : ident_ok n = true -> follow ident_char rest -> reads (Rf "identifier") (n ++ rest) rest [SK MIdentifier (LName n) []].
Proof.
  intros OK Fo. apply (reads_leaf _ (mid MIdentifier)); [reflexivity..|]. intros p H. exact (lex_identifier w NonAtomic true n rest p sg OK Fo H).
Qed.

Lemma follow_start_not_P l : follow ident_start l -> prefixb (nm "PUSH") l = false.
Proof.
  change (nm "PUSH") with [80; 85; 83; 72]%N. destruct l as [|b l']; [reflexivity|]. intros [_ H]. cbn [prefixb].
  destruct (80 =? b)%N eqn:E; [|reflexivity]. apply N.eqb_eq in E. subst b. discriminate.
Qed.

Lemma identifier_fails l : follow ident_start l -> fails (Rf "identifier") l.
Proof.
  intros Fo. apply (fails_refuses "identifier" _ l eq_refl). apply refuses_seq, (refuses_seq_r w _ _ [] l).
  - apply takes_neg, refuses_str. now apply follow_start_not_P.
  - exact (rec_refuses w _ _ l (rec_ident_start w) Fo).
Qed.

Lemma number_reads n nw rest : spells_num n nw -> follow digitb rest -> reads (Rf "number") (nw ++ rest) rest [sk_num n].
Proof.
  intros S Fo. apply (reads_leaf _ (mid MNumber)); [reflexivity|exact S|]. intros p H.
  destruct (spells_num_digits n nw S) as [NE F]. exact (lex_number w NonAtomic true nw rest p sg NE F Fo H).
Qed.
Lemma number_fails l : follow digitb l -> fails (Rf "number") l.
Proof. intros Fo. apply (fails_refuses "number" _ l eq_refl). exact (number_no w l Fo). Qed.
Lemma integer_reads z zw rest : spells_int z zw -> follow digitb rest -> reads (Rf "integer") (zw ++ rest) rest [sk_int z].
Proof.
  intros S Fo. apply (reads_leaf _ (mid MInteger)); [reflexivity|exact S|]. intros p H. exact (lex_integer w NonAtomic true z zw rest p sg S Fo H).
Qed.
Lemma integer_fails l : follow digitb l -> hd_ne 45%N l -> fails (Rf "integer") l.
Proof.
  intros Fo N. apply (fails_refuses "integer" _ l eq_refl). apply refuses_choice; [exact (number_refuses w l Fo)|].
  do 3 apply refuses_seq. apply refuses_str. now apply hd_ne_prefix.
Qed.

Lemma tag_id_reads t rest : tag_ok t = true -> follow ident_char rest -> reads (Rf "tag_id") (35%N :: t ++ rest) rest [SK MTagId (LTag t) []].
Proof.
  intros OK Fo. apply (reads_leaf _ (mid MTagId) _ _ (35%N :: t)); [reflexivity..|]. intros p H. exact (lex_tag_id w NonAtomic true t rest p sg OK Fo H).
Qed.
Lemma tag_id_fails l : hd_ne 35%N l -> fails (Rf "tag_id") l.
Proof.
  intros N. apply (fails_refuses "tag_id" _ l eq_refl). do 2 apply refuses_seq. apply refuses_str. now apply hd_ne_prefix.
Qed.

Lemma string_reads cs ew rest : spells_string 34%N cs ew -> reads (Rf "string") (quoted 34%N ew ++ rest) rest [sk_string cs].
Proof.
  intros S. apply reads_intro. intros p H. eexists. split; [exact (lex_string w NonAtomic sg cs ew p rest S H)|].
  apply (SM_node w (mid MString) MString (LStr cs) _ p _ _ eq_refl).
  - exists ew. split; [|exact S]. exact (slice_at w p (quoted 34%N ew) rest _ H eq_refl).
  - apply SM_cons; [apply SM_leaf; reflexivity|]. apply SM_cons; apply SM_leaf; reflexivity.
Qed.
Lemma character_reads c e rest : spells_char 39%N c e -> reads (Rf "character") (quoted 39%N e ++ rest) rest [sk_char c].
Proof.
  intros S. apply reads_intro. intros p H. eexists. split; [exact (lex_character w NonAtomic sg c e p rest S H)|].
  apply (SM_node w (mid MCharacter) MCharacter (LChr c) _ p _ _ eq_refl).
  - exists e. split; [|exact S]. exact (slice_at w p (quoted 39%N e) rest _ H eq_refl).
  - apply SM_cons; [apply SM_leaf; reflexivity|]. apply SM_cons; apply SM_leaf; reflexivity.
Qed.
Lemma quoted_fails s (q : byte) qr inner l : rule_named (nm s) = Some (mk s RCompound (seql (Rf qr) [inner; Rf qr])) ->
  rule_named (nm qr) = Some (mk qr RNormal (EStr [q])) -> hd_ne q l -> fails (Rf s) l.
Proof.
  intros Q (PQ & _ & FQ)%rule_named_inv N. apply (fails_atomic s CompoundAtomic _ l Q ltac:(discriminate)). intros p H.
  cbn [seql fold_left]. do 2 apply evals_seq_fail. apply (evals_call G false (fun _ => None) w CompoundAtomic true (nm qr) _ p sg SFail PQ FQ).
  apply (str_no w _ true _ p sg l H). now apply hd_ne_prefix.
Qed.
Definition string_fails := quoted_fails "string" 34%N "quote" (Rf "inner_str").
Definition character_fails := quoted_fails "character" 39%N "single_quote" (Rf "inner_chr").

Lemma range_no p l : at_ p l -> hd_ne 39%N l -> no (Rf "range") p.
Proof.
  intros H N. apply (fails_call w sg "range" _ _ l eq_refl (or_intror eq_refl)); [|exact H].
  do 2 apply fails_seq1. exact (character_fails l eq_refl eq_refl N).
Qed.

(* doc lines:  lead ~ space? ~ inner_doc  in a compound-atomic rule *)
Definition doc_body (lead : list byte) : expr := seql (EStr lead) [EOpt (Rf "space"); Rf "inner_doc"].
Definition doc_tail (cs : list N) : Prop := Forall scalar cs /\ ~ In 10%N cs /\ last cs 0%N <> 13%N.

Lemma space_opt cs nl rest p : doc_tail cs -> (nl = [10%N] \/ nl = [13%N; 10%N]) -> at_ p (utf8 cs ++ nl ++ rest) ->
  exists pre cs2, utf8 cs = pre ++ utf8 cs2 /\ doc_tail cs2 /\
    mev CompoundAtomic true (EOpt (Rf "space")) p sg (SMatch (p + List.length pre) sg []).
Proof.
  intros (F & NI & NL) Hnl H.
  assert (Call : forall res, mev CompoundAtomic true (EChoice (EStr (nm " ")) (EStr [9%N])) p sg res ->
                   mev CompoundAtomic true (EOpt (Rf "space")) p sg (match res with SFail => SMatch p sg [] | r => r end)).
  { intros res X. apply evals_opt.
    pose proof (evals_call G false (fun _ => None) w CompoundAtomic true (nm "space") (mk "space" RSilent (chol (Lt " ") [EStr [9%N]])) p sg res eq_refl eq_refl X) as C.
    destruct res; exact C. }
  assert (Sp : (exists c cs', cs = c :: cs' /\ (c = 32%N \/ c = 9%N)) \/
               (prefixb [32%N] (utf8 cs ++ nl ++ rest) = false /\ prefixb [9%N] (utf8 cs ++ nl ++ rest) = false)).
  { destruct cs as [|c cs']; [right; destruct Hnl as [-> | ->]; split; reflexivity|].
    destruct (N.eq_dec c 32) as [E1|E1]; [left; eauto|]. destruct (N.eq_dec c 9) as [E2|E2]; [left; eauto|]. right.
    inversion F; subst. cbn [utf8 flat_map]. rewrite <- app_assoc. split; apply first_byte_ne; auto; lia. }
  destruct Sp as [(c & cs' & -> & Hc)|[N1 N2]].
  - exists [c], cs'. inversion F as [|? ? Sc F']; subst.
    assert (Ec : encode c = [c]) by (destruct Hc as [-> | ->]; reflexivity).
    cbn [utf8 flat_map] in *. rewrite Ec in *. split; [reflexivity|]. split.
    + split; [exact F'|]. split; [intros X; apply NI; now right|]. destruct cs' as [|c2 cs'']; [cbn; discriminate|exact NL].
    + apply (Call (SMatch (p + 1) sg [])). destruct Hc as [-> | ->].
      * apply evals_choice_l. exact (str_yes w CompoundAtomic true (nm " ") p sg _ H).
      * apply evals_choice_r; [apply (str_no w CompoundAtomic true _ p sg _ H); reflexivity|]. exact (str_yes w CompoundAtomic true [9%N] p sg _ H).
  - exists [], cs. split; [reflexivity|]. split; [repeat split; assumption|]. cbn [List.length]. rewrite Nat.add_0_r. apply (Call SFail).
    apply evals_choice_r; [exact (str_no w CompoundAtomic true _ p sg _ H N1)|exact (str_no w CompoundAtomic true _ p sg _ H N2)].
Qed.

Lemma doc_reads s lead r d rest : rule_named (nm s) = Some (mk s RCompound (doc_body lead)) -> mrule_of_nat (rule_id G (nm s)) = r -> doc_line lead d ->
  exists b nl, d = lead ++ b ++ nl /\ (nl = [10%N] \/ nl = [13%N; 10%N]) /\
    reads (Rf s) (lead ++ b ++ nl ++ rest) (nl ++ rest) [SK r LNone [sk MInnerDoc]].
Proof.
  intros (PN & SP & FR)%rule_named_inv ID (cs & nl & -> & F & NI & NL & Hnl). exists (utf8 cs), nl. split; [reflexivity|]. split; [exact Hnl|]. rewrite app_assoc.
  apply reads_intro. intros p H. rewrite <- app_assoc in H. pose proof (at_app w p lead _ H) as H1.
  destruct (space_opt cs nl rest _ (conj F (conj NI NL)) Hnl H1) as (pre & cs2 & Eu & (F2 & NI2 & NL2) & Sp).
  rewrite Eu in *. rewrite <- app_assoc in H1. pose proof (at_app w _ pre _ H1) as H2.
  set (p2 := p + List.length lead + List.length pre) in *.
  replace (p + List.length (lead ++ pre ++ utf8 cs2)) with (p2 + List.length (utf8 cs2)) by (unfold p2; len). set (q := p2 + List.length (utf8 cs2)).
  exists [Node (rule_id G (nm s)) None p q [Node (mid MInnerDoc) None p2 q []]]. split.
  - eapply (call_node w NonAtomic true (nm s) _ CompoundAtomic p sg q [_] PN FR); [now rewrite SP|]. cbn [rexpr mk doc_body seql fold_left].
    apply (evals_seq_atomic G false _ w CompoundAtomic true _ _ p sg p2 sg [] (SMatch q sg [_]) eq_refl).
    + exact (evals_seq_atomic G false _ w CompoundAtomic true _ _ p sg _ sg [] (SMatch p2 sg []) eq_refl (str_yes w CompoundAtomic true lead p sg _ H) Sp).
    + eapply (call_token w CompoundAtomic true (nm "inner_doc") _ MInnerDoc (utf8 cs2) (nl ++ rest) p2 sg); [reflexivity..| |exact H2].
      apply takes_rep, lc_star; assumption.
  - apply (SM_node w (rule_id G (nm s)) r LNone [sk MInnerDoc] p q _ ID I). apply SM_leaf. reflexivity.
Qed.

Lemma doc_fails s lead l : rule_named (nm s) = Some (mk s RCompound (doc_body lead)) -> prefixb lead l = false -> fails (Rf s) l.
Proof.
  intros Q N. apply (fails_atomic s CompoundAtomic _ l Q ltac:(discriminate)). intros p H.
  cbn [doc_body seql fold_left]. do 2 apply evals_seq_fail. exact (str_no w CompoundAtomic true lead p sg l H N).
Qed.
End Lex.
