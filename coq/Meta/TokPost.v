(* C07 - tokenisation half: the names of the expression-level rules, the spellings of a postfix operator, and the four
   counted repetitions {n} {n,} {,n} {m,n}: what each reads and why it fails on the forms tried after it. *)
From Coq Require Import List Arith NArith ZArith Bool Lia String.
Import ListNotations.
Require Import PV.Comb.PState PV.Comb.Bytes PV.Comb.Utf8 PV.Iter.Queue PV.Peg.Ast PV.Peg.Spec PV.Peg.SpecFacts.
Require Import PV.Meta.Tokens PV.Meta.Unescape PV.Meta.Spell PV.Meta.LexProofs PV.Meta.Text PV.Meta.Proofs.
Require Import PV.Meta.PegRules PV.Meta.LexPeg PV.Meta.TokBase PV.Meta.TokLex.
Local Open Scope string_scope.
Local Open Scope list_scope.

Definition PREOP : expr := Rf "prefix_operator".
Definition POSTOP : expr := Rf "postfix_operator".
Definition INFIX : expr := Rf "infix_operator".
Definition TERM : expr := Rf "term".
Definition NODE : expr := Rf "node".
Definition EXPR : expr := Rf "expression".
Definition INFIXTERM : expr := ESeq INFIX TERM.

(* the spelling of a postfix operator and the token it becomes *)
Inductive post_text : skel -> list byte -> Prop :=
| pt_opt : post_text (sk MOptionalOperator) [63%N]
| pt_rep : post_text (sk MRepeatOperator) [42%N]
| pt_once : post_text (sk MRepeatOnceOperator) [43%N]
| pt_exact n nw g2 g3 : spells_num n nw -> gap g2 -> gap g3 ->
    post_text (sk_count MRepeatExact [sk MOpeningBrace; sk_num n; sk MClosingBrace]) ([123%N] ++ g2 ++ nw ++ g3 ++ [125%N])
| pt_min n nw g2 g3 g4 : spells_num n nw -> gap g2 -> gap g3 -> gap g4 ->
    post_text (sk_count MRepeatMin [sk MOpeningBrace; sk_num n; sk MComma; sk MClosingBrace]) ([123%N] ++ g2 ++ nw ++ g3 ++ [44%N] ++ g4 ++ [125%N])
| pt_max n nw g2 g3 g4 : spells_num n nw -> gap g2 -> gap g3 -> gap g4 ->
    post_text (sk_count MRepeatMax [sk MOpeningBrace; sk MComma; sk_num n; sk MClosingBrace]) ([123%N] ++ g2 ++ [44%N] ++ g3 ++ nw ++ g4 ++ [125%N])
| pt_min_max m n mw nw g2 g3 g4 g5 : spells_num m mw -> spells_num n nw -> gap g2 -> gap g3 -> gap g4 -> gap g5 ->
    post_text (sk_count MRepeatMinMax [sk MOpeningBrace; sk_num m; sk MComma; sk_num n; sk MClosingBrace])
              ([123%N] ++ g2 ++ mw ++ g3 ++ [44%N] ++ g4 ++ nw ++ g5 ++ [125%N]).

Section Post.
Variable w : list byte.
Variable sg : list str.
Notation G := meta_grammar.
Notation reads := (reads w sg).
Notation fails := (fails w sg).

Definition tnode (s : string) (p q : nat) : tree := Node (rule_id G (nm s)) None p q [].

Lemma tok_reads s c r l : rule_named (nm s) = Some (mk s RNormal (EStr [c])) ->
  mrule_of_nat (rule_id G (nm s)) = r -> reads (Rf s) (c :: l) l [sk r].
Proof. exact (reads_lit w sg s [c] r l). Qed.
Lemma tok_at s c r p l : rule_named (nm s) = Some (mk s RNormal (EStr [c])) ->
  mrule_of_nat (rule_id G (nm s)) = r -> at_ w p (c :: l) -> ok w sg (Rf s) p (p + 1) [tnode s p (p + 1)] /\ SM w [sk r] [tnode s p (p + 1)].
Proof.
  intros Q Hr H. split; [|now apply SM_leaf]. exact (call_normal w sg (nm s) _ p _ [] Q eq_refl (str_ok w sg [c] p l H)).
Qed.
Lemma tok_fails s c l : rule_named (nm s) = Some (mk s RNormal (EStr [c])) ->
  hd_ne c l -> fails (Rf s) l.
Proof. intros Q N. apply (fails_lit w sg s [c] l Q). now apply hd_ne_prefix. Qed.

Lemma digit_head n nw : spells_num n nw -> exists d r, nw = d :: r /\ digitb d = true.
Proof.
  intros S. destruct (spells_num_digits n nw S) as [NE F]. destruct nw as [|d r]; [congruence|]. inversion F as [|? ? [L D] _]; subst.
  exists d, r. auto.
Qed.
Lemma num_gap_end n nw l : spells_num n nw -> gap_end (nw ++ l).
Proof. intros S. destruct (digit_head n nw S) as (d & r & -> & D). apply gap_end_b.
  destruct (gapb d) eqn:E; [|reflexivity]. destruct (gapb_cases d E) as [->|[->|[->|[->| ->]]]]; discriminate D.
Qed.
Lemma num_hd_ne n nw l c : spells_num n nw -> digitb c = false -> hd_ne c (nw ++ l).
Proof. intros S Hc. destruct (digit_head n nw S) as (d & r & -> & D). cbn. intros ->. congruence. Qed.
Lemma fo125 l : follow digitb (125%N :: l). Proof. split; [reflexivity|reflexivity]. Qed.

(* ---- { number  and  { ,  : the two ways a count begins ---- *)
Definition OBNUM : expr := ESeq (Rf "opening_brace") (Rf "number").
Definition OBCOMMA : expr := ESeq (Rf "opening_brace") (Rf "comma").

Lemma ob_reads l : reads (Rf "opening_brace") (123%N :: l) l [sk MOpeningBrace].
Proof. now apply tok_reads. Qed.
Lemma cb_reads l : reads (Rf "closing_brace") (125%N :: l) l [sk MClosingBrace].
Proof. now apply tok_reads. Qed.
Lemma comma_reads l : reads (Rf "comma") (44%N :: l) l [sk MComma].
Proof. now apply tok_reads. Qed.

Lemma obnum_reads n nw g2 l : gap g2 -> spells_num n nw -> follow digitb l -> reads OBNUM (123%N :: g2 ++ nw ++ l) l [sk MOpeningBrace; sk_num n].
Proof. intros G2 S Fo. exact (reads_seq (ob_reads _) (gapped_intro g2 _ G2 (num_gap_end n nw l S)) (number_reads w sg n nw l S Fo)). Qed.
Lemma obnum_fails g2 l : gap g2 -> fails OBNUM (123%N :: g2 ++ 44%N :: l).
Proof. intros G2. exact (fails_seq2 (ob_reads _) (gapped_b g2 44%N l G2 eq_refl) (number_fails w sg (44%N :: l) (conj eq_refl eq_refl))). Qed.
Lemma obcomma_reads g2 l : gap g2 -> reads OBCOMMA (123%N :: g2 ++ 44%N :: l) l [sk MOpeningBrace; sk MComma].
Proof. intros G2. exact (reads_seq (ob_reads _) (gapped_b g2 44%N l G2 eq_refl) (comma_reads l)). Qed.
Lemma obcomma_fails g2 n nw l : gap g2 -> spells_num n nw -> fails OBCOMMA (123%N :: g2 ++ nw ++ l).
Proof.
  intros G2 S. apply (fails_seq2 (ob_reads _) (gapped_intro g2 _ G2 (num_gap_end n nw l S))).
  exact (tok_fails "comma" 44%N _ eq_refl (num_hd_ne n nw l 44%N S eq_refl)).
Qed.
Lemma obnumcomma_reads n nw g2 g3 l : gap g2 -> gap g3 -> spells_num n nw ->
  reads (ESeq OBNUM (Rf "comma")) (123%N :: g2 ++ nw ++ g3 ++ 44%N :: l) l [sk MOpeningBrace; sk_num n; sk MComma].
Proof.
  intros G2 G3 S. exact (reads_seq (obnum_reads n nw g2 _ G2 S (hard_follow_digit g3 44%N l G3 eq_refl)) (gapped_b g3 44%N l G3 eq_refl) (comma_reads l)).
Qed.

(* {n} *)
Lemma exact_reads n nw g2 g3 l : spells_num n nw -> gap g2 -> gap g3 ->
  reads (Rf "repeat_exact") (123%N :: g2 ++ nw ++ g3 ++ 125%N :: l) l [sk_count MRepeatExact [sk MOpeningBrace; sk_num n; sk MClosingBrace]].
Proof.
  intros S G2 G3. apply (reads_normal w sg "repeat_exact" _ MRepeatExact _ _ _ eq_refl eq_refl).
  exact (reads_seq (obnum_reads n nw g2 _ G2 S (hard_follow_digit g3 125%N l G3 eq_refl)) (gapped_b g3 125%N l G3 eq_refl) (cb_reads l)).
Qed.
Lemma exact_fails_comma2 n nw g2 g3 l : spells_num n nw -> gap g2 -> gap g3 -> fails (Rf "repeat_exact") (123%N :: g2 ++ nw ++ g3 ++ 44%N :: l).
Proof.
  intros S G2 G3. apply (fails_call w sg "repeat_exact" _ _ _ eq_refl (or_intror eq_refl)).
  apply (fails_seq2 (obnum_reads n nw g2 _ G2 S (hard_follow_digit g3 44%N l G3 eq_refl)) (gapped_b g3 44%N l G3 eq_refl)).
  apply (tok_fails "closing_brace" 125%N); try reflexivity. cbn. discriminate.
Qed.
Lemma exact_fails_comma1 g2 l : gap g2 -> fails (Rf "repeat_exact") (123%N :: g2 ++ 44%N :: l).
Proof. intros G2. apply (fails_call w sg "repeat_exact" _ _ _ eq_refl (or_intror eq_refl)). apply fails_seq1. exact (obnum_fails g2 l G2). Qed.

(* {n,} *)
Lemma min_reads n nw g2 g3 g4 l : spells_num n nw -> gap g2 -> gap g3 -> gap g4 ->
  reads (Rf "repeat_min") (123%N :: g2 ++ nw ++ g3 ++ 44%N :: g4 ++ 125%N :: l) l
        [sk_count MRepeatMin [sk MOpeningBrace; sk_num n; sk MComma; sk MClosingBrace]].
Proof.
  intros S G2 G3 G4. apply (reads_normal w sg "repeat_min" _ MRepeatMin _ _ _ eq_refl eq_refl).
  exact (reads_seq (obnumcomma_reads n nw g2 g3 _ G2 G3 S) (gapped_b g4 125%N l G4 eq_refl) (cb_reads l)).
Qed.
Lemma min_fails_num n nw m mw g2 g3 g4 l : spells_num n nw -> spells_num m mw -> gap g2 -> gap g3 -> gap g4 ->
  fails (Rf "repeat_min") (123%N :: g2 ++ nw ++ g3 ++ 44%N :: g4 ++ mw ++ l).
Proof.
  intros S S' G2 G3 G4. apply (fails_call w sg "repeat_min" _ _ _ eq_refl (or_intror eq_refl)).
  apply (fails_seq2 (obnumcomma_reads n nw g2 g3 _ G2 G3 S) (gapped_intro g4 _ G4 (num_gap_end m mw l S'))).
  exact (tok_fails "closing_brace" 125%N _ eq_refl (num_hd_ne m mw l 125%N S' eq_refl)).
Qed.
Lemma min_fails_comma1 g2 l : gap g2 -> fails (Rf "repeat_min") (123%N :: g2 ++ 44%N :: l).
Proof. intros G2. apply (fails_call w sg "repeat_min" _ _ _ eq_refl (or_intror eq_refl)). do 2 apply fails_seq1. exact (obnum_fails g2 l G2). Qed.

(* {,n} *)
Lemma max_reads n nw g2 g3 g4 l : spells_num n nw -> gap g2 -> gap g3 -> gap g4 ->
  reads (Rf "repeat_max") (123%N :: g2 ++ 44%N :: g3 ++ nw ++ g4 ++ 125%N :: l) l
        [sk_count MRepeatMax [sk MOpeningBrace; sk MComma; sk_num n; sk MClosingBrace]].
Proof.
  intros S G2 G3 G4. apply (reads_normal w sg "repeat_max" _ MRepeatMax _ _ _ eq_refl eq_refl).
  exact (reads_seq (reads_seq (obcomma_reads g2 _ G2) (gapped_intro g3 _ G3 (num_gap_end n nw _ S))
                              (number_reads w sg n nw _ S (hard_follow_digit g4 125%N l G4 eq_refl)))
                   (gapped_b g4 125%N l G4 eq_refl) (cb_reads l)).
Qed.
Lemma max_fails_num1 n nw g2 l : spells_num n nw -> gap g2 -> fails (Rf "repeat_max") (123%N :: g2 ++ nw ++ l).
Proof. intros S G2. apply (fails_call w sg "repeat_max" _ _ _ eq_refl (or_intror eq_refl)). do 2 apply fails_seq1. exact (obcomma_fails g2 n nw l G2 S). Qed.

(* {m,n} *)
Lemma min_max_reads m mw n nw g2 g3 g4 g5 l : spells_num m mw -> spells_num n nw -> gap g2 -> gap g3 -> gap g4 -> gap g5 ->
  reads (Rf "repeat_min_max") (123%N :: g2 ++ mw ++ g3 ++ 44%N :: g4 ++ nw ++ g5 ++ 125%N :: l) l
        [sk_count MRepeatMinMax [sk MOpeningBrace; sk_num m; sk MComma; sk_num n; sk MClosingBrace]].
Proof.
  intros Sm Sn G2 G3 G4 G5. apply (reads_normal w sg "repeat_min_max" _ MRepeatMinMax _ _ _ eq_refl eq_refl).
  exact (reads_seq (reads_seq (obnumcomma_reads m mw g2 g3 _ G2 G3 Sm) (gapped_intro g4 _ G4 (num_gap_end n nw _ Sn))
                              (number_reads w sg n nw _ Sn (hard_follow_digit g5 125%N l G5 eq_refl)))
                   (gapped_b g5 125%N l G5 eq_refl) (cb_reads l)).
Qed.

Lemma counts_fail l : hd_ne 123%N l ->
  fails (Rf "repeat_exact") l /\ fails (Rf "repeat_min") l /\ fails (Rf "repeat_max") l /\ fails (Rf "repeat_min_max") l.
Proof.
  intros N. pose proof (tok_fails "opening_brace" 123%N l eq_refl N) as X. repeat split.
  - apply (fails_call w sg "repeat_exact" _ _ _ eq_refl (or_intror eq_refl)). now repeat apply fails_seq1.
  - apply (fails_call w sg "repeat_min" _ _ _ eq_refl (or_intror eq_refl)). now repeat apply fails_seq1.
  - apply (fails_call w sg "repeat_max" _ _ _ eq_refl (or_intror eq_refl)). now repeat apply fails_seq1.
  - apply (fails_call w sg "repeat_min_max" _ _ _ eq_refl (or_intror eq_refl)). now repeat apply fails_seq1.
Qed.
End Post.
