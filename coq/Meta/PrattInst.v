(* C07 - the PrattParser instance of the grammar reader, through C13.
   meta_table = PrattParser::new().op(infix(choice, Left)).op(infix(sequence, Left)) : `|` at level 20, `~` at level 30.
   Canonical trees: [seqt] = term (~ term)* grouped to the left; [chot] = seqt (| seqt)* grouped to the left.
   Theorem [pratt_canonical]: the model of PrattParser::parse (with only map_primary / map_infix supplied)
   on the in-order token sequence of a canonical tree returns exactly that tree and consumes everything.
   Proof: C13's theorem (pratt = shunting-yard, total on well-formed sequences) + a run of the
   shunting-yard specification on canonical trees. *)
From Coq Require Import List Arith Bool Lia.
Import ListNotations.
Require Import PV.Pratt.Syntax PV.Pratt.Model PV.Pratt.Shunt PV.Pratt.Proofs.
Require Import PV.Meta.Tokens.
Require PV.Meta.Consume.

Definition SEQ : rule := mid MSequenceOperator.
Definition CHO : rule := mid MChoiceOperator.
Notation meta_table := PV.Meta.Consume.meta_table.
Notation meta_maps := PV.Meta.Consume.meta_maps.

Lemma meta_table_spec r :
  meta_table r = if Nat.eqb SEQ r then Some (Infix ALeft, 30) else if Nat.eqb CHO r then Some (Infix ALeft, 20) else None.
Proof. reflexivity. Qed.
Lemma meta_table_seq : meta_table SEQ = Some (Infix ALeft, 30). Proof. reflexivity. Qed.
Lemma meta_table_cho : meta_table CHO = Some (Infix ALeft, 20). Proof. reflexivity. Qed.

Lemma meta_table_pos : table_pos meta_table.
Proof. intros r af p. rewrite meta_table_spec. repeat destruct (Nat.eqb _ r); intros H; inversion H; lia. Qed.
Lemma meta_table_infix : infix_only meta_table.
Proof. intros r af p. rewrite meta_table_spec. repeat destruct (Nat.eqb _ r); intros H; inversion H; eauto. Qed.

Section Canon.
Variable A : Type.
Notation tok := (tok A).
Notation tree := (tree A).

Definition prim (a : tok) : Prop := meta_table (fst a) = None.

Inductive seqt : tree -> Prop :=
| seqt_leaf a : prim a -> seqt (Leaf a)
| seqt_bin l o a : seqt l -> fst o = SEQ -> prim a -> seqt (Bin l o (Leaf a)).
Inductive chot : tree -> Prop :=
| chot_seq t : seqt t -> chot t
| chot_bin l o r : chot l -> fst o = CHO -> seqt r -> chot (Bin l o r).

Lemma stops_weaken (p q : prec) (rest : list tok) : p <= q -> stops meta_table p rest -> stops meta_table q rest.
Proof. intros L. destruct rest as [|a r]; [auto|]. intros (af & x & G & Lx). exists af, x. split; [exact G|lia]. Qed.
Lemma blocks_weaken (p q : prec) (ops : list (sop A)) : p <= q -> blocks ops p -> blocks ops q.
Proof. intros L. destruct ops as [|s ops]; [auto|]. intros B lp H. apply B. lia. Qed.

Lemma sy_seqt t : seqt t -> forall ops out rest, blocks ops 20 -> stops meta_table 30 rest ->
  sy meta_table true ops out (yield t ++ rest) = sy meta_table false ops (t :: out) rest.
Proof.
  induction 1 as [a Pa|l o a Sl IH Ho Pa]; intros ops out rest B St.
  - cbn [yield app sy]. unfold prim in Pa. rewrite Pa. reflexivity.
  - cbn [yield]. rewrite <- !app_assoc. cbn [app].
    rewrite IH; [|exact B|exists (Infix ALeft), 30; rewrite Ho; split; [reflexivity|lia]].
    cbn [sy]. rewrite Ho, meta_table_seq.
    rewrite (@reduce_while_blocked A 30 ops (l :: out) 20 B) by lia.
    cbn [sy]. unfold prim in Pa. rewrite Pa.
    apply (@sy_reduce_step A meta_table (SInf o ALeft 30) ops (Leaf a :: l :: out) (Bin l o (Leaf a) :: out) 30 rest St).
    + intros lp Hl. cbn [reduces]. apply Nat.leb_le. exact Hl.
    + reflexivity.
Qed.

Lemma sy_chot t : chot t -> forall ops out rest, blocks ops 0 -> stops meta_table 20 rest ->
  sy meta_table true ops out (yield t ++ rest) = sy meta_table false ops (t :: out) rest.
Proof.
  induction 1 as [t St|l o r Cl IH Ho Sr]; intros ops out rest B Stp.
  - apply sy_seqt; [exact St|eapply blocks_weaken; [|exact B]; lia|eapply stops_weaken; [|exact Stp]; lia].
  - cbn [yield]. rewrite <- !app_assoc. cbn [app].
    rewrite IH; [|exact B|exists (Infix ALeft), 20; rewrite Ho; split; [reflexivity|lia]].
    cbn [sy]. rewrite Ho, meta_table_cho.
    rewrite (@reduce_while_blocked A 20 ops (l :: out) 0 B) by lia.
    rewrite (sy_seqt r Sr).
    + apply (@sy_reduce_step A meta_table (SInf o ALeft 20) ops (r :: l :: out) (Bin l o r :: out) 20 rest Stp).
      * intros lp Hl. cbn [reduces]. apply Nat.leb_le. exact Hl.
      * reflexivity.
    + cbn [blocks reduces]. intros lp Hl. apply Nat.leb_gt. exact Hl.
    + eapply stops_weaken; [|exact Stp]. lia.
Qed.

Lemma wf_seqt t : seqt t -> forall rest, wf meta_table true (yield t ++ rest) = wf meta_table false rest.
Proof.
  induction 1 as [a Pa|l o a Sl IH Ho Pa]; intros rest.
  - cbn [yield app wf]. unfold prim in Pa. now rewrite Pa.
  - cbn [yield]. rewrite <- !app_assoc. cbn [app]. rewrite IH. cbn [wf]. rewrite Ho, meta_table_seq.
    unfold prim in Pa. now rewrite Pa.
Qed.
Lemma wf_chot t : chot t -> forall rest, wf meta_table true (yield t ++ rest) = wf meta_table false rest.
Proof.
  induction 1 as [t St|l o r Cl IH Ho Sr]; intros rest.
  - now apply wf_seqt.
  - cbn [yield]. rewrite <- !app_assoc. cbn [app]. rewrite IH. cbn [wf]. rewrite Ho, meta_table_cho. now apply wf_seqt.
Qed.

Theorem pratt_canonical t : chot t -> pratt_parse meta_maps meta_table (yield t) = Ok t [].
Proof.
  intros C.
  rewrite (@pratt_parse_maps A meta_table meta_table_infix meta_maps all_maps eq_refl).
  assert (W : well_formed meta_table (yield t) = true).
  { unfold well_formed. rewrite <- (app_nil_r (yield t)), (wf_chot t C). reflexivity. }
  destruct (@pratt_correct A all_maps meta_table meta_table_pos eq_refl (yield t) W) as (t' & E & _ & S).
  rewrite E. f_equal.
  unfold shunt in S. rewrite <- (app_nil_r (yield t)), (sy_chot t C) in S by (cbn; auto).
  cbn in S. now inversion S.
Qed.
End Canon.
