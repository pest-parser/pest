(* C07 - assembling the statements of coq/props/C07.v. *)
From Coq Require Import List Arith NArith ZArith Bool String Lia.
Import ListNotations.
Require Import PV.Comb.PState PV.Comb.Bytes PV.Comb.Utf8 PV.Iter.Queue PV.Peg.Ast PV.Peg.Spec PV.Peg.SpecFacts.
Require Import PV.Meta.Tokens PV.Meta.Unescape PV.Meta.Consume PV.Meta.Spell PV.Meta.Text PV.Meta.LexProofs PV.Meta.Proofs.
Local Open Scope string_scope.
Local Open Scope list_scope.

(* reading succeeds with every sufficiently large fuel (fuel is a device of the Spec interpreter) *)
Definition reads (fx : fixes) (extras : bool) (text : list byte) (G : grammar) : Prop :=
  exists f0, forall f, f0 <= f -> read fx extras text f = COk G.

(* the first half of the reader: grammar.pest under the documented PEG semantics tokenises a spelling of cg
   as tokens_of_grammar cg, each leaf covering the lexeme it was written with *)
Definition tokenises (text : list byte) (cg : cgrammar) : Prop :=
  exists f0, forall f, f0 <= f -> exists p sg forest,
    spec_parse meta_grammar false (fun _ => None) text f (nm "grammar_rules") = SMatch p sg forest /\
    smatch_list false text (tokens_of_grammar cg) (map of_tree forest).

Lemma read_stable fx extras w f r : read fx extras w f = r -> r <> CFuel -> forall f', f <= f' -> read fx extras w f' = r.
Proof.
  unfold read, spec_parse. intros H N f' L.
  destruct (eval meta_grammar false (fun _ => None) w f NonAtomic true (EIdent (nm "grammar_rules")) 0 []) as [p sg fo| |] eqn:E;
    [| |subst r; congruence];
    (rewrite (eval_mono meta_grammar false (fun _ => None) w f f' L _ _ _ _ _ _ E); [exact H|discriminate]).
Qed.

(* second half + first half = the whole reader *)
Lemma reads_spelling fx extras text cg : Forall (goodr fx extras) (cg_rules cg) ->
  (exists f0, forall f, f0 <= f -> exists p sg forest,
     spec_parse meta_grammar false (fun _ => None) text f (nm "grammar_rules") = SMatch p sg forest /\
     smatch_list (negb (fix_insens fx)) text (tokens_of_grammar cg) (map of_tree forest)) ->
  reads fx extras text (abs_grammar cg).
Proof.
  intros F (f0 & H). exists f0. intros f L. destruct (H f L) as (p & sg & forest & E & M).
  unfold read. rewrite E. now apply consume_spelling.
Qed.

Theorem reduction extras G text :
  (forall cg, prints_grammar cg text -> valid_utf8 text ->
     Forall (fun r => wp (cr_body r) = true /\ writable extras (cr_body r) = true /\ ident_ok (cr_name r) = true) (cg_rules cg) ->
     tokenises text cg) ->
  spells_grammar extras G text -> reads repaired extras text G.
Proof.
  intros T (cg & <- & P & V & F). apply reads_spelling; [|exact (T cg P V F)].
  eapply Forall_impl; [|exact F]. intros r (W & Wr & _). repeat split; auto. discriminate.
Qed.

(* the same for the code as shipped, for spellings outside the two known classes *)
Theorem reduction_shipped extras G text cg :
  abs_grammar cg = G ->
  Forall (fun r => wp (cr_body r) = true /\ writable extras (cr_body r) = true /\ nested_bar (cr_body r) = false) (cg_rules cg) ->
  (exists f0, forall f, f0 <= f -> exists p sg forest,
     spec_parse meta_grammar false (fun _ => None) text f (nm "grammar_rules") = SMatch p sg forest /\
     smatch_list true text (tokens_of_grammar cg) (map of_tree forest)) ->
  reads shipped extras text G.
Proof.
  intros <- F T. apply reads_spelling; [|exact T].
  eapply Forall_impl; [|exact F]. intros r (W & Wr & NB). repeat split; auto.
Qed.

Lemma gap1 : gap [32%N].
Proof. apply (gap_white [32%N] [] w_space gap_nil). Qed.

Definition ascii_valid (l : list byte) : Prop := Forall (fun b => (b < 128)%N) l.
Lemma ascii_valid_utf8 l : ascii_valid l -> valid_utf8 l.
Proof.
  intros H. exists l. split.
  - eapply Forall_impl; [|exact H]. intros b Hb. cbv beta in Hb. unfold scalar. lia.
  - induction H as [|b l Hb _ IH]; [reflexivity|]. cbn [flat_map]. rewrite <- IH. unfold encode.
    apply N.ltb_lt in Hb. now rewrite Hb.
Qed.

Definition one_rule (body : cexpr) : cgrammar :=
  {| cg_docs := 0; cg_rules := [ {| cr_docs := 0; cr_name := nm "a"; cr_ty := RNormal; cr_bar := false; cr_body := body |} ]; cg_trailing := 0 |}.

(* a = { <body text> }  with single blanks *)
Lemma spells_one_rule extras body bw :
  prints body bw -> wp body = true -> writable extras body = true -> ascii_valid bw ->
  spells_grammar extras (abs_grammar (one_rule body)) (nm "a = { " ++ bw ++ nm " }").
Proof.
  intros P W Wr A. exists (one_rule body). split; [reflexivity|]. split; [|split].
  - exists [], [], (nm "a = { " ++ bw ++ nm " }"), []. split; [now rewrite app_nil_r|]. split; [constructor|].
    split; [constructor|]. split; [|constructor].
    rewrite <- (app_nil_r (nm "a = { " ++ bw ++ nm " }")). apply prs_cons; [|constructor].
    exact (pr_intro {| cr_docs := 0; cr_name := nm "a"; cr_ty := RNormal; cr_bar := false; cr_body := body |}
             [] bw [32%N] [32%N] [] [32%N] [32%N] [] [] (pd_nil _) P gap1 gap1 gap_nil gap1 gap1 gap_nil gap_nil (fun _ => eq_refl)).
  - apply ascii_valid_utf8. apply Forall_app. split; [repeat constructor; lia|]. apply Forall_app. split; [exact A|repeat constructor; lia].
  - repeat constructor; auto.
Qed.

Lemma not_reads fx extras text G f r : read fx extras text f = r -> r <> CFuel -> r <> COk G -> ~ reads fx extras text G.
Proof.
  intros E N D (f0 & H). specialize (H (Nat.max f0 f) (Nat.le_max_l _ _)).
  rewrite (read_stable fx extras text f r E N _ (Nat.le_max_r _ _)) in H. now apply D.
Qed.
Lemma reads_from fx extras text G f : read fx extras text f = COk G -> reads fx extras text G.
Proof. intros E. exists f. intros f' L. apply (read_stable fx extras text f _ E); [discriminate|exact L]. Qed.

(* the meta-grammar is run once on the text: the two states of the reader then differ in [consume] only *)
Lemma deviation extras text G f r p sg fo :
  spec_parse meta_grammar false (fun _ => None) text f (nm "grammar_rules") = SMatch p sg fo ->
  consume shipped extras text (map of_tree fo) = r -> r <> CFuel -> r <> COk G ->
  consume repaired extras text (map of_tree fo) = COk G ->
  read shipped extras text f = r /\ ~ reads shipped extras text G /\ reads repaired extras text G.
Proof.
  intros P E N D R. assert (E' : read shipped extras text f = r) by (unfold read; now rewrite P).
  split; [exact E'|]. split; [exact (not_reads _ _ _ _ _ _ E' N D)|]. apply (reads_from _ _ _ _ f). unfold read. now rewrite P.
Qed.

Definition w1_body : cexpr := CInsens [98%N].
Definition w1_text : list byte := nm "a = { ^ ""b"" }".
Lemma w1_spells : spells_grammar false (abs_grammar (one_rule w1_body)) w1_text.
Proof.
  apply (spells_one_rule false w1_body (nm "^ ""b""")); try reflexivity; [|repeat constructor; lia].
  apply (p_insens [98%N] [98%N] [32%N]); [|exact gap1].
  apply (ss_cons 34%N 98%N [] [98%N] []); [|constructor].
  apply (sc_raw 34%N 98%N); [left; lia|discriminate|discriminate].
Qed.
Theorem insens_space_witness :
  spells_grammar false (abs_grammar (one_rule w1_body)) w1_text /\
  read shipped false w1_text 200 = COk [ {| rname := nm "a"; rty := RNormal; rexpr := EInsens (nm """b") |} ] /\
  ~ reads shipped false w1_text (abs_grammar (one_rule w1_body)) /\
  reads repaired false w1_text (abs_grammar (one_rule w1_body)).
Proof.
  split; [exact w1_spells|]. eapply deviation.
  - vm_compute. reflexivity.
  - vm_compute. reflexivity.
  - discriminate.
  - vm_compute. discriminate.
  - vm_compute. reflexivity.
Qed.

Definition w2_body : cexpr := CParen true (CChoice (CIdent (nm "b")) (CIdent (nm "c"))).
Definition w2_text : list byte := nm "a = { (| b | c) }".
Lemma w2_spells : spells_grammar false (abs_grammar (one_rule w2_body)) w2_text.
Proof.
  apply (spells_one_rule false w2_body (nm "(| b | c)")); try reflexivity; [|repeat constructor; lia].
  apply (p_paren true _ (nm "b | c") [] [] [32%N]); [|constructor|constructor|exact gap1].
  apply (p_choice (CIdent (nm "b")) (CIdent (nm "c")) (nm "b") (nm "c") [32%N] [32%N]); try exact gap1; constructor.
Qed.
Theorem nested_leading_bar_witness :
  spells_grammar false (abs_grammar (one_rule w2_body)) w2_text /\
  read shipped false w2_text 200 = CPanic /\
  ~ reads shipped false w2_text (abs_grammar (one_rule w2_body)) /\
  reads repaired false w2_text (abs_grammar (one_rule w2_body)).
Proof.
  split; [exact w2_spells|]. eapply deviation.
  - vm_compute. reflexivity.
  - vm_compute. reflexivity.
  - discriminate.
  - discriminate.
  - vm_compute. reflexivity.
Qed.
