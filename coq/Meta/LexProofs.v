(* C07 - facts about the lexical layer of the reader: number parsing and unescape are left inverses
   of the spellings of Spell.v (positional numerals with leading zeros, every escape form). *)
From Coq Require Import List Arith NArith ZArith Bool Lia.
Import ListNotations.
Require Import PV.Comb.PState PV.Comb.Bytes PV.Comb.Utf8 PV.Peg.Ast.
Require Import PV.Meta.Tokens PV.Meta.Unescape PV.Meta.Spell.
Local Open Scope N_scope.

Lemma decval_bound b d : decval b = Some d -> d < 10 /\ 48 <= b <= 57.
Proof. unfold decval. destruct ((48 <=? b) && (b <=? 57)) eqn:E; [|discriminate]. intros H; inversion H; subst. lia. Qed.
Lemma hexval_bound b d : hexval b = Some d -> d < 16 /\ (48 <= b <= 57 \/ 97 <= b <= 102 \/ 65 <= b <= 70).
Proof.
  unfold hexval. destruct ((48 <=? b) && (b <=? 57)) eqn:E1; [intros H; inversion H; subst; lia|].
  destruct ((97 <=? b) && (b <=? 102)) eqn:E2; [intros H; inversion H; subst; lia|].
  destruct ((65 <=? b) && (b <=? 70)) eqn:E3; [intros H; inversion H; subst; lia|]. discriminate.
Qed.

Lemma digits_val_snoc radix dv l b acc :
  digits_val radix dv (l ++ [b]) acc =
  match digits_val radix dv l acc with
  | Some v => match dv b with Some d => Some (v * radix + d) | None => None end
  | None => None
  end.
Proof.
  revert acc. induction l as [|x l IH]; intros acc; cbn [app digits_val].
  - destruct (dv b); reflexivity.
  - destruct (dv x); [apply IH|reflexivity].
Qed.

Lemma spells_nat_val radix dv n l : spells_nat radix dv n l -> digits_val radix dv l 0 = Some n.
Proof.
  intros S. induction S as [b d H|n l b d S IH H].
  - cbn. rewrite H. reflexivity.
  - rewrite digits_val_snoc, IH, H. f_equal. lia.
Qed.
Lemma spells_nat_head radix dv n l : spells_nat radix dv n l -> exists b d r, l = b :: r /\ dv b = Some d.
Proof.
  intros S. induction S as [b d H|n l b d S (b0 & d0 & r & -> & H0) H].
  - now exists b, d, [].
  - now exists b0, d0, (r ++ [b]).
Qed.
Lemma spells_nat_all radix dv n l : spells_nat radix dv n l -> Forall (fun b => exists d, dv b = Some d) l.
Proof.
  intros S. induction S as [b d H|n l b d S IH H].
  - constructor; eauto.
  - apply Forall_app. split; [exact IH|]. constructor; eauto.
Qed.

Lemma parse_unsigned_spelled radix dv max n l :
  (forall d, dv 43 = Some d -> False) -> spells_nat radix dv n l -> n <= max -> parse_unsigned radix dv max l = Some n.
Proof.
  intros P S L. destruct (spells_nat_head _ _ _ _ S) as (b & d & r & -> & Hb).
  unfold parse_unsigned.
  assert (Hne : b <> 43) by (intros ->; eauto).
  assert (E : match b :: r with 43 :: r0 => r0 | _ => b :: r end = b :: r).
  { destruct b as [|p]; [reflexivity|]. do 6 (destruct p as [p|p|]; try reflexivity). exfalso. now apply Hne. }
  rewrite E, (spells_nat_val _ _ _ _ S). apply N.leb_le in L. now rewrite L.
Qed.

Lemma dec_no_plus d : decval 43 = Some d -> False. Proof. cbv. discriminate. Qed.
Lemma hex_no_plus d : hexval 43 = Some d -> False. Proof. cbv. discriminate. Qed.

Theorem parse_u32_spelled n l : spells_num n l -> n <= u32_max -> parse_u32 l = Some n.
Proof. intros. apply parse_unsigned_spelled; auto. exact dec_no_plus. Qed.

Theorem parse_i32_spelled z l : spells_int z l -> i32_ok z = true -> parse_i32 l = Some z.
Proof.
  unfold i32_ok, parse_i32. intros [[Hz S]|[Hz (l' & -> & S)]] B; apply andb_prop in B; destruct B as [B1 B2];
    apply Z.leb_le in B1, B2.
  - destruct (spells_nat_head _ _ _ _ S) as (b & d & r & -> & Hb). destruct (decval_bound _ _ Hb) as [_ Rb].
    assert (E : parse_signed 10 decval i32_max (b :: r) =
                match parse_unsigned 10 decval i32_max (b :: r) with Some v => Some (Z.of_N v) | None => None end).
    { unfold parse_signed. destruct b as [|p]; [reflexivity|]. do 6 (destruct p as [p|p|]; try reflexivity). lia. }
    rewrite E, (parse_unsigned_spelled 10 decval i32_max (Z.to_N z) (b :: r) dec_no_plus S); [|unfold i32_max in *; lia].
    f_equal. lia.
  - destruct (spells_nat_head _ _ _ _ S) as (b & d & r & -> & Hb).
    unfold parse_signed. rewrite (spells_nat_val _ _ _ _ S).
    assert (L : (Z.to_N (- z) <=? i32_max + 1) = true) by (apply N.leb_le; unfold i32_max in *; lia).
    rewrite L. f_equal. lia.
Qed.

Lemma prepend_app x y r : prepend x (prepend y r) = prepend (x ++ y) r.
Proof. destruct r; cbn; [now rewrite app_assoc|reflexivity]. Qed.
Lemma prepend_nil r : prepend [] r = r.
Proof. now destruct r. Qed.

Lemma unesc_copy l rest : Forall (fun b => b <> 92) l -> unesc (l ++ rest) None = prepend l (unesc rest None).
Proof.
  induction 1 as [|b l Hb _ IH]; [now rewrite prepend_nil|].
  cbn [app unesc]. apply N.eqb_neq in Hb. rewrite Hb, IH. now rewrite prepend_app.
Qed.

Lemma encode_no_backslash c : c <> 92 -> Forall (fun b => b <> 92) (encode c).
Proof.
  intros H. unfold encode.
  destruct (c <? 128) eqn:E1; [repeat constructor; exact H|].
  destruct (c <? 2048) eqn:E2; [repeat constructor; lia|].
  destruct (c <? 65536) eqn:E3; repeat constructor; lia.
Qed.

Lemma unesc_in_unicode ds rest acc : Forall (fun b => b <> 125) ds ->
  unesc (ds ++ 125 :: rest) (Some acc) =
  match unicode_escape (acc ++ ds) with Some x => prepend x (unesc rest None) | None => None end.
Proof.
  intros H. revert acc. induction H as [|b ds Hb _ IH]; intros acc.
  - cbn [app unesc]. rewrite app_nil_r. reflexivity.
  - cbn [app unesc]. apply N.eqb_neq in Hb. rewrite Hb, IH, <- app_assoc. reflexivity.
Qed.

Lemma unesc_named b rest : unesc (92 :: b :: rest) None =
  match named_escape b with
  | Some c => prepend [c] (unesc rest None)
  | None =>
    if b =? 120 then
      match rest with
      | h1 :: h2 :: r3 => if (h1 <? 128) && (h2 <? 128) then
                            match parse_hex_u8 [h1; h2] with Some v => prepend (encode v) (unesc r3 None) | None => None end
                          else None
      | _ => None
      end
    else if b =? 117 then match rest with 123 :: r3 => unesc r3 (Some []) | _ => None end
    else None
  end.
Proof.
  cbn [unesc]. replace (92 =? 92) with true by reflexivity. unfold named_escape.
  repeat (destruct (b =? _); [reflexivity|]). reflexivity.
Qed.

Lemma named_not_x b c : named_escape b = Some c -> True. Proof. trivial. Qed.

Lemma spells_hex_two c h1 h2 : spells_hex c [h1; h2] -> parse_hex_u8 [h1; h2] = Some c /\ h1 < 128 /\ h2 < 128.
Proof.
  intros S. pose proof (spells_nat_all _ _ _ _ S) as A. inversion A as [|? ? (d1 & H1) A2]; subst. inversion A2 as [|? ? (d2 & H2) _]; subst.
  destruct (hexval_bound _ _ H1) as [B1 R1]. destruct (hexval_bound _ _ H2) as [B2 R2].
  pose proof (spells_nat_val _ _ _ _ S) as V. cbn in V. rewrite H1, H2 in V. inversion V; subst.
  split; [|lia].
  unfold parse_hex_u8. apply parse_unsigned_spelled; [exact hex_no_plus|exact S|lia].
Qed.

Lemma unesc_char q c w1 rest : spells_char q c w1 -> unesc (w1 ++ rest) None = prepend (encode c) (unesc rest None).
Proof.
  intros S. destruct S as [c Sc Hb Hq|c b Hn|c h1 h2 Hh|c ds Sc Hh Hl].
  - apply unesc_copy. now apply encode_no_backslash.
  - cbn [app]. rewrite unesc_named, Hn.
    assert (encode c = [c]) as ->; [|reflexivity].
    unfold named_escape in Hn. repeat (destruct (b =? _); [inversion Hn; reflexivity|]). discriminate.
  - cbn [app]. rewrite unesc_named. replace (named_escape 120) with (@None N) by reflexivity.
    replace (120 =? 120) with true by reflexivity. cbv beta iota.
    destruct (spells_hex_two _ _ _ Hh) as (P & L1 & L2). apply N.ltb_lt in L1, L2. unfold byte in *. rewrite L1, L2, P. reflexivity.
  - rewrite <- !app_assoc. cbn [app]. rewrite unesc_named. replace (named_escape 117) with (@None N) by reflexivity.
    replace (117 =? 120) with false by reflexivity. replace (117 =? 117) with true by reflexivity. cbv beta iota.
    rewrite unesc_in_unicode.
    + cbn [app]. unfold unicode_escape.
      assert (L : ((length ds <? 2)%nat || (6 <? length ds)%nat) = false).
      { apply orb_false_iff. split; apply Nat.ltb_ge; lia. }
      rewrite L. unfold parse_hex_u32.
      rewrite (parse_unsigned_spelled 16 hexval u32_max c ds hex_no_plus Hh).
      * unfold push_char. apply scalarb_spec in Sc. now rewrite Sc.
      * apply scalar_lt in Sc. unfold u32_max. lia.
    + eapply Forall_impl; [|exact (spells_nat_all _ _ _ _ Hh)]. intros b (d & Hd) ->. cbv in Hd. discriminate.
Qed.

Theorem unesc_string q cs w rest : spells_string q cs w -> unesc (w ++ rest) None = prepend (utf8 cs) (unesc rest None).
Proof.
  induction 1 as [|c cs w1 w2 Hc _ IH]; [now rewrite prepend_nil|].
  rewrite <- app_assoc, (unesc_char q c w1 (w2 ++ rest) Hc), IH, prepend_app. reflexivity.
Qed.

(* unescape is a left inverse of every spelling *)
Theorem unescape_spelled q cs w : spells_string q cs w -> unescape w = Some (utf8 cs).
Proof.
  intros S. unfold unescape. rewrite <- (app_nil_r w), (unesc_string q cs w [] S). cbn. now rewrite app_nil_r.
Qed.

Local Close Scope N_scope.

Lemma scalars_spec cs : scalars cs = true -> Forall scalar cs.
Proof.
  unfold scalars. rewrite forallb_forall, Forall_forall. intros H c Hc. apply scalarb_spec. now apply H.
Qed.
Lemma utf8_valid cs : scalars cs = true -> valid_utf8 (utf8 cs).
Proof. intros H. exists cs. split; [now apply scalars_spec|reflexivity]. Qed.

Lemma nth_first_not_cont s (q : byte) : valid_utf8 s -> is_cont q = false -> is_cont (nth 0 (s ++ [q]) 0%N) = false.
Proof.
  intros V Q. destruct s as [|b r]; [exact Q|]. cbn. apply (valid_first_not_cont (b :: r) V). discriminate.
Qed.

(* `&s[a..s.len() - 1]` where s = pre ++ mid ++ [q] and a = |pre| *)
Lemma str_slice_mid (pre : list byte) (q : byte) s : is_cont q = false -> valid_utf8 s ->
  str_slice (pre ++ s ++ [q]) (length pre) = Some s.
Proof.
  intros Q V. unfold str_slice. rewrite !app_length. cbn [length].
  replace (length pre + (length s + 1)) with (S (length pre + length s)) by lia.
  assert (B1 : boundaryb (pre ++ s ++ [q]) (length pre) = true).
  { rewrite boundaryb_app_ge, Nat.sub_diag by lia. apply boundaryb_spec. right. rewrite app_length. cbn [length]. split; [lia|].
    now apply nth_first_not_cont. }
  assert (B2 : boundaryb (pre ++ s ++ [q]) (length pre + length s) = true).
  { rewrite app_assoc, <- app_length, boundaryb_app_ge, Nat.sub_diag by lia. apply boundaryb_spec. right. split; [cbn; lia|exact Q]. }
  rewrite B1, B2. replace (length pre <=? length pre + length s) with true by (symmetry; apply Nat.leb_le; lia).
  cbn [andb]. rewrite skipn_app, skipn_all, Nat.sub_diag, skipn_O. cbn [app]. f_equal.
  replace (length pre + length s - length pre) with (length s + 0) by lia. rewrite firstn_app_2. cbn. apply app_nil_r.
Qed.
Lemma str_slice_quoted (q : byte) s : is_cont q = false -> valid_utf8 s -> str_slice (q :: s ++ [q]) 1 = Some s.
Proof. exact (str_slice_mid [q] q s). Qed.
Lemma str_slice_insens s : valid_utf8 s -> str_slice (94%N :: 34%N :: s ++ [34%N]) 2 = Some s.
Proof. exact (str_slice_mid [94%N; 34%N] 34%N s eq_refl). Qed.

Lemma ident_start_ascii b : ident_start b = true -> is_cont b = false.
Proof.
  unfold ident_start, is_cont. intros H.
  destruct (N.leb_spec 128 b); [|reflexivity]. destruct (N.ltb_spec b 192); [|reflexivity].
  exfalso. repeat (apply orb_prop in H; destruct H as [H|H]); try (apply andb_prop in H; destruct H as [H1 H2]);
    try apply N.eqb_eq in H; try apply N.leb_le in H1; try apply N.leb_le in H2; lia.
Qed.

Lemma str_from1_tag t : tag_ok t = true -> str_from1 (35%N :: t) = Some t.
Proof.
  intros H. unfold str_from1. cbn [length].
  assert (B : boundaryb (35%N :: t) 1 = true).
  { apply boundaryb_spec. destruct t as [|b r]; [discriminate|]. right. cbn [length]. split; [lia|].
    cbn [nth]. cbn in H. apply andb_prop in H. now apply ident_start_ascii. }
  rewrite B. reflexivity.
Qed.

Lemma unescape_wrapped (pre : list byte) (q : byte) ew x : Forall (fun b => b <> 92%N) pre -> q <> 92%N ->
  (forall rest, unesc (ew ++ rest) None = prepend x (unesc rest None)) -> unescape (pre ++ ew ++ [q]) = Some (pre ++ x ++ [q]).
Proof.
  intros P Hq E. unfold unescape. rewrite (unesc_copy pre _ P), E. cbn [unesc]. apply N.eqb_neq in Hq. rewrite Hq. reflexivity.
Qed.
Lemma unescape_quoted (q : byte) q' cs ew : q <> 92%N -> spells_string q' cs ew ->
  unescape (q :: ew ++ [q]) = Some (q :: utf8 cs ++ [q]).
Proof. intros Hq S. apply (unescape_wrapped [q] q ew (utf8 cs)); [now constructor|exact Hq|]. intros rest. now apply (unesc_string q'). Qed.
Lemma unescape_quoted_char (q : byte) q' c ew : q <> 92%N -> spells_char q' c ew ->
  unescape (q :: ew ++ [q]) = Some (q :: encode c ++ [q]).
Proof. intros Hq S. apply (unescape_wrapped [q] q ew (encode c)); [now constructor|exact Hq|]. intros rest. now apply (unesc_char q'). Qed.
Lemma unescape_insens q' cs ew : spells_string q' cs ew ->
  unescape (94%N :: 34%N :: ew ++ [34%N]) = Some (94%N :: 34%N :: utf8 cs ++ [34%N]).
Proof.
  intros S. apply (unescape_wrapped [94%N; 34%N] 34%N ew (utf8 cs)); [repeat constructor; discriminate|discriminate|].
  intros rest. now apply (unesc_string q').
Qed.
Lemma encode_valid c : scalar c -> valid_utf8 (encode c).
Proof. intros S. exists [c]. split; [constructor; auto|]. cbn. now rewrite app_nil_r. Qed.
