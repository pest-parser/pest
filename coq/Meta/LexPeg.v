(* C07 - the first half of the reader, lexical part: grammar.pest (Tokens.meta_grammar) under Peg.Spec tokenises
   the lexemes of Spell.v / Text.v.  Positions are described by the suffix of the text: skipn p w = lexeme ++ rest.
   Rule bodies are not restated: they are looked up in meta_grammar, the comment above a lemma quotes the rule. *)
From Coq Require Import List Arith NArith ZArith Bool Lia String.
Import ListNotations.
Require Import PV.Comb.PState PV.Comb.Bytes PV.Comb.Utf8 PV.Iter.Queue PV.Peg.Ast PV.Peg.Spec PV.Peg.SpecFacts.
Require Import PV.Meta.Tokens PV.Meta.Unescape PV.Meta.Spell PV.Meta.LexProofs PV.Meta.Text.
Require Import PV.Meta.PegRules.
Local Open Scope string_scope.
Local Open Scope list_scope.

Definition rule_named (nme : name) : option rule :=
  if plain_name nme && negb (is_special nme) then find_rule meta_grammar nme else None.
Lemma rule_named_inv nme r : rule_named nme = Some r ->
  plain_name nme = true /\ is_special nme = false /\ find_rule meta_grammar nme = Some r.
Proof. unfold rule_named. destruct (plain_name nme); [|discriminate]. destruct (is_special nme); [discriminate|]. auto. Qed.

Section Lex.
Variable w : list byte.
Notation G := meta_grammar.
Notation mev := (evals G false (fun _ => None) w).
Notation mskips := (skips G false (fun _ => None) w).
Notation mreps := (reps G false (fun _ => None) w).

Definition node_if (b : bool) (r : mrule) (s e : nat) (ch : list tree) : list tree :=
  if b then [Node (mid r) None s e ch] else [].

Lemma prefixb_app s rest : prefixb s (s ++ rest) = true.
Proof. induction s as [|b s IH]; [reflexivity|]. cbn. now rewrite N.eqb_refl, IH. Qed.
Lemma at_advance p s rest : skipn p w = s ++ rest -> skipn (p + List.length s) w = rest.
Proof. intros H. rewrite skipn_add, H. rewrite skipn_app, skipn_all, Nat.sub_diag. reflexivity. Qed.

Definition follow (P : byte -> bool) (rest : list byte) : Prop :=
  match rest with [] => True | b :: _ => (b < 128)%N /\ P b = false end.

Lemma str_yes a em s p sg rest : skipn p w = s ++ rest -> mev a em (EStr s) p sg (SMatch (p + List.length s) sg []).
Proof. intros H. pose proof (evals_str G false (fun _ => None) w a em s p sg) as X. unfold lit in X. now rewrite H, prefixb_app in X. Qed.
Lemma str_no a em s p sg l : skipn p w = l -> prefixb s l = false -> mev a em (EStr s) p sg SFail.
Proof. intros H F. pose proof (evals_str G false (fun _ => None) w a em s p sg) as X. unfold lit in X. now rewrite H, F in X. Qed.

(* Inside an atomic rule nothing is skipped, no node is produced and (no rule of grammar.pest touching the stack) the
   stack stays as it is: what an expression does at a position is told by the text it takes there, or by its refusing
   the text.  One lemma per operator; the proof about a rule then follows the rule's expression. *)
Definition takes (e : expr) (s rest : list byte) : Prop :=
  forall em p sg, skipn p w = s ++ rest -> mev Atomic em e p sg (SMatch (p + List.length s) sg []).
Definition refuses (e : expr) (l : list byte) : Prop :=
  forall em p sg, skipn p w = l -> mev Atomic em e p sg SFail.
(* the rounds of x* *)
Definition takes_star (x : expr) (s rest : list byte) : Prop :=
  forall em p sg acc, skipn p w = s ++ rest -> mreps Atomic em x p sg acc (SMatch (p + List.length s) sg acc).

Lemma takes_str s rest : takes (EStr s) s rest.
Proof. intros em p sg. apply str_yes. Qed.
Lemma refuses_str s l : prefixb s l = false -> refuses (EStr s) l.
Proof. intros F em p sg H. exact (str_no Atomic em s p sg l H F). Qed.

Lemma takes_seq l r s1 s2 rest : takes l s1 (s2 ++ rest) -> takes r s2 rest -> takes (ESeq l r) (s1 ++ s2) rest.
Proof.
  intros L R em p sg H. rewrite <- app_assoc in H. rewrite app_length, Nat.add_assoc.
  exact (evals_seq_atomic G false _ w Atomic em l r p sg _ sg [] _ eq_refl (L em p sg H) (R em _ sg (at_advance p s1 _ H))).
Qed.
Lemma refuses_seq l r x : refuses l x -> refuses (ESeq l r) x.
Proof. intros L em p sg H. apply evals_seq_fail, (L em p sg H). Qed.
Lemma refuses_seq_r l r s rest : takes l s rest -> refuses r rest -> refuses (ESeq l r) (s ++ rest).
Proof.
  intros L R em p sg H.
  exact (evals_seq_atomic G false _ w Atomic em l r p sg _ sg [] SFail eq_refl (L em p sg H) (R em _ sg (at_advance p s _ H))).
Qed.

Lemma takes_choice_l l r s rest : takes l s rest -> takes (EChoice l r) s rest.
Proof. intros L em p sg H. apply evals_choice_l, (L em p sg H). Qed.
Lemma takes_choice_r l r s rest : refuses l (s ++ rest) -> takes r s rest -> takes (EChoice l r) s rest.
Proof. intros L R em p sg H. apply evals_choice_r; [exact (L em p sg H)|exact (R em p sg H)]. Qed.
Lemma refuses_choice l r x : refuses l x -> refuses r x -> refuses (EChoice l r) x.
Proof. intros L R em p sg H. apply evals_choice_r; [exact (L em p sg H)|exact (R em p sg H)]. Qed.

Lemma takes_opt x s rest : takes x s rest -> takes (EOpt x) s rest.
Proof. intros X em p sg H. exact (evals_opt G false _ w Atomic em x p sg _ (X em p sg H)). Qed.
Lemma passes_opt x rest : refuses x rest -> takes (EOpt x) [] rest.
Proof. intros X em p sg H. rewrite Nat.add_0_r. exact (evals_opt G false _ w Atomic em x p sg _ (X em p sg H)). Qed.
(* a predicate is evaluated without emitting, which changes nothing in an atomic rule *)
Lemma takes_neg x l : refuses x l -> takes (ENegPred x) [] l.
Proof. intros X em p sg H. rewrite Nat.add_0_r. exact (evals_neg G false _ w Atomic em x p sg _ (X false p sg H)). Qed.
Lemma refuses_neg x s rest : takes x s rest -> refuses (ENegPred x) (s ++ rest).
Proof. intros X em p sg H. exact (evals_neg G false _ w Atomic em x p sg _ (X false p sg H)). Qed.

Lemma takes_any c rest : scalar c -> takes (EIdent (nm "ANY")) (encode c) rest.
Proof.
  intros Sc em p sg H. pose proof (evals_any G false (fun _ => None) w Atomic em p sg) as X.
  unfold one_char, char_here in X. rewrite H, (decode1_encode c rest (scalar_lt c Sc)) in X. exact X.
Qed.

Lemma takes_unroll e u s rest :
  match e with ERepExact _ _ | ERepMin _ _ | ERepMax _ _ | ERepMinMax _ _ _ => True | _ => False end ->
  unroll_node false e = Some u -> takes u s rest -> takes e s rest.
Proof. intros K U T em p sg H. exact (evals_unroll G false _ w Atomic em e u p sg _ K U (T em p sg H)). Qed.

Lemma star_nil x rest : refuses x rest -> takes_star x [] rest.
Proof.
  intros X em p sg acc H. cbn [List.length]. rewrite Nat.add_0_r.
  apply reps_stop, runits_atomic; [reflexivity|exact (X em p sg H)].
Qed.
Lemma star_cons x s1 s2 rest : takes x s1 (s2 ++ rest) -> takes_star x s2 rest -> takes_star x (s1 ++ s2) rest.
Proof.
  intros X R em p sg acc H. rewrite <- app_assoc in H. rewrite app_length, Nat.add_assoc.
  apply (reps_step G false _ w Atomic em x p sg acc (p + List.length s1) sg []).
  - apply runits_atomic; [reflexivity|exact (X em p sg H)].
  - rewrite app_nil_r. exact (R em _ sg acc (at_advance p s1 _ H)).
Qed.
Lemma takes_rep x s rest : takes_star x s rest -> takes (ERep x) s rest.
Proof. intros R em p sg H. apply evals_rep_atomic; [reflexivity|exact (R em p sg [] H)]. Qed.
(* x+ without grammar-extras is x ~ x* *)
Lemma takes_plus x s1 s2 rest : takes x s1 (s2 ++ rest) -> takes_star x s2 rest -> takes (ERepOnce x) (s1 ++ s2) rest.
Proof.
  intros X R em p sg H. apply evals_rep_once; [reflexivity|].
  exact (takes_seq x (ERep x) s1 s2 rest X (takes_rep x s2 rest R) em p sg H).
Qed.
Lemma refuses_plus x l : refuses x l -> refuses (ERepOnce x) l.
Proof. intros X em p sg H. apply evals_rep_once; [reflexivity|]. exact (refuses_seq x (ERep x) l X em p sg H). Qed.

(* [quiet_body a nme]: the body of the rule nme when its call in context a makes no node and runs that body atomically:
   every silent, atomic or normal rule called inside an atomic one, WHITESPACE and COMMENT called by the implicit
   skipping.  It computes, so that a call is entered by one lookup in grammar.pest. *)
Definition quiet (a : atom) (nme : name) (r : rule) : bool :=
  plain_name nme &&
  forallb (fun em => let m := rule_mode (is_special nme) (rty r) a em in negb (fst m) && atom_eqb (snd m) Atomic) [true; false].
Definition quiet_body (a : atom) (nme : name) : option expr :=
  match find_rule G nme with Some r => if quiet a nme r then Some (rexpr r) else None | None => None end.

Lemma quiet_mode (m : bool * atom) : negb (fst m) && atom_eqb (snd m) Atomic = true -> m = (false, Atomic).
Proof. destruct m as [[|] []]; cbn; intros E; (discriminate E || reflexivity). Qed.
Lemma quiet_call a nme e : quiet_body a nme = Some e ->
  forall em p sg res, mev Atomic em e p sg res -> mev a em (EIdent nme) p sg res.
Proof.
  unfold quiet_body, quiet. destruct (find_rule G nme) as [r|] eqn:FR; [|discriminate].
  destruct (plain_name nme) eqn:PN; [|discriminate]. cbn [andb forallb]. rewrite andb_true_r. intros Q em p sg res H.
  destruct (_ && _) eqn:M in Q; [|discriminate]. injection Q as <-. apply andb_prop in M. destruct M as [M1 M2].
  pose proof (evals_call G false (fun _ => None) w a em nme r p sg res PN FR) as C.
  destruct em; [rewrite (quiet_mode _ M1) in C|rewrite (quiet_mode _ M2) in C]; specialize (C H); now destruct res.
Qed.

Lemma takes_call nme e s rest : quiet_body Atomic nme = Some e -> takes e s rest -> takes (EIdent nme) s rest.
Proof. intros Q T em p sg H. exact (quiet_call Atomic nme e Q em p sg _ (T em p sg H)). Qed.
Lemma refuses_call nme e l : quiet_body Atomic nme = Some e -> refuses e l -> refuses (EIdent nme) l.
Proof. intros Q T em p sg H. exact (quiet_call Atomic nme e Q em p sg _ (T em p sg H)). Qed.
Lemma special_takes nme e s rest em p sg : quiet_body NonAtomic nme = Some e -> takes e s rest -> skipn p w = s ++ rest ->
  mev NonAtomic em (EIdent nme) p sg (SMatch (p + List.length s) sg []).
Proof. intros Q T H. exact (quiet_call NonAtomic nme e Q em p sg _ (T em p sg H)). Qed.
Lemma special_refuses nme e l em p sg : quiet_body NonAtomic nme = Some e -> refuses e l -> skipn p w = l ->
  mev NonAtomic em (EIdent nme) p sg SFail.
Proof. intros Q T H. exact (quiet_call NonAtomic nme e Q em p sg _ (T em p sg H)). Qed.

(* an atomic rule called from anywhere: a node where tokens are produced, the body run atomically *)
Lemma call_token a em nme r R s rest p sg :
  plain_name nme = true -> is_special nme = false -> find_rule G nme = Some r -> rty r = RAtomic -> rule_id G nme = mid R ->
  takes (rexpr r) s rest -> skipn p w = s ++ rest ->
  mev a em (EIdent nme) p sg (SMatch (p + List.length s) sg (node_if (tok a em) R p (p + List.length s) [])).
Proof.
  intros PN SP FR K Id T H.
  pose proof (evals_call G false (fun _ => None) w a em nme r p sg (SMatch (p + List.length s) sg []) PN FR) as C.
  rewrite SP, K, Id in C. exact (C (T em p sg H)).
Qed.

(* a call that produces a node: rule_mode computes once the rule and the context are known *)
Lemma call_node a em nme r a2 p sg q f :
  plain_name nme = true -> find_rule G nme = Some r -> rule_mode (is_special nme) (rty r) a em = (true, a2) ->
  mev a2 em (rexpr r) p sg (SMatch q sg f) -> mev a em (EIdent nme) p sg (SMatch q sg [Node (rule_id G nme) None p q f]).
Proof.
  intros PN FR M H. pose proof (evals_call G false (fun _ => None) w a em nme r p sg (SMatch q sg f) PN FR) as C.
  rewrite M in C. exact (C H).
Qed.

Definition recognises (P : byte -> bool) (x : expr) : Prop :=
  forall em sg,
  (forall p b rest, skipn p w = b :: rest -> (b < 128)%N -> P b = true -> mev Atomic em x p sg (SMatch (p + 1) sg [])) /\
  (forall p rest, skipn p w = rest -> follow P rest -> mev Atomic em x p sg SFail).

Lemma rec_takes P x b rest : recognises P x -> (b < 128)%N -> P b = true -> takes x [b] rest.
Proof. intros R L Pb em p sg H. exact (proj1 (R em sg) p b rest H L Pb). Qed.
Lemma rec_refuses P x l : recognises P x -> follow P l -> refuses x l.
Proof. intros R F em p sg H. exact (proj2 (R em sg) p l H F). Qed.
Lemma rec_intro P x : (forall b rest, (b < 128)%N -> P b = true -> takes x [b] rest) -> (forall l, follow P l -> refuses x l) ->
  recognises P x.
Proof. intros Y N em sg. split; [intros p b rest H L Pb; exact (Y b rest L Pb em p sg H)|intros p l H F; exact (N l F em p sg H)]. Qed.

Lemma rec_range lo hi : recognises (in_range lo hi) (ERange lo hi).
Proof.
  assert (E : forall em p sg l, skipn p w = l ->
            mev Atomic em (ERange lo hi) p sg (match decode1 l with Some (c, n) => if in_range lo hi c then SMatch (p + n) sg [] else SFail | None => SFail end)).
  { intros em p sg l <-. apply evals_range. }
  intros em sg. split.
  - intros p b rest H L R. specialize (E em p sg _ H). cbn [decode1] in E. apply N.ltb_lt in L. now rewrite L, R in E.
  - intros p [|b r] H F; specialize (E em p sg _ H); [exact E|]. destruct F as [L R]. cbn [decode1] in E. apply N.ltb_lt in L. now rewrite L, R in E.
Qed.

Lemma rec_char (c : byte) : recognises (N.eqb c) (EStr [c]).
Proof.
  apply rec_intro.
  - intros b rest _ E. apply N.eqb_eq in E. subst b. apply takes_str.
  - intros [|b r] F; apply refuses_str; [reflexivity|]. destruct F as [_ F]. cbn. now rewrite F.
Qed.

Lemma follow_or P Q rest : follow (fun b => P b || Q b) rest -> follow P rest /\ follow Q rest.
Proof. destruct rest as [|b r]; [auto|]. intros [L H]. apply orb_false_iff in H. destruct H. repeat split; assumption. Qed.

Lemma rec_choice P Q x y : recognises P x -> recognises Q y -> recognises (fun b => P b || Q b) (EChoice x y).
Proof.
  intros HP HQ. apply rec_intro.
  - intros b rest L E. destruct (P b) eqn:EP.
    + apply takes_choice_l, (rec_takes P x b rest HP L EP).
    + apply takes_choice_r; [apply (rec_refuses P x _ HP); now split|exact (rec_takes Q y b rest HQ L E)].
  - intros l F. apply follow_or in F. destruct F as [FP FQ].
    apply refuses_choice; [exact (rec_refuses P x l HP FP)|exact (rec_refuses Q y l HQ FQ)].
Qed.

Lemma rec_ext P Q x : (forall b, P b = Q b) -> recognises P x -> recognises Q x.
Proof.
  intros E H. apply rec_intro.
  - intros b rest L Qb. apply (rec_takes P x b rest H L). now rewrite E.
  - intros l F. apply (rec_refuses P x l H). destruct l as [|b r]; [exact I|]. destruct F as [L F]. split; [exact L|now rewrite E].
Qed.

Lemma rec_rule P nme e : quiet_body Atomic nme = Some e -> recognises P e -> recognises P (EIdent nme).
Proof.
  intros Q H. apply rec_intro.
  - intros b rest L Pb. exact (takes_call nme e [b] rest Q (rec_takes P e b rest H L Pb)).
  - intros l F. exact (refuses_call nme e l Q (rec_refuses P e l H F)).
Qed.

Lemma star_class P x ds rest : recognises P x -> Forall (fun b => (b < 128)%N /\ P b = true) ds -> follow P rest ->
  takes_star x ds rest.
Proof.
  intros R F Fo. induction F as [|b ds [L Pb] _ IH].
  - apply star_nil, (rec_refuses P x rest R Fo).
  - exact (star_cons x [b] ds rest (rec_takes P x b _ R L Pb) IH).
Qed.

(* number = @{ '0'..'9'+ } *)
Definition digitb (b : byte) : bool := in_range 48 57 b.
Definition is_digit (b : byte) : Prop := (b < 128)%N /\ digitb b = true.

Lemma number_takes ds rest : ds <> [] -> Forall is_digit ds -> follow digitb rest -> takes (ERepOnce (ERange 48 57)) ds rest.
Proof.
  intros NE F Fo. destruct F as [|d ds [L D] F]; [congruence|].
  exact (takes_plus _ [d] ds rest (rec_takes _ _ d _ (rec_range 48 57) L D) (star_class _ _ ds rest (rec_range 48 57) F Fo)).
Qed.

Theorem lex_number a em ds rest p sg : ds <> [] -> Forall (fun b => (b < 128)%N /\ digitb b = true) ds ->
  follow digitb rest -> skipn p w = ds ++ rest ->
  mev a em (EIdent (nm "number")) p sg (SMatch (p + List.length ds) sg (node_if (tok a em) MNumber p (p + List.length ds) [])).
Proof.
  intros NE F Fo H.
  eapply (call_token a em (nm "number") _ MNumber ds rest p sg); [reflexivity..|exact (number_takes ds rest NE F Fo)|exact H].
Qed.

(* number as integer calls it *)
Lemma number_call ds rest : ds <> [] -> Forall is_digit ds -> follow digitb rest -> takes (EIdent (nm "number")) ds rest.
Proof. intros NE F Fo. eapply takes_call; [reflexivity|exact (number_takes ds rest NE F Fo)]. Qed.
Lemma number_no l : follow digitb l -> refuses (ERepOnce (ERange 48 57)) l.
Proof. intros Fo. apply refuses_plus, (rec_refuses _ _ l (rec_range 48 57) Fo). Qed.
Lemma number_refuses l : follow digitb l -> refuses (EIdent (nm "number")) l.
Proof. intros Fo. eapply refuses_call; [reflexivity|exact (number_no l Fo)]. Qed.

Definition alphab (b : byte) : bool := in_range 97 122 b || in_range 65 90 b.
Lemma rec_alpha : recognises alphab (EIdent (nm "alpha")).
Proof. eapply rec_rule; [reflexivity|]. apply rec_choice; apply rec_range. Qed.
Definition alnumb (b : byte) : bool := alphab b || in_range 48 57 b.
Lemma rec_alpha_num : recognises alnumb (EIdent (nm "alpha_num")).
Proof.
  eapply rec_rule; [reflexivity|]. apply rec_choice; [apply rec_alpha|apply rec_range].
Qed.
Lemma rec_ident_start : recognises ident_start (EChoice (EStr (nm "_")) (EIdent (nm "alpha"))).
Proof.
  apply (rec_ext (fun b => N.eqb 95%N b || alphab b)).
  - intros b. unfold ident_start, alphab, in_range. rewrite (N.eqb_sym 95%N b). now rewrite orb_assoc.
  - apply rec_choice; [apply (rec_char 95%N)|apply rec_alpha].
Qed.
Lemma rec_ident_char : recognises ident_char (EChoice (EStr (nm "_")) (EIdent (nm "alpha_num"))).
Proof.
  apply (rec_ext (fun b => N.eqb 95%N b || alnumb b)).
  - intros b. unfold ident_char, ident_start, alnumb, alphab, in_range. rewrite (N.eqb_sym 95%N b). now rewrite !orb_assoc.
  - apply rec_choice; [apply (rec_char 95%N)|apply rec_alpha_num].
Qed.

Lemma ident_char_ascii b : ident_char b = true -> (b < 128)%N.
Proof.
  unfold ident_char, ident_start. intros H.
  repeat (apply orb_prop in H; destruct H as [H|H]); try (apply andb_prop in H; destruct H as [H1 H2]);
    try apply N.eqb_eq in H; try apply N.leb_le in H1; try apply N.leb_le in H2; lia.
Qed.
Lemma ident_start_char b : ident_start b = true -> ident_char b = true.
Proof. unfold ident_char. intros ->. reflexivity. Qed.

(* ("_" | alpha) ~ ("_" | alpha_num)* *)
Lemma tag_takes t rest : tag_ok t = true -> follow ident_char rest -> exists b r, t = b :: r /\
  takes (EChoice (EStr (nm "_")) (EIdent (nm "alpha"))) [b] (r ++ rest) /\
  takes (ERep (EChoice (EStr (nm "_")) (EIdent (nm "alpha_num")))) r rest.
Proof.
  destruct t as [|b r]; [discriminate|]. cbn [tag_ok]. intros TO Fo. apply andb_prop in TO. destruct TO as [Sb Fr].
  exists b, r. split; [reflexivity|]. split.
  - apply (rec_takes ident_start _ b _ rec_ident_start); [apply ident_char_ascii, ident_start_char, Sb|exact Sb].
  - apply takes_rep, (star_class ident_char _ r rest rec_ident_char); [|exact Fo].
    apply Forall_forall. intros x Hx. rewrite forallb_forall in Fr. split; [apply ident_char_ascii|]; now apply Fr.
Qed.

(* a proper prefix of s followed by more text begins s only if the text goes on with a byte of s *)
Lemma prefixb_straddle s : forall n rest, n <> [] -> prefixb s (n ++ rest) = true -> prefixb s n = false ->
  exists b r, rest = b :: r /\ In b s.
Proof.
  induction s as [|c s IH]; intros n rest NE E F; [discriminate|]. destruct n as [|x n]; [congruence|].
  cbn [app prefixb] in E, F. apply andb_prop in E. destruct E as [Ex E]. rewrite Ex in F. cbn [andb] in F.
  destruct n as [|y n].
  - destruct s as [|c' s]; [discriminate|]. destruct rest as [|b r]; [discriminate|]. cbn [app prefixb] in E.
    apply andb_prop in E. destruct E as [E _]. apply N.eqb_eq in E. subst b. exists c', r. split; [reflexivity|right; now left].
  - destruct (IH (y :: n) rest ltac:(discriminate) E F) as (b & r & -> & Hb). exists b, r. split; [reflexivity|now right].
Qed.

Lemma no_push n rest : n <> [] -> prefixb (nm "PUSH") n = false -> follow ident_char rest -> prefixb (nm "PUSH") (n ++ rest) = false.
Proof.
  intros NE NP F. destruct (prefixb (nm "PUSH") (n ++ rest)) eqn:E; [|reflexivity]. exfalso.
  destruct (prefixb_straddle _ n rest NE E NP) as (b & r & -> & Hb). destruct F as [_ F].
  cbn in Hb. destruct Hb as [<-|[<-|[<-|[<-|[]]]]]; discriminate.
Qed.

(* identifier = @{ !"PUSH" ~ ("_" | alpha) ~ ("_" | alpha_num)* } *)
Theorem lex_identifier a em n rest p sg : ident_ok n = true -> follow ident_char rest -> skipn p w = n ++ rest ->
  mev a em (EIdent (nm "identifier")) p sg
      (SMatch (p + List.length n) sg (node_if (tok a em) MIdentifier p (p + List.length n) [])).
Proof.
  intros OK Fo H. apply andb_prop in OK. destruct OK as [TO NP]. apply negb_true_iff in NP.
  eapply (call_token a em (nm "identifier") _ MIdentifier n rest p sg); [reflexivity..| |exact H].
  destruct (tag_takes n rest TO Fo) as (b & r & -> & Hd & Tl).
  apply (takes_seq _ _ [b] r rest); [|exact Tl]. apply (takes_seq _ _ [] [b]); [|exact Hd].
  apply takes_neg, refuses_str, (no_push (b :: r) rest); [discriminate|exact NP|exact Fo].
Qed.

(* tag_id = @{ "#" ~ ("_" | alpha) ~ ("_" | alpha_num)* } *)
Theorem lex_tag_id a em t rest p sg : tag_ok t = true -> follow ident_char rest -> skipn p w = 35%N :: t ++ rest ->
  mev a em (EIdent (nm "tag_id")) p sg
      (SMatch (p + S (List.length t)) sg (node_if (tok a em) MTagId p (p + S (List.length t)) [])).
Proof.
  intros TO Fo H.
  eapply (call_token a em (nm "tag_id") _ MTagId (35%N :: t) rest p sg); [reflexivity..| |exact H].
  destruct (tag_takes t rest TO Fo) as (b & r & -> & Hd & Tl).
  apply (takes_seq _ _ [35%N; b] r rest); [|exact Tl]. apply (takes_seq _ _ [35%N] [b]); [apply takes_str|exact Hd].
Qed.

(* integer = @{ number | "-" ~ "0"* ~ '1'..'9' ~ number? } *)
Lemma decval_digit b d : decval b = Some d -> is_digit b.
Proof.
  unfold decval, is_digit, digitb, in_range. destruct ((48 <=? b)%N && (b <=? 57)%N) eqn:E; [|discriminate]. intros _.
  split; [|reflexivity]. apply andb_prop in E. destruct E as [_ E]. apply N.leb_le in E. lia.
Qed.
Lemma spells_num_digits n l : spells_num n l -> l <> [] /\ Forall is_digit l.
Proof.
  intros S. split.
  - destruct (LexProofs.spells_nat_head _ _ _ _ S) as (b & d & r & -> & _). discriminate.
  - eapply Forall_impl; [|exact (LexProofs.spells_nat_all _ _ _ _ S)]. intros b (d & Hd). now apply (decval_digit b d).
Qed.
Lemma zeros_val zs acc : Forall (fun b => b = 48%N) zs -> digits_val 10 decval zs acc = Some (acc * 10 ^ N.of_nat (List.length zs))%N.
Proof.
  intros F. revert acc. induction F as [|b zs -> _ IH]; intros acc.
  - cbn. f_equal. lia.
  - cbn [digits_val List.length]. replace (decval 48%N) with (Some 0%N) by reflexivity. rewrite IH. f_equal.
    rewrite Nat2N.inj_succ, N.pow_succ_r'. lia.
Qed.
(* a numeral of a positive number: zeros, a non-zero digit, digits *)
Lemma positive_numeral l : Forall is_digit l -> (forall v, digits_val 10 decval l 0 = Some v -> v <> 0%N) ->
  exists zs d ds, l = zs ++ d :: ds /\ Forall (fun b => b = 48%N) zs /\ is_digit d /\ in_range 49 57 d = true /\ Forall is_digit ds.
Proof.
  induction 1 as [|b l Hb Hl IH]; intros NZ.
  - exfalso. now apply (NZ 0%N).
  - destruct (N.eq_dec b 48%N) as [->|Hne].
    + destruct IH as (zs & d & ds & -> & Z & D & R & Ds).
      * intros v Hv. apply (NZ v). cbn [digits_val]. replace (decval 48%N) with (Some 0%N) by reflexivity. exact Hv.
      * exists (48%N :: zs), d, ds. split; [reflexivity|]. split; [constructor; auto|]. split; [exact D|]. split; [exact R|exact Ds].
    + exists [], b, l. split; [reflexivity|]. split; [constructor|]. split; [exact Hb|]. split; [|exact Hl]. destruct Hb as [L D]. unfold digitb, in_range in *. apply andb_prop in D. destruct D as [D1 D2].
      apply N.leb_le in D1, D2. apply andb_true_intro. split; apply N.leb_le; lia.
Qed.

Definition zerob (b : byte) : bool := N.eqb 48%N b.

Theorem lex_integer a em z l rest p sg : spells_int z l -> follow digitb rest -> skipn p w = l ++ rest ->
  mev a em (EIdent (nm "integer")) p sg (SMatch (p + List.length l) sg (node_if (tok a em) MInteger p (p + List.length l) [])).
Proof.
  intros S Fo H.
  eapply (call_token a em (nm "integer") _ MInteger l rest p sg); [reflexivity..| |exact H].
  destruct S as [[_ S]|[Hz (l' & -> & S)]]; destruct (spells_num_digits _ _ S) as [NE F].
  - apply takes_choice_l, (number_call l rest NE F Fo).
  - destruct (positive_numeral l' F) as (zs & d & ds & -> & Z & [Ld D] & R & Ds).
    { intros v Hv. rewrite (LexProofs.spells_nat_val _ _ _ _ S) in Hv. inversion Hv. lia. }
    apply takes_choice_r; [apply number_refuses; split; [lia|reflexivity]|].
    (* (("-" ~ "0"* ) ~ '1'..'9') ~ number? *)
    change (45%N :: zs ++ d :: ds) with ([45%N] ++ zs ++ [d] ++ ds). rewrite !app_assoc.
    apply takes_seq; [apply takes_seq; [apply takes_seq; [apply takes_str|]|]|].
    + apply takes_rep, (star_class zerob _ zs _ (rec_char 48%N)).
      * eapply Forall_impl; [|exact Z]. intros b ->. split; [lia|reflexivity].
      * split; [exact Ld|]. apply N.eqb_neq. intros <-. discriminate.
    + exact (rec_takes _ _ d _ (rec_range 49 57) Ld R).
    + destruct ds as [|d2 ds']; [apply passes_opt, number_refuses, Fo|].
      apply takes_opt, number_call; [discriminate|exact Ds|exact Fo].
Qed.

Lemma newline_takes a rest : (a = [10%N] \/ a = [13%N; 10%N]) -> takes (EIdent (nm "newline")) a rest.
Proof.
  intros Ha. eapply takes_call; [reflexivity|].
  destruct Ha as [-> | ->]; [apply takes_choice_l, takes_str|apply takes_choice_r; [now apply refuses_str|apply takes_str]].
Qed.
Lemma newline_refuses l : prefixb [10%N] l = false -> prefixb [13%N; 10%N] l = false -> refuses (EIdent (nm "newline")) l.
Proof.
  intros F1 F2. eapply refuses_call; [reflexivity|].
  apply refuses_choice; now apply refuses_str.
Qed.

(* WHITESPACE = _{ " " | "\t" | newline } *)
Lemma ws_yes em p sg a rest : white a -> skipn p w = a ++ rest ->
  mev NonAtomic em (EIdent (nm "WHITESPACE")) p sg (SMatch (p + List.length a) sg []).
Proof.
  intros Wa H. eapply (special_takes _ _ a rest em p sg); [reflexivity| |exact H]. destruct Wa.
  - apply takes_choice_l, takes_choice_l, takes_str.
  - apply takes_choice_l, takes_choice_r; [now apply refuses_str|apply takes_str].
  - apply takes_choice_r; [apply refuses_choice; now apply refuses_str|apply newline_takes; now left].
  - apply takes_choice_r; [apply refuses_choice; now apply refuses_str|apply newline_takes; now right].
Qed.

Definition no_white (l : list byte) : Prop :=
  prefixb [32%N] l = false /\ prefixb [9%N] l = false /\ prefixb [10%N] l = false /\ prefixb [13%N; 10%N] l = false.
Lemma ws_no em p sg l : no_white l -> skipn p w = l -> mev NonAtomic em (EIdent (nm "WHITESPACE")) p sg SFail.
Proof.
  intros (F1 & F2 & F3 & F4) H. eapply (special_refuses _ _ l em p sg); [reflexivity| |exact H].
  apply refuses_choice; [apply refuses_choice; now apply refuses_str|now apply newline_refuses].
Qed.

Lemma prefixb_starts s l : prefixb s l = true <-> starts_with s l.
Proof.
  revert l. induction s as [|b s IH]; intros l; cbn.
  - split; [intros _; now exists l|auto].
  - destruct l as [|x l]; [split; [discriminate|intros (r & E); discriminate]|].
    split.
    + intros H. apply andb_prop in H. destruct H as [E H]. apply N.eqb_eq in E. subst x. apply IH in H. destruct H as (r & ->). now exists r.
    + intros (r & E). inversion E; subst. rewrite N.eqb_refl. apply IH. now exists r.
Qed.
Lemma not_starts s l : ~ starts_with s l -> prefixb s l = false.
Proof. intros H. destruct (prefixb s l) eqn:E; [|reflexivity]. apply prefixb_starts in E. contradiction. Qed.
(* a two-byte prefix is decided by any extension of a list that already has two bytes *)
Lemma starts2_app (x y : byte) l r : 2 <= List.length l -> starts_with [x; y] (l ++ r) -> starts_with [x; y] l.
Proof.
  destruct l as [|a [|b l']]; cbn [List.length]; try lia. intros _ (t & E). cbn in E. inversion E; subst. now exists l'.
Qed.

Definition bc_unit : expr := chol (Rf "block_comment") [seql (ENegPred (Lt "*/")) [Rf "ANY"]].

Lemma bc_refuses l : prefixb (nm "/*") l = false -> refuses (EIdent (nm "block_comment")) l.
Proof.
  intros F. eapply refuses_call; [reflexivity|].
  apply refuses_seq, refuses_seq, refuses_str, F.
Qed.

Scheme bc_mut := Induction for block_comment Sort Prop
  with bb_mut := Induction for block_body Sort Prop.
Combined Scheme bc_bb_mut from bc_mut, bb_mut.

(* block_comment = _{ "/*" ~ (block_comment | !"*/" ~ ANY)* ~ "*/" } *)
Lemma block_comment_lex :
  (forall a, block_comment a -> forall rest, takes (EIdent (nm "block_comment")) a rest) /\
  (forall b, block_body b -> forall rest, takes_star bc_unit b ([42%N; 47%N] ++ rest)).
Proof.
  apply bc_bb_mut.
  - intros body _ IH rest. eapply takes_call; [reflexivity|].
    rewrite app_assoc. apply takes_seq; [apply takes_seq; [apply takes_str|apply takes_rep, IH]|apply takes_str].
  - intros rest. apply star_nil, refuses_choice; [now apply bc_refuses|].
    apply refuses_seq, (refuses_neg _ [42%N; 47%N] rest), takes_str.
  - intros c r _ IHc _ IHr rest. apply star_cons; [apply takes_choice_l, IHc|apply IHr].
  - intros ch r Sc _ IHr N1 N2 rest. apply star_cons; [|apply IHr].
    (* neither delimiter begins here: both are decided within encode ch ++ r ++ "*/", which has two bytes *)
    assert (L2 : 2 <= List.length (encode ch ++ r ++ [42%N; 47%N])).
    { pose proof (encode_length ch). rewrite !app_length. cbn [List.length]. lia. }
    assert (No : forall x y : byte, ~ starts_with [x; y] (encode ch ++ r ++ [42%N; 47%N]) ->
                 prefixb [x; y] (encode ch ++ r ++ [42%N; 47%N] ++ rest) = false).
    { intros x y N. apply not_starts. intros X. apply N, (starts2_app x y _ rest L2). now rewrite <- !app_assoc. }
    apply takes_choice_r; [apply bc_refuses, No, N2|].
    apply (takes_seq _ _ [] (encode ch)); [apply takes_neg, refuses_str, No, N1|now apply takes_any].
Qed.

Lemma first_byte_ne c (x : byte) l : scalar c -> (x < 128)%N -> c <> x -> prefixb [x] (encode c ++ l) = false.
Proof.
  intros Sc Lx Ne. unfold encode.
  destruct (c <? 128)%N eqn:E1; [cbn; apply N.eqb_neq in Ne; rewrite N.eqb_sym, Ne; reflexivity|].
  destruct (c <? 2048)%N eqn:E2; [cbn; replace (x =? 192 + c / 64)%N with false; [reflexivity|symmetry; apply N.eqb_neq; lia]|].
  destruct (c <? 65536)%N eqn:E3; cbn.
  - replace (x =? 224 + c / 4096)%N with false; [reflexivity|symmetry; apply N.eqb_neq; lia].
  - replace (x =? 240 + c / 262144)%N with false; [reflexivity|symmetry; apply N.eqb_neq; lia].
Qed.

Lemma prefixb_cons (b : byte) s y l : prefixb (b :: s) (y :: l) = (b =? y)%N && prefixb s l.
Proof. reflexivity. Qed.

Definition lc_unit : expr := seql (ENegPred (Rf "newline")) [Rf "ANY"].

Lemma lc_star nl rest cs : (nl = [10%N] \/ nl = [13%N; 10%N]) -> Forall scalar cs -> ~ In 10%N cs -> last cs 0%N <> 13%N ->
  takes_star lc_unit (utf8 cs) (nl ++ rest).
Proof.
  intros Hnl F. induction F as [|c cs Sc F IH]; intros NI NL.
  - apply star_nil, refuses_seq, (refuses_neg _ nl rest), newline_takes, Hnl.
  - cbn [utf8 flat_map]. fold (utf8 cs). apply star_cons.
    + apply (takes_seq _ _ [] (encode c)); [|now apply takes_any]. apply takes_neg, newline_refuses.
      * apply first_byte_ne; [exact Sc|lia|]. intros ->. apply NI. now left.
      * (* a carriage return inside the comment is not followed by a line feed *)
        destruct (N.eq_dec c 13) as [->|C13].
        -- change (encode 13) with [13%N]. cbn [app]. rewrite prefixb_cons. cbn [N.eqb Pos.eqb andb].
           destruct F as [|c2 cs' Sc2 _]; [now elim NL|]. cbn [utf8 flat_map]. rewrite <- app_assoc.
           apply first_byte_ne; [exact Sc2|lia|]. intros ->. apply NI. right. now left.
        -- pose proof (first_byte_ne c 13%N (utf8 cs ++ nl ++ rest) Sc ltac:(lia) C13) as X.
           destruct (encode c ++ utf8 cs ++ nl ++ rest) as [|y l']; [reflexivity|]. rewrite prefixb_cons in *. cbn [prefixb] in X.
           rewrite andb_true_r in X. now rewrite X.
    + apply IH; [intros X; apply NI; now right|destruct cs; [discriminate|exact NL]].
Qed.

(* line_comment = _{ "//" ~ !("/" | "!") ~ (!newline ~ ANY)* } *)
Lemma line_comment_lex cs nl rest : (nl = [10%N] \/ nl = [13%N; 10%N]) -> Forall scalar cs -> ~ In 10%N cs ->
  match cs with c :: _ => c <> 47%N /\ c <> 33%N | [] => True end -> last cs 0%N <> 13%N ->
  takes (EIdent (nm "line_comment")) ([47%N; 47%N] ++ utf8 cs) (nl ++ rest).
Proof.
  intros Hnl F NI Hd NL. eapply takes_call; [reflexivity|].
  apply takes_seq; [|apply takes_rep, lc_star; assumption].
  apply (takes_seq _ _ [47%N; 47%N] []); [apply takes_str|]. apply takes_neg.
  destruct F as [|c cs Sc _].
  - destruct Hnl as [-> | ->]; apply refuses_choice; now apply refuses_str.
  - destruct Hd as [D1 D2]. cbn [utf8 flat_map]. rewrite <- app_assoc.
    apply refuses_choice; apply refuses_str, first_byte_ne; auto; reflexivity.
Qed.
(* `///` and `//!` begin no comment *)
Lemma line_comment_no l : prefixb (nm "//") l = false \/ (exists r, l = 47%N :: 47%N :: 47%N :: r \/ l = 47%N :: 47%N :: 33%N :: r) ->
  refuses (EIdent (nm "line_comment")) l.
Proof.
  intros NL. eapply refuses_call; [reflexivity|]. apply refuses_seq.
  destruct NL as [NL|(r & [->| ->])]; [apply refuses_seq, refuses_str, NL| |].
  - apply (refuses_seq_r _ _ [47%N; 47%N]); [apply takes_str|]. apply (refuses_neg _ [47%N] r), takes_choice_l, takes_str.
  - apply (refuses_seq_r _ _ [47%N; 47%N]); [apply takes_str|].
    apply (refuses_neg _ [33%N] r), takes_choice_r; [now apply refuses_str|apply takes_str].
Qed.

Notation mmanys := (manys G false (fun _ => None) w).
Notation mcloops := (cloops G false (fun _ => None) w).

(* what may follow a gap: no blank, no comment opener (`///` and `//!` are not comments) *)
Definition gap_end (l : list byte) : Prop :=
  no_white l /\ prefixb (nm "/*") l = false /\
  (prefixb (nm "//") l = false \/ exists r, l = 47%N :: 47%N :: 47%N :: r \/ l = 47%N :: 47%N :: 33%N :: r).

(* COMMENT = _{ block_comment | line_comment } *)
Lemma comment_no em p sg l : gap_end l -> skipn p w = l -> mev NonAtomic em (EIdent (nm "COMMENT")) p sg SFail.
Proof.
  intros (_ & NB & NL) H. eapply (special_refuses _ _ l em p sg); [reflexivity| |exact H].
  apply refuses_choice; [exact (bc_refuses l NB)|exact (line_comment_no l NL)].
Qed.
Lemma comment_block em p sg a rest : block_comment a -> skipn p w = a ++ rest ->
  mev NonAtomic em (EIdent (nm "COMMENT")) p sg (SMatch (p + List.length a) sg []).
Proof.
  intros Ha H. eapply (special_takes _ _ a rest em p sg); [reflexivity| |exact H].
  apply takes_choice_l, (proj1 block_comment_lex a Ha).
Qed.
Lemma comment_line em p sg cs nl rest : (nl = [10%N] \/ nl = [13%N; 10%N]) -> Forall scalar cs -> ~ In 10%N cs ->
  match cs with c :: _ => c <> 47%N /\ c <> 33%N | [] => True end -> last cs 0%N <> 13%N ->
  skipn p w = ([47%N; 47%N] ++ utf8 cs) ++ nl ++ rest ->
  mev NonAtomic em (EIdent (nm "COMMENT")) p sg (SMatch (p + List.length ([47%N; 47%N] ++ utf8 cs)) sg []).
Proof.
  intros Hnl F NI Hd NL H. eapply (special_takes _ _ _ (nl ++ rest) em p sg); [reflexivity| |exact H].
  apply takes_choice_r; [now apply bc_refuses|now apply line_comment_lex].
Qed.

Definition phase (em : bool) (sg : list str) (p q : nat) : Prop :=
  exists p1, mmanys NonAtomic em (nm "WHITESPACE") p sg [] (SMatch p1 sg []) /\ mcloops NonAtomic em p1 sg [] (SMatch q sg []).

Lemma white_no_comment a l : white a -> no_white (a ++ l) -> False.
Proof. intros Wa (F1 & F2 & F3 & F4). destruct Wa; cbn in *; discriminate. Qed.

(* a comment, then the blanks after it, is one round of the second loop of the skipping *)
Theorem gap_phase g : gap g -> forall em sg p rest, gap_end rest -> skipn p w = g ++ rest -> phase em sg p (p + List.length g).
Proof.
  induction 1 as [|a g Wa Hg IH|a g Ba Hg IH|a g La Hg IH]; intros em sg p rest GE H.
  - cbn [app List.length] in *. rewrite Nat.add_0_r. exists p. split.
    + apply manys_stop. destruct GE as (NW & _). apply (ws_no em p sg rest NW H).
    + apply cloops_stop. apply (comment_no em p sg rest GE H).
  - rewrite <- app_assoc in H. destruct (IH em sg (p + List.length a) rest GE (at_advance p a _ H)) as (p1 & M & C).
    rewrite app_length, Nat.add_assoc. exists p1. split; [|exact C].
    apply (manys_step G false _ w NonAtomic em (nm "WHITESPACE") p sg [] (p + List.length a) sg []); [|exact M].
    apply (ws_yes em p sg a _ Wa H).
  - rewrite <- app_assoc in H. destruct (IH em sg (p + List.length a) rest GE (at_advance p a _ H)) as (p1 & M & C).
    rewrite app_length, Nat.add_assoc. exists p. split.
    + apply manys_stop. apply (ws_no em p sg (a ++ g ++ rest)); [|exact H]. inversion Ba; subst. repeat split; reflexivity.
    + apply (cloops_step G false _ w NonAtomic em p sg [] (p + List.length a) sg [] p1 sg [] _ (comment_block em p sg a _ Ba H) M C).
  - destruct La as (cs & nl & -> & F & NI & Hd & NL & Hnl). rewrite (app_assoc [47%N; 47%N]) in H |- *.
    set (c := [47%N; 47%N] ++ utf8 cs) in *. rewrite <- !app_assoc in H.
    assert (H1 : skipn (p + List.length c) w = nl ++ g ++ rest) by exact (at_advance p c _ H).
    assert (Wn : white nl) by (destruct Hnl as [-> | ->]; constructor).
    destruct (IH em sg (p + List.length c + List.length nl) rest GE (at_advance _ nl _ H1)) as (p1 & M & C).
    rewrite !app_length, !Nat.add_assoc. exists p. split.
    + apply manys_stop. apply (ws_no em p sg (c ++ nl ++ g ++ rest)); [|exact H]. repeat split; reflexivity.
    + apply (cloops_step G false _ w NonAtomic em p sg [] (p + List.length c) sg [] p1 sg [] _
               (comment_line em p sg cs nl (g ++ rest) Hnl F NI Hd NL H)); [|exact C].
      apply (manys_step G false _ w NonAtomic em (nm "WHITESPACE") _ sg [] (p + List.length c + List.length nl) sg []); [|exact M].
      apply (ws_yes em _ sg nl _ Wn H1).
Qed.

Lemma has_ws : has_rule G (nm "WHITESPACE") = true. Proof. reflexivity. Qed.
Lemma has_cm : has_rule G (nm "COMMENT") = true. Proof. reflexivity. Qed.

(* between two tokens of a non-atomic rule: the gap is skipped, nothing else *)
Theorem gap_lex g em sg p rest : gap g -> gap_end rest -> skipn p w = g ++ rest ->
  mskips NonAtomic em p sg (SMatch (p + List.length g) sg []).
Proof.
  intros Hg GE H. destruct (gap_phase g Hg em sg p rest GE H) as (p1 & M & C).
  apply (skips_both G false _ w em p sg p1 sg [] _ has_ws has_cm M C).
Qed.

Lemma chain_match a em l y p sg q sg' f : mev a em y p sg (SMatch q sg' f) -> mev a em (fold_left EChoice l y) p sg (SMatch q sg' f).
Proof. revert y. induction l as [|x l IH]; intros y H; [exact H|]. cbn [fold_left]. apply IH. now apply evals_choice_l. Qed.
Lemma chain_fail a em l y p sg : mev a em y p sg SFail -> Forall (fun x => mev a em x p sg SFail) l -> mev a em (fold_left EChoice l y) p sg SFail.
Proof.
  revert y. induction l as [|x l IH]; intros y H F; [exact H|]. inversion F; subst. cbn [fold_left]. apply IH; [|assumption].
  now apply evals_choice_r.
Qed.
Lemma chain_select a em l1 x l2 y p sg q sg' f : mev a em (fold_left EChoice l1 y) p sg SFail -> mev a em x p sg (SMatch q sg' f) ->
  mev a em (fold_left EChoice (l1 ++ x :: l2) y) p sg (SMatch q sg' f).
Proof. intros H1 H2. rewrite fold_left_app. cbn [fold_left]. apply chain_match. now apply evals_choice_r. Qed.

(* a chain of one-byte literals after y: what y takes it takes, and where y refuses it takes exactly the listed bytes *)
Lemma lits_choice xs : forall y b rest, let chain := fold_left EChoice (map (fun c : byte => EStr [c]) xs) y in
  (takes y [b] rest -> takes chain [b] rest) /\
  (refuses y (b :: rest) -> if existsb (N.eqb b) xs then takes chain [b] rest else refuses chain (b :: rest)).
Proof.
  induction xs as [|c xs IH]; intros y b rest; cbn [map fold_left existsb]; [tauto|].
  destruct (IH (EChoice y (EStr [c])) b rest) as [IH1 IH2]. split.
  - intros T. now apply IH1, takes_choice_l.
  - intros R. destruct (N.eqb_spec b c) as [->|Ne]; cbn [orb].
    + apply IH1, takes_choice_r; [exact R|apply takes_str].
    + apply IH2, refuses_choice; [exact R|]. apply refuses_str. cbn. apply N.eqb_neq in Ne. now rewrite N.eqb_sym, Ne.
Qed.

Definition hexb (b : byte) : bool := in_range 48 57 b || in_range 97 102 b || in_range 65 70 b.
Definition hx : expr := EIdent (nm "hex_digit").
Lemma rec_hex : recognises hexb hx.
Proof. eapply rec_rule; [reflexivity|]. apply rec_choice; [apply rec_choice|]; apply rec_range. Qed.
Lemma hexval_hexb b d : hexval b = Some d -> (b < 128)%N /\ hexb b = true.
Proof.
  intros H. destruct (hexval_bound b d H) as [_ R]. split; [lia|]. unfold hexb, in_range.
  destruct R as [R|[R|R]]; destruct R as [R1 R2]; apply N.leb_le in R1, R2; rewrite R1, R2; cbn; rewrite ?orb_true_r; reflexivity.
Qed.
Definition is_hex (b : byte) : Prop := (b < 128)%N /\ hexb b = true.
Lemma spells_hex_digits c ds : spells_hex c ds -> Forall is_hex ds.
Proof. intros S. eapply Forall_impl; [|exact (spells_nat_all _ _ _ _ S)]. intros b (d & Hd). now apply (hexval_hexb b d). Qed.

(* x? ~ (x? ~ ...), k + 1 options: up to k + 1 characters of the class, then something outside it *)
Fixpoint opts (x : expr) (k : nat) : expr := match k with O => EOpt x | S k' => ESeq (EOpt x) (opts x k') end.
Lemma opts_takes P x : recognises P x -> forall k (ds rest : list byte), List.length ds <= S k ->
  Forall (fun b : byte => (b < 128)%N /\ P b = true) ds -> follow P rest -> takes (opts x k) ds rest.
Proof.
  intros R. induction k as [|k IH]; intros ds rest L F Fo; cbn [opts]; destruct F as [|d ds [Ld Pd] F].
  - apply passes_opt, (rec_refuses P x rest R Fo).
  - destruct ds; [|cbn in L; lia]. apply takes_opt, (rec_takes P x d rest R Ld Pd).
  - apply (takes_seq _ _ [] []); [apply passes_opt, (rec_refuses P x rest R Fo)|apply IH; [cbn; lia|constructor|exact Fo]].
  - apply (takes_seq _ _ [d] ds); [apply takes_opt, (rec_takes P x d _ R Ld Pd)|apply IH; [cbn in L; lia|exact F|exact Fo]].
Qed.

Definition letters : list byte := [92; 114; 110; 116; 48; 39]%N.
Definition esc_letters : expr := fold_left EChoice (map (fun c : byte => EStr [c]) letters) (EStr [34%N]).

Lemma letters_spec b rest : if named_escape b then takes esc_letters [b] rest else refuses esc_letters (b :: rest).
Proof.
  unfold named_escape. destruct (N.eqb_spec b 34) as [->|N34]; [apply lits_choice, takes_str|].
  assert (X : refuses (EStr [34%N]) (b :: rest)) by (apply refuses_str; cbn; apply N.eqb_neq in N34; now rewrite N.eqb_sym, N34).
  apply (lits_choice letters) in X. cbn [existsb letters] in X.
  repeat (destruct (b =? _)%N; [exact X|]). exact X.
Qed.

(* code = @{ "x" ~ hex_digit{2} } *)
Lemma code_takes h1 h2 c rest : spells_hex c [h1; h2] -> takes (EIdent (nm "code")) [120%N; h1; h2] rest.
Proof.
  intros S. pose proof (spells_hex_digits c _ S) as F. inversion F as [|? ? [L1 P1] F2]; subst. inversion F2 as [|? ? [L2 P2] _]; subst.
  eapply takes_call; [reflexivity|].
  apply (takes_seq _ _ [120%N] [h1; h2]); [apply takes_str|]. apply (takes_unroll _ (ESeq hx hx)); [exact I|reflexivity|].
  apply (takes_seq _ _ [h1] [h2]); apply (rec_takes hexb hx _ _ rec_hex); assumption.
Qed.

(* unicode = @{ "u" ~ opening_brace ~ hex_digit{2, 6} ~ closing_brace } *)
Lemma unicode_takes ds c rest : spells_hex c ds -> 2 <= List.length ds <= 6 ->
  takes (EIdent (nm "unicode")) ([117%N; 123%N] ++ ds ++ [125%N]) rest.
Proof.
  intros Sp L. pose proof (spells_hex_digits c _ Sp) as F.
  destruct F as [|d1 ? [L1 P1] [|d2 ds [L2 P2] F]]; cbn [List.length] in L; try lia.
  eapply takes_call; [reflexivity|]. rewrite app_assoc.
  apply takes_seq; [apply (takes_seq _ _ [117%N; 123%N]); [apply (takes_seq _ _ [117%N] [123%N]); [apply takes_str|]|]|].
  - eapply takes_call; [reflexivity|apply takes_str].
  - (* hex hex hex? hex? hex? hex? *)
    apply (takes_unroll _ (ESeq hx (ESeq hx (opts hx 3)))); [exact I|reflexivity|].
    apply (takes_seq _ _ [d1] (d2 :: ds)); [exact (rec_takes hexb hx d1 _ rec_hex L1 P1)|].
    apply (takes_seq _ _ [d2] ds); [exact (rec_takes hexb hx d2 _ rec_hex L2 P2)|].
    apply (opts_takes hexb hx rec_hex); [lia|exact F|split; [lia|reflexivity]].
  - eapply takes_call; [reflexivity|apply takes_str].
Qed.

(* an escape as Spell.spells_char writes it (everything except the raw character) *)
Inductive escape_text : list byte -> Prop :=
| et_named b c : named_escape b = Some c -> escape_text [92%N; b]
| et_code c h1 h2 : spells_hex c [h1; h2] -> escape_text [92%N; 120%N; h1; h2]
| et_unicode c ds : spells_hex c ds -> 2 <= List.length ds <= 6 -> escape_text ([92%N; 117%N; 123%N] ++ ds ++ [125%N]).

(* escape = @{ backslash ~ (one of the seven letters | code | unicode) } *)
Theorem escape_lex em p sg esc rest : escape_text esc -> skipn p w = esc ++ rest ->
  mev Atomic em (EIdent (nm "escape")) p sg (SMatch (p + List.length esc) sg []).
Proof.
  intros E. revert em p sg. change (takes (EIdent (nm "escape")) esc rest).
  eapply takes_call; [reflexivity|].
  destruct E as [b c Hn|c h1 h2 Sh|c ds Sh L].
  - apply (takes_seq _ _ [92%N] [b]); [apply takes_str|]. apply takes_choice_l, takes_choice_l.
    pose proof (letters_spec b rest) as X. now rewrite Hn in X.
  - apply (takes_seq _ _ [92%N] [120%N; h1; h2]); [apply takes_str|]. apply takes_choice_l, takes_choice_r.
    + exact (letters_spec 120%N _).
    + exact (code_takes h1 h2 c rest Sh).
  - apply (takes_seq _ _ [92%N] ([117%N; 123%N] ++ ds ++ [125%N])); [apply takes_str|]. apply takes_choice_r.
    + apply refuses_choice; [exact (letters_spec 117%N _)|].
      eapply refuses_call; [reflexivity|]. now apply refuses_seq, refuses_str.
    + exact (unicode_takes ds c rest Sh L).
Qed.

Lemma escape_no l : prefixb [92%N] l = false -> refuses (EIdent (nm "escape")) l.
Proof. intros F. eapply refuses_call; [reflexivity|]. apply refuses_seq, refuses_str, F. Qed.

Lemma spells_char_cases q c e : spells_char q c e ->
  (scalar c /\ c <> 92%N /\ c <> q /\ e = encode c) \/ escape_text e.
Proof.
  intros [c0 Sc Hb Hq|c0 b Hn|c0 h1 h2 Hh|c0 ds Sc Hh Hl]; [left; auto|right..].
  - now apply (et_named b c0).
  - now apply (et_code c0 h1 h2).
  - now apply (et_unicode c0 ds).
Qed.

(* one raw character: not the quote, not a backslash *)
Definition raw_unit (q : byte) : expr := seql (ENegPred (chol (EStr [q]) [Lt "\"])) [Rf "ANY"].
Lemma raw_yes (q : byte) c rest : (q < 128)%N -> scalar c -> c <> 92%N -> c <> q -> takes (raw_unit q) (encode c) rest.
Proof.
  intros Lq Sc Hb Hq. apply (takes_seq _ _ [] (encode c)); [|now apply takes_any].
  apply takes_neg, refuses_choice; apply refuses_str, first_byte_ne; auto; reflexivity.
Qed.
Lemma raw_no (q b : byte) rest : (b = q \/ b = 92%N) -> refuses (raw_unit q) (b :: rest).
Proof.
  intros Hb. apply refuses_seq, (refuses_neg _ [b] rest). destruct Hb as [-> | ->]; [apply takes_choice_l, takes_str|].
  destruct (N.eqb_spec q 92) as [->|Ne]; [apply takes_choice_l, takes_str|apply takes_choice_r; [|apply takes_str]].
  apply refuses_str. cbn. apply N.eqb_neq in Ne. now rewrite Ne.
Qed.

(* inner_str = @{ (!(quote | backslash) ~ ANY)* ~ (escape ~ inner_str)? } : a raw run, then nothing or an escape and the rest *)
Definition str_opt : expr := EOpt (seql (Rf "escape") [Rf "inner_str"]).
Definition str_tail (s rest : list byte) : Prop :=
  exists s1 s2, s = s1 ++ s2 /\ takes_star (raw_unit 34%N) s1 (s2 ++ rest) /\ takes str_opt s2 rest.

Lemma inner_str_of_tail s rest : str_tail s rest -> takes (ESeq (ERep (raw_unit 34%N)) str_opt) s rest.
Proof. intros (s1 & s2 & -> & R & O). apply takes_seq; [apply takes_rep, R|exact O]. Qed.

Theorem inner_str_tail cs ew rest : spells_string 34%N cs ew -> str_tail ew (34%N :: rest).
Proof.
  induction 1 as [|c cs e1 ew' Hc Hs IH].
  - exists [], []. split; [reflexivity|]. split; [apply star_nil, raw_no; now left|].
    now apply passes_opt, refuses_seq, escape_no.
  - destruct (spells_char_cases 34%N c e1 Hc) as [(Sc & Hb & Hq & ->)|Esc].
    + (* a raw character: one more round of the raw run *)
      destruct IH as (s1 & s2 & -> & R & O). exists (encode c ++ s1), s2. split; [apply app_assoc|]. split; [|exact O].
      apply star_cons; [now apply raw_yes|exact R].
    + (* an escape: the raw run is empty here, the optional part takes the escape and the rest of the string *)
      exists [], (e1 ++ ew'). split; [reflexivity|]. split.
      * apply star_nil. destruct Esc; apply raw_no; now right.
      * apply takes_opt, takes_seq; [intros em p sg; now apply escape_lex|].
        eapply takes_call; [reflexivity|exact (inner_str_of_tail _ _ IH)].
Qed.

(* name = ${ q ~ inner ~ q }, q a rule that is one byte and inner an atomic rule: the token tree the reader will see *)
Lemma lex_quoted a sg nme qn inn ri (q : byte) e p rest : plain_name nme = true -> is_special nme = false ->
  find_rule G nme = Some {| rname := nme; rty := RCompound; rexpr := seql (EIdent qn) [EIdent inn; EIdent qn] |} ->
  plain_name qn = true -> is_special qn = false -> find_rule G qn = Some {| rname := qn; rty := RNormal; rexpr := EStr [q] |} ->
  plain_name inn = true -> is_special inn = false -> find_rule G inn = Some ri -> rty ri = RAtomic ->
  takes (rexpr ri) e (q :: rest) -> skipn p w = quoted q e ++ rest ->
  mev a true (EIdent nme) p sg
      (SMatch (p + List.length (quoted q e)) sg
         [Node (rule_id G nme) None p (p + List.length (quoted q e))
            [Node (rule_id G qn) None p (p + 1) []; Node (rule_id G inn) None (p + 1) (p + 1 + List.length e) [];
             Node (rule_id G qn) None (p + 1 + List.length e) (p + 1 + List.length e + 1) []]]).
Proof.
  intros PN SP FR PNq SPq FRq PNi SPi FRi Ki T H. unfold quoted in *. cbn [app] in H. rewrite <- app_assoc in H.
  pose proof (at_advance p [q] _ H) as H1. pose proof (at_advance (p + 1) e _ H1) as H2.
  assert (Q : forall p' r', skipn p' w = [q] ++ r' ->
            mev CompoundAtomic true (EIdent qn) p' sg (SMatch (p' + 1) sg [Node (rule_id G qn) None p' (p' + 1) []])).
  { intros p' r' H'. eapply (call_node CompoundAtomic true qn _ CompoundAtomic p' sg (p' + 1) [] PNq FRq); [now rewrite SPq|].
    exact (str_yes _ _ [q] p' sg r' H'). }
  replace (p + List.length (q :: e ++ [q])) with (p + 1 + List.length e + 1) by (cbn [List.length]; rewrite app_length, <- !Nat.add_assoc; reflexivity).
  eapply (call_node a true nme _ CompoundAtomic p sg _ [_; _; _] PN FR); [now rewrite SP|].
  apply (evals_seq_atomic G false _ w CompoundAtomic true _ _ p sg (p + 1 + List.length e) sg [_; _] (SMatch _ sg [_]) eq_refl);
    [|exact (Q _ _ H2)].
  apply (evals_seq_atomic G false _ w CompoundAtomic true _ _ p sg (p + 1) sg [_] (SMatch _ sg [_]) eq_refl); [exact (Q _ _ H)|].
  apply (call_node CompoundAtomic true inn ri Atomic (p + 1) sg _ [] PNi FRi); [now rewrite SPi, Ki|exact (T true _ sg H1)].
Qed.

(* string = ${ quote ~ inner_str ~ quote } *)
Theorem lex_string a sg cs ew p rest : spells_string 34%N cs ew -> skipn p w = quoted 34%N ew ++ rest ->
  mev a true (EIdent (nm "string")) p sg
      (SMatch (p + List.length (quoted 34%N ew)) sg
         [Node (mid MString) None p (p + List.length (quoted 34%N ew))
            [Node (mid MQuote) None p (p + 1) []; Node (mid MInnerStr) None (p + 1) (p + 1 + List.length ew) [];
             Node (mid MQuote) None (p + 1 + List.length ew) (p + 1 + List.length ew + 1) []]]).
Proof.
  intros Sp H.
  eapply (lex_quoted a sg (nm "string") (nm "quote") (nm "inner_str") _ 34%N ew p rest); [reflexivity..| |exact H].
  exact (inner_str_of_tail _ _ (inner_str_tail cs ew rest Sp)).
Qed.

(* inner_chr = @{ escape | !("'" | "\\") ~ ANY } *)
Lemma inner_chr_lex c e rest : spells_char 39%N c e -> takes (EChoice (EIdent (nm "escape")) (raw_unit 39%N)) e rest.
Proof.
  intros Sp. destruct (spells_char_cases 39%N c e Sp) as [(Sc & Hb & Hq & ->)|Esc].
  - apply takes_choice_r; [apply escape_no, first_byte_ne; auto; lia|now apply (raw_yes 39%N)].
  - apply takes_choice_l. intros em p sg. now apply escape_lex.
Qed.

(* character = ${ single_quote ~ inner_chr ~ single_quote } *)
Theorem lex_character a sg c e p rest : spells_char 39%N c e -> skipn p w = quoted 39%N e ++ rest ->
  mev a true (EIdent (nm "character")) p sg
      (SMatch (p + List.length (quoted 39%N e)) sg
         [Node (mid MCharacter) None p (p + List.length (quoted 39%N e))
            [Node (mid MSingleQuote) None p (p + 1) []; Node (mid MInnerChr) None (p + 1) (p + 1 + List.length e) [];
             Node (mid MSingleQuote) None (p + 1 + List.length e) (p + 1 + List.length e + 1) []]]).
Proof.
  intros Sp H.
  eapply (lex_quoted a sg (nm "character") (nm "single_quote") (nm "inner_chr") _ 39%N e p rest); [reflexivity..| |exact H].
  exact (inner_chr_lex c e _ Sp).
Qed.

Lemma gap_end_byte (b : byte) l : b <> 32%N -> b <> 9%N -> b <> 10%N -> b <> 13%N -> b <> 47%N -> gap_end (b :: l).
Proof.
  intros N1 N2 N3 N4 N5.
  assert (E : forall x : byte, x <> b -> (x =? b)%N = false) by (intros x Hx; now apply N.eqb_neq).
  assert (P1 : forall (x : byte) s, x <> b -> prefixb (x :: s) (b :: l) = false) by (intros x s Hx; cbn [prefixb]; now rewrite (E x Hx)).
  unfold gap_end, no_white. repeat split; try left; apply P1; apply not_eq_sym; assumption.
Qed.

Definition string_node (p : nat) (ew : list byte) : tree :=
  Node (mid MString) None p (p + List.length (quoted 34%N ew))
    [Node (mid MQuote) None p (p + 1) []; Node (mid MInnerStr) None (p + 1) (p + 1 + List.length ew) [];
     Node (mid MQuote) None (p + 1 + List.length ew) (p + 1 + List.length ew + 1) []].

(* insensitive_string = { "^" ~ string } : any gap may separate the caret from the literal *)
Theorem lex_insens sg cs ew g p rest : spells_string 34%N cs ew -> gap g -> skipn p w = 94%N :: g ++ quoted 34%N ew ++ rest ->
  let q := p + 1 + List.length g in
  mev NonAtomic true (EIdent (nm "insensitive_string")) p sg
      (SMatch (q + List.length (quoted 34%N ew)) sg
         [Node (mid MInsensitiveString) None p (q + List.length (quoted 34%N ew)) [string_node q ew]]).
Proof.
  intros Sp Hg H q.
  pose proof (at_advance p [94%N] _ H) as H1. pose proof (at_advance (p + 1) g _ H1) as H2.
  eapply (call_node NonAtomic true (nm "insensitive_string") _ NonAtomic p sg _ [string_node q ew]); [reflexivity..|].
  apply (evals_seq G false _ w NonAtomic true _ _ p sg (p + 1) sg [] q sg [] (SMatch _ sg [string_node q ew])).
  - exact (str_yes NonAtomic true [94%N] p sg _ H).
  - refine (gap_lex g true sg (p + 1) _ Hg _ H1). apply (gap_end_byte 34%N); discriminate.
  - exact (lex_string NonAtomic sg cs ew q rest Sp H2).
Qed.

Definition char_node (p : nat) (e : list byte) : tree :=
  Node (mid MCharacter) None p (p + List.length (quoted 39%N e))
    [Node (mid MSingleQuote) None p (p + 1) []; Node (mid MInnerChr) None (p + 1) (p + 1 + List.length e) [];
     Node (mid MSingleQuote) None (p + 1 + List.length e) (p + 1 + List.length e + 1) []].

(* range = { character ~ range_operator ~ character } *)
Theorem lex_range sg lo hi e1 e2 g1 g2 p rest : spells_char 39%N lo e1 -> spells_char 39%N hi e2 -> gap g1 -> gap g2 ->
  skipn p w = quoted 39%N e1 ++ g1 ++ [46%N; 46%N] ++ g2 ++ quoted 39%N e2 ++ rest ->
  let p1 := p + List.length (quoted 39%N e1) + List.length g1 in
  let p2 := p1 + 2 + List.length g2 in
  mev NonAtomic true (EIdent (nm "range")) p sg
      (SMatch (p2 + List.length (quoted 39%N e2)) sg
         [Node (mid MRange) None p (p2 + List.length (quoted 39%N e2))
            [char_node p e1; Node (mid MRangeOperator) None p1 (p1 + 2) []; char_node p2 e2]]).
Proof.
  intros S1 S2 Hg1 Hg2 H p1 p2.
  pose proof (at_advance p _ _ H) as Ha. pose proof (at_advance _ g1 _ Ha) as Hb. fold p1 in Hb.
  pose proof (at_advance p1 [46%N; 46%N] _ Hb) as Hc. pose proof (at_advance (p1 + 2) g2 _ Hc) as Hd. fold p2 in Hd.
  eapply (call_node NonAtomic true (nm "range") _ NonAtomic p sg _ [_; _; _]); [reflexivity..|].
  apply (evals_seq G false _ w NonAtomic true _ _ p sg (p1 + 2) sg [_; _] p2 sg [] (SMatch _ sg [_])).
  - apply (evals_seq G false _ w NonAtomic true _ _ p sg (p + List.length (quoted 39%N e1)) sg [_] p1 sg [] (SMatch _ sg [_])).
    + exact (lex_character NonAtomic sg lo e1 p _ S1 H).
    + refine (gap_lex g1 true sg (p + List.length (quoted 39%N e1)) _ Hg1 _ Ha). apply (gap_end_byte 46%N); discriminate.
    + eapply (call_node NonAtomic true (nm "range_operator") _ NonAtomic p1 sg _ []); [reflexivity..|].
      exact (str_yes NonAtomic true [46%N; 46%N] p1 sg _ Hb).
  - refine (gap_lex g2 true sg (p1 + 2) _ Hg2 _ Hc). apply (gap_end_byte 39%N); discriminate.
  - exact (lex_character NonAtomic sg hi e2 p2 rest S2 Hd).
Qed.
End Lex.
