(* C07 - tokenisation half: grammar_rule on a printed rule and on a `///` line, grammar_rules on the text of a whole
   printed grammar (SOI ~ grammar_doc* ~ grammar_rule* ~ EOI), and the closing theorem.  grammar.pest
   (Tokens.meta_grammar) under the documented PEG semantics (Peg.Spec) tokenises EVERY legal spelling of a concrete
   grammar cg (Text.prints_grammar: any gaps, comments, doc lines, escapes, leading bars, explicit parentheses) as
   tokens_of_grammar cg, each leaf covering its lexeme. *)
From Coq Require Import List Arith NArith ZArith Bool Lia String.
Import ListNotations.
Require Import PV.Comb.PState PV.Comb.Bytes PV.Comb.Utf8 PV.Iter.Queue PV.Peg.Ast PV.Peg.Spec PV.Peg.SpecFacts.
Require Import PV.Meta.Tokens PV.Meta.Unescape PV.Meta.Consume PV.Meta.Spell PV.Meta.LexProofs PV.Meta.Text PV.Meta.Proofs PV.Meta.Top.
Require Import PV.Meta.PegRules PV.Meta.LexPeg PV.Meta.TokBase PV.Meta.TokLex PV.Meta.TokPost PV.Meta.TokOper.
Require Import PV.Meta.TokAtom PV.Meta.TokAtom2 PV.Meta.TokTerm PV.Meta.TokMain.
Local Open Scope string_scope.
Local Open Scope list_scope.

Definition GRULE : expr := Rf "grammar_rule".
Definition GDOC : expr := Rf "grammar_doc".
Definition rule_seq : expr :=
  ESeq (ESeq (ESeq (ESeq (ESeq (Rf "identifier") (Rf "assignment_operator")) (EOpt (Rf "modifier"))) (Rf "opening_brace")) EXPR) (Rf "closing_brace").
Definition grules_body : expr := ESeq (ESeq (ESeq (Rf "SOI") (ERep GDOC)) (ERep GRULE)) (Rf "EOI").

Definition good_rule (extras : bool) (r : crule) : Prop :=
  wp (cr_body r) = true /\ writable extras (cr_body r) = true /\ ident_ok (cr_name r) = true.

Lemma gap_end_nil : gap_end [].
Proof. split; [repeat split; reflexivity|]. split; [reflexivity|]. now left. Qed.
Lemma doc_gap_end (c : byte) d l : (c = 47%N \/ c = 33%N) -> doc_line [47%N; 47%N; c] d -> gap_end (d ++ l).
Proof.
  intros Hc (cs & nl & -> & _). cbn [app]. split; [repeat split; reflexivity|]. split; [reflexivity|]. right.
  eexists. destruct Hc as [-> | ->]; [left|right]; reflexivity.
Qed.
Lemma docs_gap_end (c : byte) n dw l : (c = 47%N \/ c = 33%N) -> prints_docs [47%N; 47%N; c] n dw -> gap_end l -> gap_end (dw ++ l).
Proof. intros Hc [|n' d g rest D Hg P] GE; [exact GE|]. rewrite <- app_assoc. exact (doc_gap_end c d _ Hc D). Qed.
Lemma name_start n : ident_ok n = true -> exists b0 n0, n = b0 :: n0 /\ ident_start b0 = true.
Proof.
  unfold ident_ok. intros H. apply andb_prop in H. destruct H as [H _]. destruct n as [|b0 n0]; [discriminate|]. cbn [tag_ok] in H.
  apply andb_prop in H. destruct H as [H _]. eauto.
Qed.
Lemma name_gap_end n l : ident_ok n = true -> gap_end (n ++ l).
Proof. intros H. destruct (name_start n H) as (b0 & n0 & -> & Sb). apply ident_gap_end. now apply ident_start_char. Qed.
Lemma rule_gap_end extras r w1 l : good_rule extras r -> prints_rule r w1 -> gap_end (w1 ++ l).
Proof.
  intros (_ & _ & OK) P0. destruct P0 as [r dw bw g1 g2 g3 g4 g5 g6 gb D P G1 G2 G3 G4 G5 G6 Gb N]. rewrite <- !app_assoc.
  apply (docs_gap_end 47%N (cr_docs r) dw); [left; reflexivity|exact D|]. now apply name_gap_end.
Qed.
Lemma rules_gap_end extras rs w2 l : Forall (good_rule extras) rs -> prints_rules rs w2 -> gap_end l -> gap_end (w2 ++ l).
Proof.
  intros F P0 GE. destruct P0 as [|r rs' w1 w2' P1 P2]; [exact GE|]. inversion F as [|? ? Gr _]; subst. rewrite <- app_assoc.
  exact (rule_gap_end extras r w1 _ Gr P1).
Qed.
Lemma nl_gap nl g : (nl = [10%N] \/ nl = [13%N; 10%N]) -> gap g -> gap (nl ++ g).
Proof. intros [-> | ->] Hg; apply gap_white; auto; constructor. Qed.

Lemma rtype_eq_dec (a b : rtype) : {a = b} + {a <> b}.
Proof. decide equality. Qed.

Definition rule_sk (r : crule) : skel :=
  SK MGrammarRule LNone
     (SK MIdentifier (LName (cr_name r)) [] :: sk MAssignmentOperator :: sk_modifier (cr_ty r) ++
      [sk MOpeningBrace; SK MExpression LNone (sk_bar (cr_bar r) ++ fe (cr_body r)); sk MClosingBrace]).

Section Top.
Variable w : list byte.
Variable sg : list str.
Variable extras : bool.
Notation at_ := (at_ w).
Notation ok := (ok w sg).
Notation no := (no w sg).
Notation SM := (SM w).
Notation urun := (urun w sg).
Notation lands := (lands w).
Notation reads := (reads w sg).
Notation fails := (fails w sg).

Lemma modifier_reads ty g3 l : gap g3 -> (ty = RNormal -> g3 = []) ->
  gap_end (modifier_text ty ++ g3 ++ 123%N :: l) /\
  exists l', reads (EOpt (Rf "modifier")) (modifier_text ty ++ g3 ++ 123%N :: l) l' (sk_modifier ty) /\ gapped l' (123%N :: l).
Proof.
  intros G3 N. destruct (rtype_eq_dec ty RNormal) as [->|NN].
  - rewrite (N eq_refl). split; [now apply gap_end_b|]. exists (123%N :: l). split; [|apply gapped_refl; now apply gap_end_b].
    apply reads_opt_none. apply modifier_no.
  - split; [destruct ty; [congruence|now apply gap_end_b..]|]. exists (g3 ++ 123%N :: l). split; [|now apply gapped_b].
    apply reads_opt. now apply modifier_ok.
Qed.

(* name = modifier? { |? body }   (without the doc lines in front and the gap behind) *)
Lemma rule_reads r bw g1 g2 g3 g4 g5 gb l :
  prints (cr_body r) bw -> good_rule extras r -> gap g1 -> gap g2 -> gap g3 -> gap g4 -> gap g5 -> gap gb -> (cr_ty r = RNormal -> g3 = []) ->
  reads GRULE (cr_name r ++ g1 ++ 61%N :: g2 ++ modifier_text (cr_ty r) ++ g3 ++ 123%N :: g4 ++ opt_bar (cr_bar r) gb ++ bw ++ g5 ++ 125%N :: l) l [rule_sk r].
Proof.
  intros P (W & Wr & OK) G1 G2 G3 G4 G5 Gb N.
  destruct (modifier_reads (cr_ty r) g3 (g4 ++ opt_bar (cr_bar r) gb ++ bw ++ g5 ++ 125%N :: l) G3 N) as (GEm & lm & Rm & Gm).
  apply (reads_as w sg _ _ _ [SK MGrammarRule LNone
           (((([SK MIdentifier (LName (cr_name r)) []] ++ [sk MAssignmentOperator]) ++ sk_modifier (cr_ty r)) ++ [sk MOpeningBrace]) ++
            [SK MExpression LNone (sk_bar (cr_bar r) ++ fe (cr_body r)); sk MClosingBrace])]); [|unfold rule_sk; cbn [app]; now rewrite <- !app_assoc].
  apply (reads_normal w sg "grammar_rule" _ _ _ _ _ eq_refl eq_refl). apply (reads_alt0 w sg rule_seq [Rf "line_doc"]).
  exact (enclosed_reads w sg _ "closing_brace" 125%N _ _ _ (cr_body r) bw (cr_bar r) gb g4 g5 l eq_refl eq_refl eq_refl
           (claims_all w sg extras _ bw P W Wr)
           (reads_seq (reads_seq (reads_seq (identifier_reads w sg (cr_name r) _ OK (hard_follow_ident g1 61%N _ G1 eq_refl))
                                            (gapped_b g1 61%N _ G1 eq_refl) (tok_reads w sg "assignment_operator" 61%N _ _ eq_refl eq_refl))
                                 (gapped_intro g2 _ G2 GEm) Rm) Gm (ob_reads w sg _)) G4 Gb G5).
Qed.

(* a `///` line is a grammar_rule of its own *)
Lemma rule_doc_reads d rest : doc_line [47; 47; 47]%N d ->
  exists b nl, d = [47; 47; 47]%N ++ b ++ nl /\ (nl = [10%N] \/ nl = [13%N; 10%N]) /\
    reads GRULE ([47; 47; 47]%N ++ b ++ nl ++ rest) (nl ++ rest) [sk_line_doc].
Proof.
  intros D. destruct (doc_reads w sg "line_doc" (nm "///") MLineDoc d rest eq_refl eq_refl D) as (b & nl & E & Hnl & R).
  exists b, nl. split; [exact E|]. split; [exact Hnl|].
  apply (reads_normal w sg "grammar_rule" _ _ _ _ _ eq_refl eq_refl). apply (reads_alt w sg rule_seq [] (Rf "line_doc") []); [|exact R].
  do 5 apply fails_seq1. apply identifier_fails. split; reflexivity.
Qed.

Lemma rule_no_end : fails GRULE [].
Proof.
  apply (fails_call w sg "grammar_rule" _ _ [] eq_refl (or_intror eq_refl)). apply (fails_alts w sg rule_seq [Rf "line_doc"]).
  - do 5 apply fails_seq1. now apply identifier_fails.
  - repeat constructor. now apply (doc_fails w sg "line_doc" (nm "///")).
Qed.

Lemma docs_run (c : byte) x k : (c = 47%N \/ c = 33%N) ->
  (forall d rest, doc_line [47%N; 47%N; c] d -> exists b nl, d = [47%N; 47%N; c] ++ b ++ nl /\ (nl = [10%N] \/ nl = [13%N; 10%N]) /\
     reads x ([47%N; 47%N; c] ++ b ++ nl ++ rest) (nl ++ rest) [k]) ->
  forall n dw, prints_docs [47%N; 47%N; c] n dw -> forall q0 p l, lands q0 p -> at_ p (dw ++ l) -> gap_end l ->
  exists q1 F, urun x q0 q1 F /\ lands q1 (p + List.length dw) /\ SM (repeat k n) F.
Proof.
  intros Hc One n dw P. induction P as [|n d g rest D Hg P IH]; intros q0 p l La H GE.
  - exists q0, []. split; [constructor|]. split; [cbn [List.length]; now rewrite Nat.add_0_r|apply SM_nil].
  - destruct (One d (g ++ rest ++ l) D) as (b & nl & -> & Hnl & R). rewrite <- !app_assoc in H.
    destruct (reads_at w sg _ _ ([47%N; 47%N; c] ++ b) _ _ p R ltac:(now rewrite <- app_assoc) H) as (F & O & M & Hq).
    rewrite app_assoc in Hq. pose proof (at_app w _ _ _ Hq) as H2.
    pose proof (lands_gap w _ (nl ++ g) _ _ Hq (nl_gap nl g Hnl Hg) (docs_gap_end c n rest l Hc P GE) eq_refl) as La'.
    destruct (IH _ _ l La' H2 GE) as (q1 & F1 & R1 & L1 & M1).
    exists q1, (F ++ F1). split; [exact (ur_cons w sg x q0 p _ F q1 F1 (lands_sk w sg _ _ La) O R1)|]. split.
    + apply (lands_eq w q1 _ _ L1). len.
    + exact (SM_app w [k] _ F F1 M M1).
Qed.

Definition line_docs_run := docs_run 47%N GRULE sk_line_doc (or_introl eq_refl) rule_doc_reads.
Definition grammar_docs_run :=
  docs_run 33%N GDOC (SK MGrammarDoc LNone [sk MInnerDoc]) (or_intror eq_refl)
           (fun d rest => doc_reads w sg "grammar_doc" (nm "//!") MGrammarDoc d rest eq_refl eq_refl).

(* the rules: grammar_rule once per doc line and once per rule *)
Lemma rules_run rs text : prints_rules rs text -> Forall (good_rule extras) rs -> forall q0 p l, lands q0 p -> at_ p (text ++ l) -> gap_end l ->
  exists q1 F, urun GRULE q0 q1 F /\ lands q1 (p + List.length text) /\ SM (flat_map tokens_of_rule rs) F.
Proof.
  induction 1 as [|r rs w1 w2 P1 P2 IH]; intros Fg q0 p l La H GE.
  - exists q0, []. split; [constructor|]. split; [cbn [List.length]; now rewrite Nat.add_0_r|apply SM_nil].
  - inversion Fg as [|? ? Gr Fg']; subst. pose proof (rules_gap_end extras rs w2 l Fg' P2 GE) as GE2.
    destruct P1 as [r dw bw g1 g2 g3 g4 g5 g6 gb D P G1 G2 G3 G4 G5 G6 Gb N]. norm H.
    destruct (line_docs_run (cr_docs r) dw D q0 p _ La H (name_gap_end (cr_name r) _ (proj2 (proj2 Gr)))) as (q1 & F1 & R1 & L1 & M1).
    destruct (reads_at w sg _ _ (cr_name r ++ g1 ++ [61%N] ++ g2 ++ modifier_text (cr_ty r) ++ g3 ++ [123%N] ++ g4 ++ opt_bar (cr_bar r) gb ++ bw ++ g5 ++ [125%N]) _ _ _
                (rule_reads r bw g1 g2 g3 g4 g5 gb _ P Gr G1 G2 G3 G4 G5 Gb N) ltac:(normg; reflexivity) (at_app w p dw _ H)) as (F2 & O2 & M2 & He).
    pose proof (lands_gap w _ g6 _ _ He G6 GE2 eq_refl) as La2.
    destruct (IH Fg' _ _ l La2 (at_app w _ g6 _ He) GE) as (q3 & F3 & R3 & L3 & M3).
    exists q3, ((F1 ++ F2) ++ F3). split; [exact (urun_app w sg GRULE q0 _ q3 _ _ (urun_snoc w sg GRULE q0 q1 F1 _ _ F2 R1 (lands_sk w sg _ _ L1) O2) R3)|].
    split; [apply (lands_eq w q3 _ _ L3); len|].
    cbn [flat_map]. change (tokens_of_rule r) with (repeat sk_line_doc (cr_docs r) ++ [rule_sk r]). apply SM_app; [apply SM_app; assumption|exact M3].
Qed.

Lemma gdoc_no_rules rs tr text n : prints_rules rs text -> Forall (good_rule extras) rs -> prints_docs [47%N; 47%N; 47%N] n tr ->
  prefixb (nm "//!") (text ++ tr) = false.
Proof.
  assert (D : forall k dw l, prints_docs [47%N; 47%N; 47%N] k dw -> prefixb (nm "//!") l = false -> prefixb (nm "//!") (dw ++ l) = false).
  { intros k dw l [|k' d g rest (cs & nl & -> & _) Hg P] Hl; [exact Hl|reflexivity]. }
  intros P0 Fg Pt. destruct P0 as [|r rs' w1 w2 P1 P2].
  - cbn [app]. rewrite <- (app_nil_r tr). now apply (D n).
  - inversion Fg as [|? ? (_ & _ & OK) _]; subst. destruct P1 as [r dw bw g1 g2 g3 g4 g5 g6 gb Dd]. rewrite <- !app_assoc. apply (D (cr_docs r) dw); [exact Dd|].
    destruct (name_start _ OK) as (b0 & n0 & -> & Sb). change (nm "//!") with (47%N :: [47; 33]%N). apply hd_ne_prefix. cbn. intros ->. discriminate.
Qed.
End Top.

Theorem tokenisation (extras : bool) (cg : cgrammar) (text : list byte) :
  prints_grammar cg text -> valid_utf8 text ->
  Forall (fun r => wp (cr_body r) = true /\ writable extras (cr_body r) = true /\ ident_ok (cr_name r) = true) (cg_rules cg) ->
  tokenises text cg.
Proof.
  intros (g0 & gd & rs & tr & Et & G0 & Pgd & Prs & Ptr) _ Fg.
  set (w := text). set (sg := @nil str).
  assert (H0 : at_ w 0 (g0 ++ gd ++ rs ++ tr ++ [])) by (unfold at_, w; cbn [skipn]; now rewrite app_nil_r).
  pose proof (docs_gap_end 47%N (cg_trailing cg) tr [] (or_introl eq_refl) Ptr gap_end_nil) as GE3.
  pose proof (rules_gap_end extras (cg_rules cg) rs _ Fg Prs GE3) as GE2.
  pose proof (docs_gap_end 33%N (cg_docs cg) gd _ (or_intror eq_refl) Pgd GE2) as GE1.
  (* SOI, the gap, the grammar docs *)
  assert (S0 : ok w sg (Rf "SOI") 0 0 []) by exact (evals_soi meta_grammar false (fun _ => None) w NonAtomic true 0 sg).
  pose proof (lands_gap w 0 g0 _ _ H0 G0 GE1 eq_refl) as La0.
  pose proof (at_app w 0 g0 _ H0) as H1.
  destruct (grammar_docs_run w sg (cg_docs cg) gd Pgd 0 _ _ La0 H1 GE2) as (q1 & Fd & R1 & L1 & M1).
  set (e1 := 0 + List.length g0 + List.length gd) in *. pose proof (at_app w _ gd _ H1) as H2. fold e1 in H2.
  assert (N1 : no w sg GDOC e1).
  { apply (doc_fails w sg "grammar_doc" (nm "//!") _ eq_refl) with (2 := H2). rewrite app_nil_r.
    exact (gdoc_no_rules extras (cg_rules cg) tr rs (cg_trailing cg) Prs Fg Ptr). }
  destruct (seq_rep w sg (Rf "SOI") GDOC 0 0 [] q1 Fd e1 S0 R1 (lands_sk w sg _ _ L1) N1) as (qe1 & X1 & E1).
  pose proof (lands_or w q1 e1 qe1 L1 E1) as L1'.
  (* the rules and the trailing doc lines *)
  destruct (rules_run w sg extras (cg_rules cg) rs Prs Fg qe1 e1 _ L1' H2 GE3) as (q2 & Fr & R2 & L2 & M2).
  pose proof (at_app w _ rs _ H2) as H3.
  destruct (line_docs_run w sg (cg_trailing cg) tr Ptr q2 _ [] L2 H3 gap_end_nil) as (q3 & Ft & R3 & L3 & M3).
  set (e3 := e1 + List.length rs + List.length tr) in *. pose proof (at_app w _ tr _ H3) as H4. fold e3 in H4.
  pose proof (urun_app w sg GRULE qe1 q2 q3 Fr Ft R2 R3) as R23.
  destruct (seq_rep w sg _ GRULE 0 qe1 _ q3 (Fr ++ Ft) e3 X1 R23 (lands_sk w sg _ _ L3) (rule_no_end w sg e3 H4)) as (qe2 & X2 & E2).
  pose proof (lands_or w q3 e3 qe2 L3 E2) as L3'.
  (* EOI *)
  assert (Elen : e3 = List.length w).
  { unfold e3, e1, w. rewrite Et. unfold byte. rewrite !app_length. lia. }
  assert (S3 : ok w sg (Rf "EOI") e3 e3 [Node (rule_id meta_grammar (nm "EOI")) None e3 e3 []]).
  { pose proof (evals_eoi meta_grammar false (fun _ => None) w NonAtomic true e3 sg) as X.
    replace (Nat.eqb e3 (List.length w)) with true in X by (symmetry; apply Nat.eqb_eq; exact Elen). exact X. }
  pose proof (seq_ok w sg _ (Rf "EOI") 0 qe2 _ e3 e3 _ X2 (lands_sk w sg _ _ L3') S3) as X3.
  pose proof (call_silent w sg (nm "grammar_rules") {| rname := nm "grammar_rules"; rty := RSilent; rexpr := grules_body |} 0 _ eq_refl eq_refl X3) as X4.
  destruct X4 as (n & En & _). exists n. intros f Lf.
  eexists e3, sg, _. split.
  - unfold spec_parse. exact (evals_up meta_grammar false (fun _ => None) w NonAtomic true _ 0 sg _ n En (dM _ _ _) f Lf).
  - change (SM w (tokens_of_grammar cg) ((([] ++ Fd) ++ Fr ++ Ft) ++ [Node (rule_id meta_grammar (nm "EOI")) None e3 e3 []])).
    unfold tokens_of_grammar. cbn [app]. rewrite <- !app_assoc.
    apply SM_app; [exact M1|]. apply SM_app; [exact M2|]. apply SM_app; [exact M3|]. apply SM_leaf. reflexivity.
Qed.
