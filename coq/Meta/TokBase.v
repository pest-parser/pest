(* C07 - tokenisation half, the toolkit.
   Everything is said about ONE text w and one (never changing) stack sg, in the mode in which the expression-level
   rules of grammar.pest run: NonAtomic, tokens emitted.
     [ok e p q F] / [no e p]  : e matches from p to q with forest F / fails at p      (fuel-free, PegRules.evals)
     [skp p q]                : the implicit skipping leads from p to q
     [urun x p q F]           : some rounds  (skip ; x)  of a repetition lead from p to q and yield F
     [lands q e]              : from q only a gap separates us from e, where something that is no gap begins
     [SM ks F]                : the forest F has the shape ks and its leaves cover the right lexemes
     [reads e l l' ks]        : wherever the text l stands, e matches the part of it in front of l', with shape ks
     [fails e l]              : wherever the text l stands, e fails
   [reads] and [fails] follow the text and not the positions: a rule body  a ~ b ~ c  reads what a, b and c read with
   gaps in between ([reads_seq]), so the lemma about a rule of grammar.pest has the shape of its body. *)
From Coq Require Import List Arith NArith ZArith Bool Lia String.
Import ListNotations.
Require Import PV.Comb.PState PV.Comb.Bytes PV.Comb.Utf8 PV.Iter.Queue PV.Peg.Ast PV.Peg.Spec PV.Peg.SpecFacts.
Require Import PV.Meta.Tokens PV.Meta.Unescape PV.Meta.Spell PV.Meta.LexProofs PV.Meta.Text PV.Meta.Proofs.
Require Import PV.Meta.PegRules PV.Meta.LexPeg.
Local Open Scope string_scope.
Local Open Scope list_scope.

Ltac len := unfold byte in *; repeat (progress (cbn [List.length]; rewrite ?app_length)); cbn [List.length]; lia.
(* right-nest the appends of a hypothesis about the text, singletons as conses *)
Ltac norm H := repeat (progress (rewrite <- ?app_assoc in H; cbn [app] in H)).

Section Base.
Variable w : list byte.
Variable sg : list str.
Notation G := meta_grammar.
Notation mev := (evals G false (fun _ => None) w).

Definition at_ (p : nat) (l : list byte) : Prop := skipn p w = l.
Definition ev (e : expr) (p : nat) (r : sres) : Prop := mev NonAtomic true e p sg r.
Definition ok (e : expr) (p q : nat) (F : list tree) : Prop := ev e p (SMatch q sg F).
Definition no (e : expr) (p : nat) : Prop := ev e p SFail.
Definition skp (p q : nat) : Prop := skips G false (fun _ => None) w NonAtomic true p sg (SMatch q sg []).

Lemma at_app p s l : at_ p (s ++ l) -> at_ (p + List.length s) l.
Proof. apply at_advance. Qed.
Lemma at_cons p b l : at_ p (b :: l) -> at_ (p + 1) l.
Proof. intros H. apply (at_advance w p [b] l H). Qed.

Lemma slice_at p s l q : at_ p (s ++ l) -> q = p + List.length s -> slice w p q = s.
Proof.
  intros H ->. unfold slice. replace (p + List.length s - p) with (List.length s) by lia. unfold at_ in H. rewrite H.
  rewrite firstn_app, firstn_all, Nat.sub_diag. cbn [firstn]. apply app_nil_r.
Qed.

Lemma ok_eq e p q q' F : ok e p q F -> q = q' -> ok e p q' F.
Proof. now intros H <-. Qed.

Lemma seq_ok l r p p1 f1 p2 p3 f3 : ok l p p1 f1 -> skp p1 p2 -> ok r p2 p3 f3 -> ok (ESeq l r) p p3 (f1 ++ f3).
Proof. intros A B C. exact (evals_seq G false _ w NonAtomic true l r p sg p1 sg f1 p2 sg [] (SMatch p3 sg f3) A B C). Qed.
Lemma seq_no1 l r p : no l p -> no (ESeq l r) p.
Proof. apply evals_seq_fail. Qed.
Lemma seq_no2 l r p p1 f1 p2 : ok l p p1 f1 -> skp p1 p2 -> no r p2 -> no (ESeq l r) p.
Proof. intros A B C. exact (evals_seq G false _ w NonAtomic true l r p sg p1 sg f1 p2 sg [] SFail A B C). Qed.
Lemma opt_some x p q F : ok x p q F -> ok (EOpt x) p q F.
Proof. intros H. exact (evals_opt G false _ w NonAtomic true x p sg _ H). Qed.
Lemma opt_none x p : no x p -> ok (EOpt x) p p [].
Proof. intros H. exact (evals_opt G false _ w NonAtomic true x p sg _ H). Qed.
Lemma str_ok s p l : at_ p (s ++ l) -> ok (EStr s) p (p + List.length s) [].
Proof. apply str_yes. Qed.
Lemma str_fail s p l : at_ p l -> prefixb s l = false -> no (EStr s) p.
Proof. apply str_no. Qed.

(* a silent or normal rule runs its body in the caller's mode *)
Lemma call_silent n r p res : rule_named n = Some r -> rty r = RSilent ->
  ev (rexpr r) p res -> ev (EIdent n) p res.
Proof.
  intros (PN & SP & FR)%rule_named_inv K H. pose proof (evals_call G false (fun _ => None) w NonAtomic true n r p sg res PN FR) as C.
  rewrite SP, K in C. cbn [rule_mode snd fst] in C. specialize (C H). destruct res; exact C.
Qed.
Lemma call_normal n r p q F : rule_named n = Some r -> rty r = RNormal ->
  ok (rexpr r) p q F -> ok (EIdent n) p q [Node (rule_id G n) None p q F].
Proof.
  intros (PN & SP & FR)%rule_named_inv K H. pose proof (evals_call G false (fun _ => None) w NonAtomic true n r p sg (SMatch q sg F) PN FR) as C.
  rewrite SP, K in C. cbn [rule_mode snd fst tok andb negb atom_eqb] in C. exact (C H).
Qed.
Lemma call_normal_no n r p : rule_named n = Some r -> rty r = RNormal ->
  no (rexpr r) p -> no (EIdent n) p.
Proof.
  intros (PN & SP & FR)%rule_named_inv K H. pose proof (evals_call G false (fun _ => None) w NonAtomic true n r p sg SFail PN FR) as C.
  rewrite SP, K in C. cbn [rule_mode snd fst tok andb negb atom_eqb] in C. exact (C H).
Qed.

Inductive urun (x : expr) : nat -> nat -> list tree -> Prop :=
| ur_nil q : urun x q q []
| ur_cons q ps p1 f1 q' F : skp q ps -> ok x ps p1 f1 -> urun x p1 q' F -> urun x q q' (f1 ++ F).

Lemma urun_app x a b c F1 F2 : urun x a b F1 -> urun x b c F2 -> urun x a c (F1 ++ F2).
Proof. induction 1 as [|q ps p1 f1 q' F S O R IH]; intros H; [exact H|]. rewrite <- app_assoc. eapply ur_cons; eauto. Qed.
Lemma urun_one x q ps p1 f1 : skp q ps -> ok x ps p1 f1 -> urun x q p1 f1.
Proof. intros S O. rewrite <- (app_nil_r f1). eapply ur_cons; [exact S|exact O|constructor]. Qed.
Lemma urun_snoc x a b F ps c f : urun x a b F -> skp b ps -> ok x ps c f -> urun x a c (F ++ f).
Proof. intros R S O. eapply urun_app; [exact R|]. eapply urun_one; eauto. Qed.
Lemma urun_eq x a b b' F : urun x a b F -> b = b' -> urun x a b' F.
Proof. now intros H <-. Qed.

Lemma urun_reps x q q' F : urun x q q' F -> forall acc res,
  reps G false (fun _ => None) w NonAtomic true x q' sg (acc ++ F) res -> reps G false (fun _ => None) w NonAtomic true x q sg acc res.
Proof.
  induction 1 as [|q ps p1 f1 q' F S O R IH]; intros acc res H; [now rewrite app_nil_r in H|].
  apply (reps_step G false _ w NonAtomic true x q sg acc p1 sg f1).
  - exact (runits_intro G false _ w NonAtomic true x q sg ps sg [] (SMatch p1 sg f1) S O).
  - apply IH. now rewrite <- app_assoc.
Qed.

(* L ~ x* : the rounds, then a round that fails.  The match ends after the last round, or - when there is no
   round at all - after the skipping that follows L (pest's trailing-whitespace behaviour) *)
Lemma seq_rep L x p pt F1 q F qs : ok L p pt F1 -> urun x pt q F -> skp q qs -> no x qs ->
  exists qe, ok (ESeq L (ERep x)) p qe (F1 ++ F) /\ (qe = q \/ qe = qs).
Proof.
  intros HL R S N. destruct R as [q|q ps p1 f1 q' F S1 O1 R].
  - exists qs. split; [|now right]. apply (seq_ok L (ERep x) p q F1 qs qs [] HL S).
    exact (evals_rep G false _ w NonAtomic true x qs sg N).
  - exists q'. split; [|now left]. apply (seq_ok L (ERep x) p q F1 ps q' (f1 ++ F) HL S1).
    apply (evals_rep_more G false _ w NonAtomic true x ps sg p1 sg f1 _ O1).
    apply (urun_reps x p1 q' F R f1). apply reps_stop.
    exact (runits_intro G false _ w NonAtomic true x q' sg qs sg [] SFail S N).
Qed.

Lemma gap_app a b : gap a -> gap b -> gap (a ++ b).
Proof.
  induction 1 as [|x g Hx Hg IH|x g Hx Hg IH|x g Hx Hg IH]; intros Hb; [exact Hb| | |]; rewrite <- app_assoc.
  - apply gap_white; auto.
  - apply gap_block; auto.
  - apply gap_line; auto.
Qed.
Definition gapb (b : byte) : bool := (b =? 32)%N || (b =? 9)%N || (b =? 10)%N || (b =? 13)%N || (b =? 47)%N.
Lemma gap_head g : gap g -> g = [] \/ exists b l, g = b :: l /\ gapb b = true.
Proof.
  induction 1 as [|a g Wa Hg IH|a g Ba Hg IH|a g La Hg IH]; [now left|right..].
  - destruct Wa; eexists; eexists; (split; [reflexivity|reflexivity]).
  - destruct Ba. eexists; eexists; (split; [reflexivity|reflexivity]).
  - destruct La as (cs & nl & -> & _). eexists; eexists; (split; [reflexivity|reflexivity]).
Qed.
Lemma gapb_cases b : gapb b = true -> b = 32%N \/ b = 9%N \/ b = 10%N \/ b = 13%N \/ b = 47%N.
Proof. unfold gapb. intros H. repeat (apply orb_prop in H; destruct H as [H|H]); apply N.eqb_eq in H; auto. Qed.
Lemma gap_end_b b l : gapb b = false -> gap_end (b :: l).
Proof.
  unfold gapb. intros H. repeat (apply orb_false_iff in H; destruct H as [H ?]). apply gap_end_byte; intros ->; discriminate.
Qed.

(* a byte that can neither start nor continue a gap, nor continue an identifier or a number *)
Definition hardb (b : byte) : bool := (b <? 128)%N && negb (gapb b) && negb (ident_char b).
Lemma hardb_inv b : hardb b = true -> (b < 128)%N /\ gapb b = false /\ ident_char b = false.
Proof.
  unfold hardb. intros H. apply andb_prop in H. destruct H as [H H3]. apply andb_prop in H. destruct H as [H1 H2].
  apply N.ltb_lt in H1. apply negb_true_iff in H2, H3. auto.
Qed.
Lemma hard_gap_end b l : hardb b = true -> gap_end (b :: l).
Proof. intros H. apply gap_end_b. apply (hardb_inv b H). Qed.
Lemma follow_gap P g b l : gap g -> (forall x, gapb x = true -> P x = false) -> (b < 128)%N -> P b = false -> follow P (g ++ b :: l).
Proof.
  intros Hg HP Lb Pb. destruct (gap_head g Hg) as [->|(x & l' & -> & Hx)]; [split; assumption|].
  cbn [app follow]. split; [|now apply HP]. destruct (gapb_cases x Hx) as [->|[->|[->|[->| ->]]]]; reflexivity.
Qed.
Lemma hard_follow_ident g b l : gap g -> hardb b = true -> follow ident_char (g ++ b :: l).
Proof.
  intros Hg H. destruct (hardb_inv b H) as (H1 & _ & H3). apply follow_gap; auto.
  intros x Hx. destruct (gapb_cases x Hx) as [->|[->|[->|[->| ->]]]]; reflexivity.
Qed.
Lemma follow_ident_digit l : follow ident_char l -> follow digitb l.
Proof. destruct l as [|b l]; [auto|]. intros [L H]. split; [exact L|]. apply orb_false_iff in H. apply H. Qed.
Lemma hard_follow_digit g b l : gap g -> hardb b = true -> follow digitb (g ++ b :: l).
Proof. intros Hg H. apply follow_ident_digit. now apply hard_follow_ident. Qed.

Lemma skp_gap p g l : at_ p (g ++ l) -> gap g -> gap_end l -> skp p (p + List.length g).
Proof. intros H Hg Hl. exact (gap_lex w g true sg p l Hg Hl H). Qed.

Definition lands (q e : nat) : Prop := exists g l, gap g /\ gap_end l /\ at_ q (g ++ l) /\ e = q + List.length g.
Lemma lands_sk q e : lands q e -> skp q e.
Proof. intros (g & l & Hg & Hl & H & ->). exact (skp_gap q g l H Hg Hl). Qed.
Lemma lands_at q e : lands q e -> exists l, at_ e l /\ gap_end l.
Proof. intros (g & l & Hg & Hl & H & ->). exists l. split; [now apply at_app|exact Hl]. Qed.
Lemma lands_refl e l : at_ e l -> gap_end l -> lands e e.
Proof. intros H Hl. exists [], l. split; [constructor|]. split; [exact Hl|]. split; [exact H|]. cbn. lia. Qed.
Lemma lands_end q e : lands q e -> lands e e.
Proof. intros H. destruct (lands_at q e H) as (l & A & B). exact (lands_refl e l A B). Qed.
Lemma lands_gap q g l e : at_ q (g ++ l) -> gap g -> gap_end l -> e = q + List.length g -> lands q e.
Proof. intros H Hg Hl ->. exists g, l. auto. Qed.
Lemma lands_or q e qe : lands q e -> qe = q \/ qe = e -> lands qe e.
Proof. intros H [-> | ->]; [exact H|exact (lands_end q e H)]. Qed.
Lemma lands_eq q e e' : lands q e -> e = e' -> lands q e'.
Proof. now intros H <-. Qed.

Definition SM (ks : list skel) (F : list tree) : Prop := smatch_list false w ks (map of_tree F).
Lemma SM_nil : SM [] [].
Proof. exact I. Qed.
Lemma SM_app k1 k2 F1 F2 : SM k1 F1 -> SM k2 F2 -> SM (k1 ++ k2) (F1 ++ F2).
Proof.
  unfold SM. revert F1. induction k1 as [|k k1 IH]; intros [|t F1]; cbn [map app smatch_list]; try tauto.
  intros [A B] C. split; [exact A|]. now apply IH.
Qed.
Lemma SM_cons k ks t F : SM [k] [t] -> SM ks F -> SM (k :: ks) (t :: F).
Proof. intros A B. exact (SM_app [k] ks [t] F A B). Qed.
Lemma SM_node id r lx ch s e F : mrule_of_nat id = r -> lex_ok false lx (slice w s e) -> SM ch F -> SM [SK r lx ch] [Node id None s e F].
Proof.
  intros <- L H. unfold SM. cbn [map of_tree smatch_list]. split; [|exact I]. apply smatch_unfold.
  cbn [m_rule m_children text m_start m_end]. auto.
Qed.
Lemma SM_leaf id r s e : mrule_of_nat id = r -> SM [sk r] [Node id None s e []].
Proof. intros H. apply (SM_node id r LNone [] s e [] H I SM_nil). Qed.

Definition gapped (l l' : list byte) : Prop := exists g, l = g ++ l' /\ gap g /\ gap_end l'.
Definition reads (e : expr) (l l' : list byte) (ks : list skel) : Prop :=
  forall p, at_ p l -> exists t F, l = t ++ l' /\ ok e p (p + List.length t) F /\ SM ks F.
Definition fails (e : expr) (l : list byte) : Prop := forall p, at_ p l -> no e p.

Lemma gapped_intro g l : gap g -> gap_end l -> gapped (g ++ l) l.
Proof. intros Hg Hl. exists g. auto. Qed.
Lemma gapped_refl l : gap_end l -> gapped l l.
Proof. apply (gapped_intro [] l gap_nil). Qed.
Lemma gapped_b g b l : gap g -> gapb b = false -> gapped (g ++ b :: l) (b :: l).
Proof. intros Hg Hb. apply gapped_intro; [exact Hg|now apply gap_end_b]. Qed.

Lemma reads_intro e t l' ks :
  (forall p, at_ p (t ++ l') -> exists F, ok e p (p + List.length t) F /\ SM ks F) -> reads e (t ++ l') l' ks.
Proof. intros A p H. destruct (A p H) as (F & O & M). exists t, F. auto. Qed.
Lemma reads_at e l t l' ks p : reads e l l' ks -> l = t ++ l' -> at_ p l ->
  exists F, ok e p (p + List.length t) F /\ SM ks F /\ at_ (p + List.length t) l'.
Proof.
  intros R -> H. destruct (R p H) as (t' & F & E & O & M). apply app_inv_tail in E. subst t'. exists F. split; [exact O|]. split; [exact M|now apply at_app].
Qed.
Lemma reads_as e l l' ks ks' : reads e l l' ks -> ks = ks' -> reads e l l' ks'.
Proof. now intros H <-. Qed.

Lemma reads_str s l : reads (EStr s) (s ++ l) l [].
Proof. apply reads_intro. intros p H. exists []. split; [exact (str_ok s p l H)|exact SM_nil]. Qed.
Lemma fails_str s l : prefixb s l = false -> fails (EStr s) l.
Proof. intros N p H. exact (str_fail s p l H N). Qed.

Lemma reads_seq x y l l1 l2 l' k1 k2 : reads x l l1 k1 -> gapped l1 l2 -> reads y l2 l' k2 -> reads (ESeq x y) l l' (k1 ++ k2).
Proof.
  intros Rx (g & -> & Hg & Hl) Ry p H. destruct (Rx p H) as (t1 & F1 & -> & O1 & M1).
  pose proof (at_app p t1 _ H) as H1. destruct (Ry _ (at_app _ g _ H1)) as (t2 & F2 & -> & O2 & M2).
  exists (t1 ++ g ++ t2), (F1 ++ F2). split; [now rewrite <- !app_assoc|]. split; [|now apply SM_app].
  apply (ok_eq _ p _ _ _ (seq_ok x y p _ F1 _ _ F2 O1 (skp_gap _ g _ H1 Hg Hl) O2)). len.
Qed.
Lemma fails_seq1 x y l : fails x l -> fails (ESeq x y) l.
Proof. intros N p H. apply seq_no1. exact (N p H). Qed.
Lemma fails_seq2 x y l l1 l2 k1 : reads x l l1 k1 -> gapped l1 l2 -> fails y l2 -> fails (ESeq x y) l.
Proof.
  intros Rx (g & -> & Hg & Hl) Ny p H. destruct (Rx p H) as (t1 & F1 & -> & O1 & _). pose proof (at_app p t1 _ H) as H1.
  exact (seq_no2 x y p _ F1 _ O1 (skp_gap _ g _ H1 Hg Hl) (Ny _ (at_app _ g _ H1))).
Qed.

Lemma reads_opt x l l' ks : reads x l l' ks -> reads (EOpt x) l l' ks.
Proof. intros R p H. destruct (R p H) as (t & F & E & O & M). exists t, F. split; [exact E|]. split; [now apply opt_some|exact M]. Qed.
Lemma reads_opt_none x l : fails x l -> reads (EOpt x) l l [].
Proof. intros N. apply (reads_intro _ [] l). intros p H. exists []. rewrite Nat.add_0_r. split; [apply opt_none; exact (N p H)|exact SM_nil]. Qed.

(* a | b | c  is the left-nested  fold_left EChoice [b; c] a *)
Lemma reads_alt y l1 x l2 l l' ks : fails (fold_left EChoice l1 y) l -> reads x l l' ks -> reads (fold_left EChoice (l1 ++ x :: l2) y) l l' ks.
Proof.
  intros N R p H. destruct (R p H) as (t & F & E & O & M). exists t, F. split; [exact E|]. split; [|exact M].
  exact (chain_select w NonAtomic true l1 x l2 y p sg _ sg F (N p H) O).
Qed.
Lemma reads_alt0 y alts l l' ks : reads y l l' ks -> reads (fold_left EChoice alts y) l l' ks.
Proof.
  intros R p H. destruct (R p H) as (t & F & E & O & M). exists t, F. split; [exact E|]. split; [|exact M].
  exact (chain_match w NonAtomic true alts y p sg _ sg F O).
Qed.
Lemma fails_alts y alts l : fails y l -> Forall (fun x => fails x l) alts -> fails (fold_left EChoice alts y) l.
Proof.
  intros Ny Na p H. apply chain_fail; [exact (Ny p H)|]. apply Forall_forall. intros x Hx.
  rewrite Forall_forall in Na. exact (Na x Hx p H).
Qed.

Lemma reads_silent s body l l' ks : rule_named (nm s) = Some (mk s RSilent body) ->
  reads body l l' ks -> reads (Rf s) l l' ks.
Proof.
  intros Q R p H. destruct (R p H) as (t & F & E & O & M). exists t, F. split; [exact E|]. split; [|exact M].
  exact (call_silent (nm s) _ p _ Q eq_refl O).
Qed.
Lemma reads_node s body r lx l l' ks : rule_named (nm s) = Some (mk s RNormal body) ->
  mrule_of_nat (rule_id G (nm s)) = r -> (forall t, lex_ok false lx t) -> reads body l l' ks -> reads (Rf s) l l' [SK r lx ks].
Proof.
  intros Q Hr L R p H. destruct (R p H) as (t & F & E & O & M). exists t, [Node (rule_id G (nm s)) None p (p + List.length t) F].
  split; [exact E|]. split; [exact (call_normal (nm s) _ p _ F Q eq_refl O)|exact (SM_node _ r lx ks _ _ F Hr (L _) M)].
Qed.
Lemma reads_normal s body r l l' ks : rule_named (nm s) = Some (mk s RNormal body) ->
  mrule_of_nat (rule_id G (nm s)) = r -> reads body l l' ks -> reads (Rf s) l l' [SK r LNone ks].
Proof. intros Q Hr. exact (reads_node s body r LNone l l' ks Q Hr (fun _ => I)). Qed.
Lemma fails_call s ty body l : rule_named (nm s) = Some (mk s ty body) ->
  ty = RSilent \/ ty = RNormal -> fails body l -> fails (Rf s) l.
Proof.
  intros Q [-> | ->] N p H; [exact (call_silent (nm s) _ p _ Q eq_refl (N p H))|exact (call_normal_no (nm s) _ p Q eq_refl (N p H))].
Qed.

Lemma reads_lit s t r l : rule_named (nm s) = Some (mk s RNormal (EStr t)) ->
  mrule_of_nat (rule_id G (nm s)) = r -> reads (Rf s) (t ++ l) l [sk r].
Proof. intros Q Hr. exact (reads_normal s _ r _ l [] Q Hr (reads_str t l)). Qed.
Lemma fails_lit s t l : rule_named (nm s) = Some (mk s RNormal (EStr t)) ->
  prefixb t l = false -> fails (Rf s) l.
Proof. intros Q N. exact (fails_call s _ _ l Q (or_intror eq_refl) (fails_str t l N)). Qed.
End Base.
Arguments reads_seq {w sg x y l l1 l2 l' k1 k2}.
Arguments fails_seq2 {w sg x y l l1 l2 k1}.
