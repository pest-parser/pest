(* C07 - the reader model (Consume.v) reads every spelling (Spell.v) back as the grammar that was written.
   Structure of the proof of [consume_spelling]:
     A4  postfix chains over atoms / parentheses / PUSH            (levels >= 4)
     A3  prefix operators outside the postfix chain                (level 3)
     A2  the tag outermost in the term                             (level 2)
     E   expressions: the canonical Pratt tree of the flattened term list, PrattInst.pratt_canonical
   by one induction on the concrete expression, for every fuel >= its nesting depth. *)
From Coq Require Import List Arith NArith ZArith Bool Lia.
Import ListNotations.
Require Import PV.Comb.PState PV.Comb.Bytes PV.Comb.Utf8 PV.Peg.Ast.
Require PV.Pratt.Syntax PV.Pratt.Model.
Require Import PV.Meta.Tokens PV.Meta.Unescape PV.Meta.Consume PV.Meta.Spell PV.Meta.LexProofs PV.Meta.PrattInst.

(* [sz] is a section variable so that [sum_sizes sksize ch] below is seen as a recursive call on the elements of ch *)
Section Sizes.
Variable sz : skel -> nat.
Fixpoint sum_sizes (ks : list skel) : nat := match ks with [] => 0 | k :: ks' => sz k + sum_sizes ks' end.
End Sizes.
Fixpoint sksize (k : skel) : nat := match k with SK _ _ ch => S (sum_sizes sksize ch) end.
Notation sksizes := (sum_sizes sksize).
Lemma sksizes_app a b : sksizes (a ++ b) = sksizes a + sksizes b.
Proof. induction a as [|k a IH]; [reflexivity|]. cbn [app sum_sizes]. rewrite IH. apply Nat.add_assoc. Qed.

Section Shape.
Variable st : bool.
Variable w : list byte.

Lemma smatch_unfold r lx ch t :
  smatch st w (SK r lx ch) t <-> m_rule t = r /\ lex_ok st lx (text w t) /\ smatch_list st w ch (m_children t).
Proof.
  cbn [smatch].
  assert (E : forall ks ts,
    (fix all2 (ks : list skel) (ts : list mtree) {struct ks} : Prop :=
       match ks, ts with
       | [], [] => True
       | k' :: ks', t' :: ts' => smatch st w k' t' /\ all2 ks' ts'
       | _, _ => False
       end) ks ts <-> smatch_list st w ks ts).
  { induction ks as [|k ks IH]; intros [|t' ts']; cbn; try tauto. rewrite IH. tauto. }
  rewrite E. tauto.
Qed.

(* in this form the reader's matches on the token compute *)
Lemma smatch_inv r lx ch t : smatch st w (SK r lx ch) t ->
  exists s e cs, t = MT r s e cs /\ lex_ok st lx (text w t) /\ smatch_list st w ch cs.
Proof. rewrite smatch_unfold. destruct t as [r' s e cs]. cbn [m_rule m_children]. intros (-> & L & Hc). eauto 7. Qed.

Lemma smatch_nil_inv ts : smatch_list st w [] ts -> ts = [].
Proof. destruct ts; cbn; [auto|tauto]. Qed.
Lemma smatch_cons_inv k ks ts : smatch_list st w (k :: ks) ts ->
  exists t ts', ts = t :: ts' /\ smatch st w k t /\ smatch_list st w ks ts'.
Proof. destruct ts as [|t ts']; cbn; [tauto|]. intros [H1 H2]. eauto. Qed.
Lemma smatch_app_inv k1 k2 ts : smatch_list st w (k1 ++ k2) ts ->
  exists t1 t2, ts = t1 ++ t2 /\ smatch_list st w k1 t1 /\ smatch_list st w k2 t2.
Proof.
  revert ts. induction k1 as [|k k1 IH]; intros ts H.
  - exists [], ts. cbn. auto.
  - cbn [app] in H. destruct (smatch_cons_inv _ _ _ H) as (t & ts' & -> & Hk & Hr).
    destruct (IH _ Hr) as (t1 & t2 & -> & H1 & H2). exists (t :: t1), t2. cbn. auto.
Qed.
Lemma msize_children t : msize t = S (mfsize (m_children t)).
Proof. destruct t. reflexivity. Qed.
Lemma mfsize_app a b : mfsize (a ++ b) = mfsize a + mfsize b.
Proof. induction a as [|t a IH]; [reflexivity|]. cbn [app mfsize]. rewrite IH. lia. Qed.

Lemma smatch_size : forall k t, smatch st w k t -> msize t = sksize k.
Proof.
  fix IH 1. intros [r lx ch] t M. apply smatch_inv in M. destruct M as (s & e & cs & -> & _ & Hc).
  rewrite msize_children. cbn [sksize m_children]. f_equal. revert cs Hc.
  induction ch as [|k ch IHch]; intros cs Hc; [now rewrite (smatch_nil_inv _ Hc)|].
  apply smatch_cons_inv in Hc. destruct Hc as (t & ts & -> & Hk & Hr).
  cbn [mfsize sum_sizes]. now rewrite (IH k t Hk), (IHch _ Hr).
Qed.
(* a forest is the children of a node *)
Lemma smatch_sizes ks ts : smatch_list st w ks ts -> mfsize ts = sksizes ks.
Proof. intros M. apply eq_add_S, (smatch_size (SK MEOI LNone ks) (MT MEOI 0 0 ts)), smatch_unfold. cbn. auto. Qed.
End Shape.

Tactic Notation "inv_nil" hyp(H) := apply smatch_nil_inv in H; subst.
(* H : smatch_list (SK r lx ch :: ks) ts.  The first token becomes MT r _ _ cs; L is what its text spells, Hc the match
   of its children, Hr (which may be H again) the match of the remaining tokens *)
Tactic Notation "inv_tok" hyp(H) "as" simple_intropattern(L) simple_intropattern(Hc) simple_intropattern(Hr) :=
  let K := fresh in
  apply smatch_cons_inv in H; destruct H as (? & ? & -> & K & Hr);
  apply smatch_inv in K; destruct K as (? & ? & ? & -> & L & Hc).

Section Reader.
Variable fx : fixes.
Variable extras : bool.
Variable w : list byte.
Notation st := (negb (fix_insens fx)).
Notation un := (unaries_with fx extras w).
Notation other' := (other fx extras w).
Notation terminal' := (terminal fx extras w).
Notation pfold := (postfix_fold w).
Notation pstep := (postfix_step w).

Definition dispatch (rec : list mtree -> cres expr) (t0 : mtree) (ts1 : list mtree) : cres expr :=
  match ukind_of t0 with
  | UParen => un rec ts1
  | UPos => cmap EPosPred (un rec ts1)
  | UNeg => cmap ENegPred (un rec ts1)
  | UOther => other' rec t0 ts1
  end.

Definition not_assign (t : mtree) : Prop := is_rule MAssignmentOperator t = false.
Definition second_ok (ts : list mtree) : Prop := match ts with _ :: t1 :: _ => not_assign t1 | _ => True end.

Lemma un_untagged rec t0 ts1 : second_ok (t0 :: ts1) -> un rec (t0 :: ts1) = dispatch rec t0 ts1.
Proof.
  unfold second_ok, not_assign, dispatch. destruct ts1 as [|t1 ts2]; intros H; cbn [unaries_with]; [reflexivity|].
  rewrite H. reflexivity.
Qed.
Lemma un_tagged rec t0 t1 t2 ts3 : is_rule MAssignmentOperator t1 = true ->
  un rec (t0 :: t1 :: t2 :: ts3) =
  match str_from1 (text w t0) with None => CPanic | Some tg => with_tag extras tg (dispatch rec t2 ts3) end.
Proof. intros H. cbn [unaries_with]. rewrite H. reflexivity. Qed.

Lemma pfold_app n l1 l2 : pfold n (l1 ++ l2) = match pfold n l1 with COk n' => pfold n' l2 | e => e end.
Proof.
  revert n. induction l1 as [|p l1 IH]; intros n; [reflexivity|]. cbn [app postfix_fold].
  destruct (pstep n p); auto.
Qed.

Lemma range_cp_encode c : scalar c -> range_cp (encode c) = c.
Proof.
  intros S. unfold range_cp. rewrite <- (app_nil_r (encode c)), decode1_encode; [reflexivity|now apply scalar_lt].
Qed.

Lemma literal_quoted t (q : byte) ew s k : is_cont q = false -> valid_utf8 s -> text w t = q :: ew ++ [q] ->
  unescape (q :: ew ++ [q]) = Some (q :: s ++ [q]) -> literal fx w t 1 k = COk (k s).
Proof. intros Q V T U. unfold literal. rewrite T, U, (str_slice_quoted q s Q V). reflexivity. Qed.
Lemma literal_string t cs k : lex_ok st (LStr cs) (text w t) -> scalars cs = true ->
  literal fx w t 1 k = COk (k (utf8 cs)).
Proof.
  intros (ew & T & S) V. apply (literal_quoted t 34%N ew); [reflexivity|now apply utf8_valid|exact T|].
  now apply (unescape_quoted 34%N 34%N).
Qed.
Lemma literal_char t c k : lex_ok st (LChr c) (text w t) -> scalarb c = true ->
  literal fx w t 1 k = COk (k (encode c)).
Proof.
  intros (ew & T & S) V. apply (literal_quoted t 39%N ew); [reflexivity|now apply encode_valid, scalarb_spec|exact T|].
  now apply (unescape_quoted_char 39%N 39%N).
Qed.
Lemma peek_int t z : lex_ok st (LInt z) (text w t) -> i32_ok z = true -> peek_index fx w t = COk z.
Proof. intros L B. unfold peek_index. now rewrite (parse_i32_spelled z _ L B). Qed.

Definition atom (c : cexpr) : Prop :=
  match c with CStr _ | CInsens _ | CRange _ _ | CIdent _ | CPeek _ _ | CPushLit _ => True | _ => False end.

Lemma terminal_atom rec c ts : atom c -> writable extras c = true -> smatch_list st w (tc c) ts ->
  exists t0, ts = [t0] /\ ukind_of t0 = UOther /\ not_assign t0 /\ terminal' rec t0 = COk (abs c).
Proof.
  destruct c; cbn [atom]; try tauto; intros _ Wr M; unfold tc in M; cbn [both mkt snd writable] in *;
    inv_tok M as L Hc M; inv_nil M; eexists; (split; [reflexivity|]); (split; [reflexivity|]); (split; [reflexivity|]).
  - now apply literal_string.
  - inv_tok Hc as Ls _ Hc. cbn [terminal m_rule m_children]. destruct (fix_insens fx); cbn [negb lex_ok] in L.
    + now apply literal_string.
    + destruct L as (ew & T & S). pose proof (unescape_insens 34%N cs ew S) as U.
      pose proof (str_slice_insens (utf8 cs) (utf8_valid cs Wr)) as SL.
      unfold literal. unfold byte in *. rewrite T, U, SL. reflexivity.
  - apply andb_prop in Wr. destruct Wr as [W1 W2].
    inv_tok Hc as L1 _ Hc. inv_tok Hc as _ _ Hc. inv_tok Hc as L2 _ Hc. cbn [terminal m_rule m_children].
    rewrite (literal_char _ lo EStr L1 W1), (literal_char _ hi EStr L2 W2).
    apply scalarb_spec in W1, W2. cbn [abs]. now rewrite !range_cp_encode.
  - cbn [lex_ok] in L. cbn [terminal m_rule abs]. now rewrite L.
  - apply andb_prop in Wr. destruct Wr as [W1 W2]. inv_tok Hc as _ _ Hc.
    destruct i as [zi|], j as [zj|]; cbn [app] in Hc.
    + inv_tok Hc as Li _ Hc. inv_tok Hc as _ _ Hc. inv_tok Hc as Lj _ Hc. inv_tok Hc as _ _ Hc.
      cbn [terminal peek_slice m_children m_rule]. rewrite (peek_int _ zi Li W1). cbn [cmap m_rule]. now rewrite (peek_int _ zj Lj W2).
    + inv_tok Hc as Li _ Hc. inv_tok Hc as _ _ Hc. inv_tok Hc as _ _ Hc.
      cbn [terminal peek_slice m_children m_rule]. now rewrite (peek_int _ zi Li W1).
    + inv_tok Hc as _ _ Hc. inv_tok Hc as Lj _ Hc. inv_tok Hc as _ _ Hc.
      cbn [terminal peek_slice m_children m_rule]. now rewrite (peek_int _ zj Lj W2).
    + inv_tok Hc as _ _ Hc. inv_tok Hc as _ _ Hc. reflexivity.
  - apply andb_prop in Wr. destruct Wr as [X W2]. inv_tok Hc as _ _ Hc. inv_tok Hc as Ls _ Hc.
    cbn [terminal m_rule m_children]. rewrite X. now apply literal_string.
Qed.

Inductive postop := POpt | PRep | PRepOnce | PExact (n : N) | PMin (n : N) | PMax (n : N) | PMinMax (m n : N).
Definition post_sk (o : postop) : skel :=
  match o with
  | POpt => sk MOptionalOperator | PRep => sk MRepeatOperator | PRepOnce => sk MRepeatOnceOperator
  | PExact n => sk_count MRepeatExact [sk MOpeningBrace; sk_num n; sk MClosingBrace]
  | PMin n => sk_count MRepeatMin [sk MOpeningBrace; sk_num n; sk MComma; sk MClosingBrace]
  | PMax n => sk_count MRepeatMax [sk MOpeningBrace; sk MComma; sk_num n; sk MClosingBrace]
  | PMinMax m n => sk_count MRepeatMinMax [sk MOpeningBrace; sk_num m; sk MComma; sk_num n; sk MClosingBrace]
  end.
Definition post_expr (o : postop) (e : expr) : expr :=
  match o with
  | POpt => EOpt e | PRep => ERep e | PRepOnce => ERepOnce e | PExact n => ERepExact e n | PMin n => ERepMin e n
  | PMax n => ERepMax e n | PMinMax m n => ERepMinMax e m n
  end.
Definition post_ok (o : postop) : Prop :=
  match o with
  | POpt | PRep | PRepOnce => True
  | PExact n | PMax n => u32_ok n = true /\ negb (n =? 0)%N = true
  | PMin n => u32_ok n = true
  | PMinMax m n => u32_ok m = true /\ u32_ok n = true /\ negb (n =? 0)%N = true
  end.

Lemma count_num A t n (k : N -> cres A) : lex_ok st (LNum n) (text w t) -> u32_ok n = true -> count_of w t k = k n.
Proof. intros L B. unfold count_of. apply N.leb_le in B. now rewrite (parse_u32_spelled n _ L B). Qed.

Lemma pstep_post o e p : smatch st w (post_sk o) p -> post_ok o -> pstep e p = COk (post_expr o e) /\ not_assign p.
Proof.
  destruct o; cbn [post_sk post_ok post_expr]; intros H B; apply smatch_inv in H; destruct H as (? & ? & ? & -> & _ & Hc);
    (split; [|reflexivity]); cbn [postfix_step m_rule m_children]; rewrite ?negb_true_iff in B; unfold nonzero.
  1-3: reflexivity.
  - destruct B as [B1 B2]. inv_tok Hc as _ _ Hc. inv_tok Hc as L _ Hc. now rewrite (count_num _ _ n _ L B1), B2.
  - inv_tok Hc as _ _ Hc. inv_tok Hc as L _ Hc. now rewrite (count_num _ _ n _ L B).
  - destruct B as [B1 B2]. inv_tok Hc as _ _ Hc. inv_tok Hc as _ _ Hc. inv_tok Hc as L _ Hc.
    now rewrite (count_num _ _ n _ L B1), B2.
  - destruct B as (B1 & B2 & B3). inv_tok Hc as _ _ Hc. inv_tok Hc as L1 _ Hc. inv_tok Hc as _ _ Hc. inv_tok Hc as L2 _ Hc.
    now rewrite (count_num _ _ m _ L1 B1), (count_num _ _ n _ L2 B2), B3.
Qed.

Notation ptree := (Pratt.Syntax.tree mtree).
Notation yield := (@Pratt.Syntax.yield mtree).
Notation Leaf := (@Pratt.Syntax.Leaf mtree).
Notation Bin := (@Pratt.Syntax.Bin mtree).
Notation seqt := (@seqt mtree).
Notation chot := (@chot mtree).
Notation cexp := (consume_expr fx extras w).

Definition goodc (c : cexpr) : Prop :=
  wp c = true /\ writable extras c = true /\ (fix_bar fx = false -> nested_bar c = false).

Definition A4 (rec : list mtree -> cres expr) (c : cexpr) : Prop :=
  forall ts ps, smatch_list st w (tc c) ts -> Forall not_assign ps ->
  exists t0 ts1, ts = t0 :: ts1 /\ not_assign t0 /\ second_ok (ts ++ ps) /\ dispatch rec t0 (ts1 ++ ps) = pfold (abs c) ps.
Definition A3 (rec : list mtree -> cres expr) (c : cexpr) : Prop :=
  forall ts, smatch_list st w (tc c) ts ->
  exists t0 ts1, ts = t0 :: ts1 /\ not_assign t0 /\ second_ok ts /\ dispatch rec t0 ts1 = COk (abs c).
Definition A2 (rec : list mtree -> cres expr) (c : cexpr) : Prop :=
  forall ts, smatch_list st w (tc c) ts -> un rec ts = COk (abs c).
Definition E (rec : list mtree -> cres expr) (c : cexpr) : Prop :=
  forall ts, smatch_list st w (fe c) ts ->
  exists pt : ptree, yield pt = pratt_tokens ts /\ chot pt /\ (1 <= lvl c -> seqt pt) /\ (2 <= lvl c -> exists a, pt = Leaf a) /\
                     fold_ptree (un rec) pt = COk (abs c).

Lemma A4_A3 rec c : A4 rec c -> A3 rec c.
Proof.
  intros H ts M. destruct (H ts [] M (Forall_nil _)) as (t0 & ts1 & -> & N & S2 & D).
  rewrite !app_nil_r in *. exists t0, ts1. cbn [postfix_fold] in D. auto.
Qed.
Lemma A3_A2 rec c : A3 rec c -> A2 rec c.
Proof. intros H ts M. destruct (H ts M) as (t0 & ts1 & -> & N & S2 & D). now rewrite un_untagged. Qed.

Lemma fe_term c : 2 <= lvl c -> fe c = [SK MTerm LNone (tc c)].
Proof. destruct c; cbn [lvl]; try lia; intros _; reflexivity. Qed.

Lemma prim_term s e cs : prim mtree (mid MTerm, MT MTerm s e cs).
Proof. reflexivity. Qed.

Lemma A2_E rec c : 2 <= lvl c -> A2 rec c -> E rec c.
Proof.
  intros L H ts M. rewrite (fe_term c L) in M. inv_tok M as _ Hc M. inv_nil M.
  eexists (Leaf _). split; [reflexivity|].
  split; [apply chot_seq, seqt_leaf, prim_term|]. split; [intros _; apply seqt_leaf, prim_term|]. split; [eauto|].
  cbn [fold_ptree snd]. now apply H.
Qed.

Definition claims (f : nat) (c : cexpr) : Prop :=
  (4 <= lvl c -> A4 (cexp f) c) /\ (3 <= lvl c -> A3 (cexp f) c) /\ (2 <= lvl c -> A2 (cexp f) c) /\ E (cexp f) c.

(* a claim at the level of c gives those of the looser levels; those of the tighter levels do not apply *)
Lemma claims_A4 f c : 4 <= lvl c -> A4 (cexp f) c -> claims f c.
Proof.
  intros L H. pose proof (A4_A3 _ _ H) as H3. pose proof (A3_A2 _ _ H3) as H2.
  repeat split; auto. apply A2_E; [lia|exact H2].
Qed.
Lemma claims_A3 f c : lvl c = 3 -> A3 (cexp f) c -> claims f c.
Proof.
  intros L H3. pose proof (A3_A2 _ _ H3) as H2.
  repeat split; auto; try lia. apply A2_E; [lia|exact H2].
Qed.
Lemma claims_A2 f c : lvl c = 2 -> A2 (cexp f) c -> claims f c.
Proof. intros L H2. repeat split; auto; try lia. apply A2_E; [lia|exact H2]. Qed.
Lemma claims_E f c : lvl c <= 1 -> E (cexp f) c -> claims f c.
Proof. intros L H. repeat split; auto; lia. Qed.

(* a single token that `terminal` evaluates: the atoms and PUSH( .. ) *)
Lemma single_case rec c :
  (forall ts, smatch_list st w (tc c) ts ->
     exists t0, ts = [t0] /\ ukind_of t0 = UOther /\ not_assign t0 /\ terminal' rec t0 = COk (abs c)) -> A4 rec c.
Proof.
  intros H ts ps M NA. destruct (H ts M) as (t0 & -> & K & N0 & T).
  exists t0, []. split; [reflexivity|]. split; [exact N0|]. split.
  - destruct NA; [exact I|assumption].
  - cbn [app]. unfold dispatch, other. now rewrite K, T.
Qed.

Lemma post_case rec c' o c : tc c = tc c' ++ [post_sk o] -> abs c = post_expr o (abs c') -> post_ok o ->
  A4 rec c' -> A4 rec c.
Proof.
  intros Etc Eabs Ok H ts ps M NA. rewrite Etc in M.
  destruct (smatch_app_inv _ _ _ _ _ M) as (ts' & pl & -> & M1 & M2).
  destruct (smatch_cons_inv _ _ _ _ _ M2) as (p & r & -> & Hp & Hr). inv_nil Hr.
  destruct (pstep_post o (abs c') p Hp Ok) as [PS NAp].
  destruct (H ts' (p :: ps) M1 (Forall_cons _ NAp NA)) as (t0 & ts1 & -> & N0 & S2 & D).
  exists t0, (ts1 ++ [p]). split; [reflexivity|]. split; [exact N0|].
  rewrite <- ?app_assoc. cbn [app] in *. rewrite <- ?app_assoc. cbn [app].
  split; [exact S2|]. rewrite D. cbn [postfix_fold]. rewrite PS, Eabs. reflexivity.
Qed.

Lemma pre_case rec c' c (neg : bool) :
  tc c = sk (if neg then MNegativePredicateOperator else MPositivePredicateOperator) :: tc c' ->
  abs c = (if neg then ENegPred (abs c') else EPosPred (abs c')) ->
  A3 rec c' -> A3 rec c.
Proof.
  intros Etc Eabs H ts M. rewrite Etc in M. inv_tok M as _ _ M.
  destruct (H _ M) as (t0 & ts1 & -> & N0 & S2 & D).
  eexists _, _. split; [reflexivity|]. split; [now destruct neg|]. split; [exact N0|].
  rewrite Eabs. destruct neg; unfold dispatch at 1; cbn [ukind_of m_rule]; now rewrite (un_untagged _ _ _ S2), D.
Qed.

Lemma tag_case rec c t : extras = true -> tag_ok t = true -> A3 rec c -> A2 rec (CTag c t).
Proof.
  intros X T H ts M. unfold tc in M. cbn [both mkt snd] in M. fold (tc c) in M.
  inv_tok M as L _ M. inv_tok M as _ _ M. destruct (H _ M) as (t0 & ts1 & -> & _ & _ & D).
  rewrite un_tagged by reflexivity. cbn [lex_ok] in L. pose proof (str_from1_tag t T) as SF.
  unfold byte in *. rewrite L, SF, D. unfold with_tag. now rewrite X.
Qed.

Lemma infix_tokens ka (op : mrule) kb ts : smatch_list st w (ka ++ sk op :: kb) ts ->
  exists ta s e cs tb, ts = ta ++ MT op s e cs :: tb /\ smatch_list st w ka ta /\ smatch_list st w kb tb.
Proof.
  intros M. destruct (smatch_app_inv _ _ _ _ _ M) as (ta & r & -> & Ma & Mr). inv_tok Mr as _ _ Mr. eauto 8.
Qed.
Lemma yield_bin (pa pb : ptree) ta o tb : yield pa = pratt_tokens ta -> yield pb = pratt_tokens tb ->
  yield (Bin pa (mid (m_rule o), o) pb) = pratt_tokens (ta ++ o :: tb).
Proof. intros Ya Yb. cbn [Pratt.Syntax.yield]. rewrite Ya, Yb. unfold pratt_tokens. now rewrite map_app. Qed.

Lemma seq_case rec a b : 1 <= lvl a -> 2 <= lvl b -> E rec a -> E rec b -> E rec (CSeq a b).
Proof.
  intros La Lb Ea Eb ts M. destruct (infix_tokens _ _ _ _ M) as (ta & s & e & cs & tb & -> & Ma & Mb).
  destruct (Ea ta Ma) as (pa & Ya & _ & Sa & _ & Fa). destruct (Eb tb Mb) as (pb & Yb & _ & Sb & Lfb & Fb).
  destruct (Lfb Lb) as (b0 & ->). specialize (Sb ltac:(lia)). inversion_clear Sb as [? Pb|].
  eexists. split; [exact (yield_bin _ _ _ _ _ Ya Yb)|].
  assert (Sq : seqt (Bin pa (mid MSequenceOperator, MT MSequenceOperator s e cs) (Leaf b0))) by (apply seqt_bin; auto).
  split; [now apply chot_seq|]. split; [auto|]. split; [cbn [lvl]; lia|].
  cbn [fold_ptree] in *. now rewrite Fa, Fb.
Qed.

Lemma choice_case rec a b : 1 <= lvl b -> E rec a -> E rec b -> E rec (CChoice a b).
Proof.
  intros Lb Ea Eb ts M. destruct (infix_tokens _ _ _ _ M) as (ta & s & e & cs & tb & -> & Ma & Mb).
  destruct (Ea ta Ma) as (pa & Ya & Ca & _ & _ & Fa). destruct (Eb tb Mb) as (pb & Yb & _ & Sb & _ & Fb).
  eexists. split; [exact (yield_bin _ _ _ _ _ Ya Yb)|].
  split; [apply chot_bin; auto|]. split; [cbn [lvl]; lia|]. split; [cbn [lvl]; lia|].
  cbn [fold_ptree]. now rewrite Fa, Fb.
Qed.

Lemma E_stage rec c ts : E rec c -> smatch_list st w (fe c) ts -> pratt_stage (un rec) ts = COk (abs c).
Proof.
  intros H M. destruct (H ts M) as (pt & Y & C & _ & _ & F).
  unfold pratt_stage. rewrite <- Y, (pratt_canonical mtree pt C). exact F.
Qed.

Lemma fe_head c : exists tcs rest, fe c = SK MTerm LNone tcs :: rest.
Proof.
  unfold fe. induction c; try (eexists _, _; reflexivity); cbn [both fst];
    destruct IHc1 as (tcs & rest & ->); eexists _, _; reflexivity.
Qed.

(* [skip_bar] removes a leading `|` and nothing else: the tokens of an expression begin with a term *)
Lemma skip_bar_spelled (bar : bool) c chs : smatch_list st w (sk_bar bar ++ fe c) chs ->
  chs <> [] /\ smatch_list st w (fe c) (skip_bar chs) /\ (bar = false -> skip_bar chs = chs).
Proof.
  destruct bar; cbn [sk_bar app]; intros M.
  - inv_tok M as _ _ M. repeat split; [discriminate|exact M|discriminate].
  - pose proof M as M'. destruct (fe_head c) as (tcs & rest & Ef). rewrite Ef in M'. inv_tok M' as _ _ M'.
    repeat split; [discriminate|exact M].
Qed.

(* a nested expression (parentheses, PUSH): one more unit of fuel *)
Lemma nested_expr f c (bar : bool) chs : E (cexp f) c -> (fix_bar fx = false -> bar = false) ->
  smatch_list st w (sk_bar bar ++ fe c) chs -> cexp (S f) chs = COk (abs c).
Proof.
  intros HE HB M. destruct (skip_bar_spelled bar c chs M) as (_ & Ms & K). cbn [consume_expr].
  destruct (fix_bar fx); [|rewrite <- (K (HB eq_refl))]; now apply (E_stage _ c).
Qed.

Lemma push_case f (bar : bool) c : (fix_bar fx = false -> bar = false) -> E (cexp f) c -> A4 (cexp (S f)) (CPush bar c).
Proof.
  intros HB HE. apply single_case. intros ts M. unfold tc in M. cbn [both mkt snd] in M.
  inv_tok M as _ Hc M. inv_nil M. inv_tok Hc as _ _ Hc. inv_tok Hc as _ Hx Hc.
  eexists. split; [reflexivity|]. split; [reflexivity|]. split; [reflexivity|].
  cbn [terminal m_rule m_children]. now rewrite (nested_expr f c bar _ HE HB Hx).
Qed.

Lemma paren_case f (bar : bool) c : (fix_bar fx = false -> bar = false) -> E (cexp f) c -> A4 (cexp (S f)) (CParen bar c).
Proof.
  intros HB HE ts ps M NA. unfold tc in M. cbn [both mkt snd] in M.
  inv_tok M as _ _ M. inv_tok M as _ Hx M. inv_tok M as _ _ M. inv_nil M.
  eexists _, _. split; [reflexivity|]. split; [reflexivity|]. split; [reflexivity|].
  cbn [app]. unfold dispatch at 1. cbn [ukind_of m_rule]. rewrite un_untagged by reflexivity.
  unfold dispatch, other. cbn [ukind_of terminal m_rule m_children]. now rewrite (nested_expr f c bar _ HE HB Hx).
Qed.

Lemma orb_false_imp (P : Prop) a b : (P -> a || b = false) -> (P -> a = false) /\ (P -> b = false).
Proof. intros H. split; intros p; destruct (orb_false_elim _ _ (H p)); assumption. Qed.

Lemma pre_claims f c' c (neg : bool) :
  tc c = sk (if neg then MNegativePredicateOperator else MPositivePredicateOperator) :: tc c' ->
  abs c = (if neg then ENegPred (abs c') else EPosPred (abs c')) -> lvl c = 3 -> 3 <= lvl c' -> claims f c' -> claims f c.
Proof. intros Etc Eabs L L' H. apply claims_A3; [exact L|]. apply (pre_case _ c' c neg Etc Eabs). now apply H. Qed.
Lemma post_claims f c' o c : tc c = tc c' ++ [post_sk o] -> abs c = post_expr o (abs c') -> lvl c = 4 -> post_ok o ->
  4 <= lvl c' -> claims f c' -> claims f c.
Proof.
  intros Etc Eabs L Ok L' H. apply claims_A4; [now rewrite L|]. apply (post_case _ c' o c Etc Eabs Ok). now apply H.
Qed.

Theorem main : forall c f, depth c <= f -> goodc c -> claims f c.
Proof.
  induction c; intros f D G;
    try (apply claims_A4; [repeat constructor|apply single_case; intros ts; apply terminal_atom; [exact I|apply G]]);
    destruct G as (W & Wr & NB); cbn [wp writable nested_bar depth] in *;
    rewrite ?andb_true_iff, ?Nat.leb_le in W; rewrite ?andb_true_iff in Wr.
  - destruct W as [W L]. now apply (pre_claims f c (CPos c) false eq_refl eq_refl eq_refl L), (IHc f D).
  - destruct W as [W L]. now apply (pre_claims f c (CNeg c) true eq_refl eq_refl eq_refl L), (IHc f D).
  - destruct W as [[[Wa Wb] La] Lb], Wr as [Wra Wrb], (orb_false_imp _ _ _ NB) as [NBa NBb].
    apply claims_E; [repeat constructor|]. apply seq_case; [exact La|exact Lb| |].
    + now apply (IHc1 f (Nat.max_lub_l _ _ _ D)).
    + now apply (IHc2 f (Nat.max_lub_r _ _ _ D)).
  - destruct W as [[Wa Wb] Lb], Wr as [Wra Wrb], (orb_false_imp _ _ _ NB) as [NBa NBb].
    apply claims_E; [repeat constructor|]. apply choice_case; [exact Lb| |].
    + now apply (IHc1 f (Nat.max_lub_l _ _ _ D)).
    + now apply (IHc2 f (Nat.max_lub_r _ _ _ D)).
  - destruct W as [W L]. now apply (post_claims f c POpt (COpt c) eq_refl eq_refl eq_refl I L), (IHc f D).
  - destruct W as [W L]. now apply (post_claims f c PRep (CRep c) eq_refl eq_refl eq_refl I L), (IHc f D).
  - destruct W as [W L]. now apply (post_claims f c PRepOnce (CRepOnce c) eq_refl eq_refl eq_refl I L), (IHc f D).
  - destruct W as [W L], Wr as [[Wr B1] B2].
    now apply (post_claims f c (PExact n) (CRepExact c n) eq_refl eq_refl eq_refl (conj B1 B2) L), (IHc f D).
  - destruct W as [W L], Wr as [Wr B1].
    now apply (post_claims f c (PMin n) (CRepMin c n) eq_refl eq_refl eq_refl B1 L), (IHc f D).
  - destruct W as [W L], Wr as [[Wr B1] B2].
    now apply (post_claims f c (PMax n) (CRepMax c n) eq_refl eq_refl eq_refl (conj B1 B2) L), (IHc f D).
  - destruct W as [W L], Wr as [[[Wr B1] B2] B3].
    now apply (post_claims f c (PMinMax m n) (CRepMinMax c m n) eq_refl eq_refl eq_refl (conj B1 (conj B2 B3)) L), (IHc f D).
  - destruct f as [|f']; [inversion D|]. destruct (orb_false_imp _ _ _ NB) as [NB1 NB2].
    apply claims_A4; [repeat constructor|]. apply push_case; [exact NB1|]. now apply (IHc f' (le_S_n _ _ D)).
  - destruct W as [W L], Wr as [[X Wr] T]. apply claims_A2; [reflexivity|].
    apply tag_case; [exact X|exact T|]. now apply (IHc f D).
  - destruct f as [|f']; [inversion D|]. destruct (orb_false_imp _ _ _ NB) as [NB1 NB2].
    apply claims_A4; [repeat constructor|]. apply paren_case; [exact NB1|]. now apply (IHc f' (le_S_n _ _ D)).
Qed.

(* fuel: the forest is larger than the nesting depth *)
Lemma depth_size c : wp c = true -> depth c < sksizes (fe c) /\ (2 <= lvl c -> depth c < sksizes (tc c)).
Proof.
  induction c; cbn [wp]; rewrite ?andb_true_iff, ?Nat.leb_le; intros W; unfold fe, tc in *;
    cbn [both mkt fst snd depth lvl sum_sizes sksize]; unfold sk_string; rewrite ?sksizes_app; cbn [sum_sizes sksize]; lia.
Qed.

Definition goodr (r : crule) : Prop := goodc (cr_body r).
Definition rule_sk (r : crule) : skel :=
  SK MGrammarRule LNone
     (SK MIdentifier (LName (cr_name r)) [] :: sk MAssignmentOperator :: sk_modifier (cr_ty r) ++
      [sk MOpeningBrace; SK MExpression LNone (sk_bar (cr_bar r) ++ fe (cr_body r)); sk MClosingBrace]).
Lemma tokens_of_rule_eq r : tokens_of_rule r = repeat sk_line_doc (cr_docs r) ++ [rule_sk r].
Proof. reflexivity. Qed.

Lemma rule_fuel r : wp (cr_body r) = true -> S (depth (cr_body r)) < sksize (rule_sk r).
Proof. intros W. destruct (depth_size _ W) as [H _]. unfold rule_sk. cbn [sksize sum_sizes]. rewrite sksizes_app. cbn [sksize sum_sizes]. rewrite sksizes_app. lia. Qed.

(* the body of a rule: consume_rules_with_spans skips a leading `|` itself, consume_expr with fixes/C07-2 does *)
Lemma body_expr f c (bar : bool) chs (mk : expr -> rule) : E (cexp f) c -> (fix_bar fx = false -> nested_bar c = false) ->
  smatch_list st w (sk_bar bar ++ fe c) chs ->
  (if fix_bar fx then cmap mk (cexp (S f) chs)
   else match chs with
        | [] => CPanic
        | c0 :: cr => cmap mk (cexp (S f) (if is_rule MChoiceOperator c0 then cr else c0 :: cr))
        end) = COk (mk (abs c)).
Proof.
  intros HE NB M. destruct (fix_bar fx) eqn:F.
  - rewrite (nested_expr f c bar chs HE); [reflexivity|rewrite F; discriminate|exact M].
  - destruct (skip_bar_spelled bar c chs M) as (N & Ms & _). destruct chs as [|c0 cr]; [now destruct N|].
    change (cmap mk (cexp (S f) (skip_bar (c0 :: cr))) = COk (mk (abs c))).
    now rewrite (nested_expr f c false _ HE).
Qed.

Lemma consume_rule_spelled f r p : goodr r -> depth (cr_body r) <= f -> smatch st w (rule_sk r) p ->
  consume_rule fx extras w (S f) p = COk (abs_rule r).
Proof.
  intros G D M. destruct (main (cr_body r) f D G) as (_ & _ & _ & HE). destruct G as (_ & _ & NB).
  apply smatch_inv in M. destruct M as (? & ? & ? & -> & _ & M). inv_tok M as Lid _ M. inv_tok M as _ _ M.
  cbn [lex_ok] in Lid. unfold abs_rule. rewrite <- Lid.
  destruct (cr_ty r); cbn [sk_modifier app] in M; [|inv_tok M as _ _ M ..]; inv_tok M as _ _ M; inv_tok M as _ Hx M;
    exact (body_expr f _ _ _ (fun e => {| rname := _; rty := _; rexpr := e |}) HE NB Hx).
Qed.

Notation cpairs := (consume_pairs fx extras w).

(* `///` lines (grammar_rule pairs holding a line_doc) and `//!` lines are filtered out *)
Lemma skip_docs k n ks ts : (forall t r F, smatch st w k t -> cpairs F (t :: r) = cpairs F r) ->
  smatch_list st w (repeat k n ++ ks) ts -> exists ts', smatch_list st w ks ts' /\ forall F, cpairs F ts = cpairs F ts'.
Proof.
  intros Sk. revert ts. induction n as [|n IH]; intros ts M; cbn [repeat app] in M; [eauto|].
  destruct (smatch_cons_inv _ _ _ _ _ M) as (d & r & -> & Hd & Hr). destruct (IH _ Hr) as (ts' & Mk & Eq). exists ts'. split; [exact Mk|].
  intros F. now rewrite (Sk _ _ _ Hd).
Qed.
Lemma skip_line_doc t r F : smatch st w sk_line_doc t -> cpairs F (t :: r) = cpairs F r.
Proof. intros M. apply smatch_inv in M. destruct M as (? & ? & ? & -> & _ & M). inv_tok M as _ _ M. reflexivity. Qed.
Lemma skip_grammar_doc t r F : smatch st w (SK MGrammarDoc LNone [sk MInnerDoc]) t -> cpairs F (t :: r) = cpairs F r.
Proof. intros M. apply smatch_inv in M. destruct M as (? & ? & ? & -> & _ & M). reflexivity. Qed.

Lemma rules_spelled F rules : Forall goodr rules -> sksizes (flat_map tokens_of_rule rules) <= F -> forall ks ts,
  smatch_list st w (flat_map tokens_of_rule rules ++ ks) ts ->
  exists ts', smatch_list st w ks ts' /\
    forall tl, cpairs F ts' = COk tl -> cpairs F ts = COk (map abs_rule rules ++ tl).
Proof.
  induction 1 as [|r rules G _ IH]; intros Sz ks ts M; cbn [flat_map app] in *; [eauto|].
  rewrite tokens_of_rule_eq in *. rewrite !sksizes_app in Sz. cbn [sum_sizes] in Sz. rewrite <- !app_assoc in M. cbn [app] in M.
  destruct (skip_docs _ _ _ _ skip_line_doc M) as (t1 & M1 & Eq1). destruct (smatch_cons_inv _ _ _ _ _ M1) as (p & t2 & -> & Hp & M2).
  destruct (IH ltac:(lia) ks t2 M2) as (ts' & Mk & Eq2). exists ts'. split; [exact Mk|].
  intros tl Htl. rewrite Eq1. pose proof (rule_fuel r (proj1 G)) as Fu. destruct F as [|f]; [lia|].
  pose proof (consume_rule_spelled f r p G ltac:(lia) Hp) as R.
  apply smatch_inv in Hp. destruct Hp as (? & ? & ? & -> & _ & Hc). inv_tok Hc as _ _ Hc.
  cbn [consume_pairs is_rule m_rule m_children negb]. now rewrite R, (Eq2 tl Htl).
Qed.

(* C07_partial (1) *)
Theorem consume_spelling cg forest : Forall goodr (cg_rules cg) ->
  smatch_list st w (tokens_of_grammar cg) forest -> consume fx extras w forest = COk (abs_grammar cg).
Proof.
  intros G M. unfold consume. rewrite (smatch_sizes _ _ _ _ M).
  assert (Sz : sksizes (flat_map tokens_of_rule (cg_rules cg)) <= sksizes (tokens_of_grammar cg))
    by (unfold tokens_of_grammar; rewrite !sksizes_app; lia).
  unfold tokens_of_grammar in M. destruct (skip_docs _ _ _ _ skip_grammar_doc M) as (t0 & M0 & ->).
  destruct (rules_spelled _ _ G Sz _ t0 M0) as (t1 & M1 & Eq1).
  unfold abs_grammar. rewrite <- (app_nil_r (map abs_rule (cg_rules cg))). apply Eq1.
  destruct (skip_docs _ _ _ _ skip_line_doc M1) as (t2 & M2 & ->). inv_tok M2 as _ _ M2. inv_nil M2. reflexivity.
Qed.
End Reader.

Lemma lvl_paren_if k c : k <= 5 -> (k <=? lvl (paren_if k c)) = true.
Proof.
  intros K. apply Nat.leb_le. unfold paren_if, needs_parens. destruct (lvl c <? k) eqn:E; [exact K|now apply Nat.ltb_ge].
Qed.
Lemma wp_paren_if k c : wp c = true -> wp (paren_if k c) = true.
Proof. intros W. unfold paren_if. destruct (needs_parens k c); exact W. Qed.
Lemma abs_paren_if k c : abs (paren_if k c) = abs c.
Proof. unfold paren_if. destruct (needs_parens k c); reflexivity. Qed.
Lemma nested_bar_paren_if k c : nested_bar (paren_if k c) = nested_bar c.
Proof. unfold paren_if. destruct (needs_parens k c); reflexivity. Qed.
Lemma writable_paren_if x k c : writable x (paren_if k c) = writable x c.
Proof. unfold paren_if. destruct (needs_parens k c); reflexivity. Qed.

Theorem min_parens_wp cps e : wp (min_parens cps e) = true /\ nested_bar (min_parens cps e) = false.
Proof.
  split; induction e; cbn [min_parens wp nested_bar];
    rewrite ?nested_bar_paren_if, ?wp_paren_if, ?lvl_paren_if, ?IHe, ?IHe1, ?IHe2 by (assumption || (repeat constructor));
    reflexivity.
Qed.

Lemma decode_all_utf8 cs : Forall scalar cs -> forall f, length cs <= f -> decode_all_fuel f (utf8 cs) = cs.
Proof.
  induction 1 as [|c cs Sc _ IH]; intros f L.
  - destruct f; reflexivity.
  - destruct f as [|f]; [cbn in L; lia|]. cbn [utf8 flat_map decode_all_fuel]. fold (utf8 cs).
    rewrite (decode1_encode c (utf8 cs) (scalar_lt c Sc)).
    rewrite skipn_app, skipn_all, Nat.sub_diag. cbn [app skipn]. rewrite IH; [reflexivity|cbn in L; lia].
Qed.
Lemma utf8_length cs : length cs <= length (utf8 cs).
Proof.
  induction cs as [|c cs IH]; [reflexivity|]. cbn [utf8 flat_map length]. rewrite app_length. fold (utf8 cs).
  pose proof (encode_length c). lia.
Qed.
Lemma utf8_decode_all s : valid_utf8 s -> utf8 (decode_all s) = s /\ scalars (decode_all s) = true.
Proof.
  intros (cs & F & ->). unfold decode_all. fold (utf8 cs). rewrite (decode_all_utf8 cs F _ (utf8_length cs)). split; [reflexivity|].
  unfold scalars. apply forallb_forall. intros c Hc. apply scalarb_spec. rewrite Forall_forall in F. now apply F.
Qed.

Fixpoint ewritable (extras : bool) (e : expr) : Prop :=
  match e with
  | EStr s | EInsens s => valid_utf8 s
  | ERange lo hi => scalar lo /\ scalar hi
  | EIdent n => ident_ok n = true
  | EPeekSlice i j => i32_ok i = true /\ match j with Some z => i32_ok z = true | None => True end
  | EPosPred x | ENegPred x | EOpt x | ERep x | ERepOnce x | EPush x => ewritable extras x
  | ESeq a b | EChoice a b => ewritable extras a /\ ewritable extras b
  | ERepExact x n | ERepMax x n => ewritable extras x /\ u32_ok n = true /\ n <> 0%N
  | ERepMin x n => ewritable extras x /\ u32_ok n = true
  | ERepMinMax x m n => ewritable extras x /\ u32_ok m = true /\ u32_ok n = true /\ n <> 0%N
  | ESkip _ => False
  | EPushLiteral s => extras = true /\ valid_utf8 s
  | ENodeTag x t => extras = true /\ ewritable extras x /\ tag_ok t = true
  end.

Theorem min_parens_abs extras e : ewritable extras e ->
  abs (min_parens decode_all e) = e /\ writable extras (min_parens decode_all e) = true.
Proof.
  intros H. split.
  - induction e; cbn [ewritable min_parens abs] in *; rewrite ?abs_paren_if; f_equal;
      intuition (apply utf8_decode_all; assumption).
  - induction e; cbn [ewritable min_parens writable] in *; rewrite ?writable_paren_if; try destruct j;
      rewrite ?andb_true_iff, ?negb_true_iff, ?N.eqb_neq, ?scalarb_spec; intuition (apply utf8_decode_all; assumption).
Qed.

(* the other direction: where [needs_parens] asks for parentheses and none are written, the spelling is that of
   another tree, so it cannot be read back as the intended one *)
Lemma collide_seq_right a b c : fe (CSeq a (CSeq b c)) = fe (CSeq (CSeq a b) c).
Proof. unfold fe. cbn [both fst]. now rewrite <- app_assoc. Qed.
Lemma collide_choice_right a b c : fe (CChoice a (CChoice b c)) = fe (CChoice (CChoice a b) c).
Proof. unfold fe. cbn [both fst]. now rewrite <- app_assoc. Qed.
Lemma collide_seq_choice a b c : fe (CSeq a (CChoice b c)) = fe (CChoice (CSeq a b) c).
Proof. unfold fe. cbn [both fst]. now rewrite <- app_assoc. Qed.
Lemma collide_choice_seq a b c : fe (CSeq (CChoice a b) c) = fe (CChoice a (CSeq b c)).
Proof. unfold fe. cbn [both fst]. now rewrite <- app_assoc. Qed.
Lemma collide_prefix_postfix a : tc (COpt (CNeg a)) = tc (CNeg (COpt a)) /\ tc (CRep (CPos a)) = tc (CPos (CRep a)).
Proof. split; reflexivity. Qed.
