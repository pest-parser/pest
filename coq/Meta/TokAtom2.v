(* C07 - tokenisation half: identifier (vs PUSH.. / PEEK[..]), peek_slice, _push_literal as nodes. *)
From Coq Require Import List Arith NArith ZArith Bool Lia String.
Import ListNotations.
Require Import PV.Comb.PState PV.Comb.Bytes PV.Comb.Utf8 PV.Iter.Queue PV.Peg.Ast PV.Peg.Spec PV.Peg.SpecFacts.
Require Import PV.Meta.Tokens PV.Meta.Unescape PV.Meta.Spell PV.Meta.LexProofs PV.Meta.Text PV.Meta.Proofs.
Require Import PV.Meta.PegRules PV.Meta.LexPeg PV.Meta.TokBase PV.Meta.TokLex PV.Meta.TokPost PV.Meta.TokOper PV.Meta.TokAtom.
Local Open Scope string_scope.
Local Open Scope list_scope.

Section Atom2.
Variable w : list byte.
Variable sg : list str.
Notation reads := (reads w sg).

Lemma hard_ne b c : hardb b = true -> hardb c = false -> b <> c.
Proof. intros H1 H2 ->. congruence. Qed.

Lemma atom_ident n g b r' : ident_ok n = true -> gap g -> hardb b = true -> b <> 91%N ->
  reads NODE (n ++ g ++ b :: r') (g ++ b :: r') (tc (CIdent n)).
Proof.
  intros OK Hg Hb B91. pose proof OK as OK'. unfold ident_ok in OK'. apply andb_prop in OK'. destruct OK' as [TO NPn]. apply negb_true_iff in NPn.
  destruct n as [|b0 n0]; [discriminate|]. cbn [tag_ok] in TO. apply andb_prop in TO. destruct TO as [Sb Fr].
  pose proof (hard_follow_ident g b r' Hg Hb) as Fo.
  assert (NP : prefixb (nm "PUSH") ((b0 :: n0) ++ g ++ b :: r') = false) by (apply no_kw; [reflexivity|exact NPn|exact Fo]).
  apply node_of_terminal; [cbn; intros ->; discriminate|].
  apply (terminal_alt w sg [Rf "_push"; Rf "peek_slice"] (Rf "identifier") _ _ _ _ eq_refl); [|exact (identifier_reads w sg (b0 :: n0) _ OK Fo)].
  apply fails_alts; [exact (pushlit_no w sg _ (prefixb_longer (nm "PUSH") (nm "_LITERAL") _ NP))|]. repeat constructor; [exact (push_no w sg _ NP)|].
  destruct (prefixb (nm "PEEK") (b0 :: n0)) eqn:PK.
  - (* the name begins with PEEK: what follows is no opening bracket *)
    apply prefixb_starts in PK. destruct PK as (n' & En). rewrite En, <- app_assoc. destruct n' as [|c n''].
    + exact (peek_no2 w sg g (b :: r') Hg (hard_gap_end b r' Hb) B91).
    + assert (Ic : ident_char c = true).
      { cbn [app] in En. injection En as _ En. rewrite En in Fr. cbn [forallb] in Fr. now repeat (apply andb_prop in Fr; destruct Fr as [? Fr]). }
      apply (peek_no2 w sg [] ((c :: n'') ++ g ++ b :: r')); [constructor|cbn [app]; now apply ident_gap_end|]. cbn. intros ->. discriminate Ic.
  - apply peek_no1. apply no_kw; [reflexivity|exact PK|exact Fo].
Qed.

(* ---- PEEK[ i? .. j? ] ---- *)
Lemma int_gap_end z zw l : spells_int z zw -> gap_end (zw ++ l).
Proof. intros [[_ S]|[_ (l' & -> & S)]]; [exact (num_gap_end _ zw l S)|]. now apply gap_end_b. Qed.
Lemma opt_int_gap_end o wo c l : spells_opt_int o wo -> gap_end (c :: l) -> gap_end (wo ++ c :: l).
Proof. intros [|z zw g S Hg] GE; [exact GE|]. rewrite <- app_assoc. exact (int_gap_end z zw _ S). Qed.
Definition sk_opt_int (o : option Z) : list skel := match o with Some z => [sk_int z] | None => [] end.

Lemma opt_int_reads o wo c l : spells_opt_int o wo -> hardb c = true -> c <> 45%N ->
  exists l', reads (EOpt (Rf "integer")) (wo ++ c :: l) l' (sk_opt_int o) /\ gapped l' (c :: l).
Proof.
  intros [|z zw g S Hg] Hc C45.
  - exists (c :: l). split; [|exact (gapped_refl _ (hard_gap_end c l Hc))]. apply reads_opt_none.
    exact (integer_fails w sg _ (hard_follow_digit [] c l gap_nil Hc) C45).
  - exists (g ++ c :: l). rewrite <- app_assoc. split; [|exact (gapped_intro g _ Hg (hard_gap_end c l Hc))]. apply reads_opt.
    exact (integer_reads w sg z zw _ S (hard_follow_digit g c l Hg Hc)).
Qed.

Lemma atom_peek i j wi wj g1 g2 g3 l : spells_opt_int i wi -> spells_opt_int j wj -> gap g1 -> gap g2 -> gap g3 ->
  reads NODE (nm "PEEK" ++ g1 ++ 91%N :: g2 ++ wi ++ 46%N :: 46%N :: g3 ++ wj ++ 93%N :: l) l (tc (CPeek i j)).
Proof.
  intros Si Sj G1 G2 G3.
  destruct (opt_int_reads i wi 46%N (46%N :: g3 ++ wj ++ 93%N :: l) Si eq_refl ltac:(discriminate)) as (li & Ri & Gi).
  destruct (opt_int_reads j wj 93%N l Sj eq_refl ltac:(discriminate)) as (lj & Rj & Gj).
  apply node_of_terminal; [cbn; discriminate|]. apply (terminal_alt w sg [Rf "_push"] (Rf "peek_slice") _ _ _ _ eq_refl).
  { apply fails_alts; [now apply pushlit_no|repeat constructor]. now apply push_no. }
  apply (reads_as w sg _ _ _ [SK MPeekSlice LNone ((((([] ++ [sk MOpeningBrack]) ++ sk_opt_int i) ++ [sk MRangeOperator]) ++ sk_opt_int j) ++ [sk MClosingBrack])]);
    [|cbn [app tc both mkt snd]; now rewrite <- !app_assoc].
  apply (reads_normal w sg "peek_slice" _ _ _ _ _ eq_refl eq_refl).
  exact (reads_seq (reads_seq (reads_seq (reads_seq (reads_seq (reads_str w sg (nm "PEEK") _) (gapped_b g1 91%N _ G1 eq_refl)
           (tok_reads w sg "opening_brack" 91%N _ _ eq_refl eq_refl))
           (gapped_intro g2 _ G2 (opt_int_gap_end i wi 46%N _ Si (gap_end_b 46%N _ eq_refl))) Ri)
           Gi (reads_lit w sg "range_operator" [46%N; 46%N] _ _ eq_refl eq_refl))
           (gapped_intro g3 _ G3 (opt_int_gap_end j wj 93%N _ Sj (gap_end_b 93%N _ eq_refl))) Rj)
           Gj (tok_reads w sg "closing_brack" 93%N _ l eq_refl eq_refl)).
Qed.

(* ---- PUSH_LITERAL( "..." ) ---- *)
Lemma atom_pushlit cs ew g1 g2 g3 l : spells_string 34%N cs ew -> gap g1 -> gap g2 -> gap g3 ->
  reads NODE (nm "PUSH_LITERAL" ++ g1 ++ 40%N :: g2 ++ quoted 34%N ew ++ g3 ++ 41%N :: l) l (tc (CPushLit cs)).
Proof.
  intros S G1 G2 G3. apply node_of_terminal; [cbn; discriminate|].
  apply (reads_silent w sg "terminal" (fold_left EChoice term_tail (Rf "_push_literal")) _ _ _ eq_refl). apply reads_alt0.
  apply (reads_normal w sg "_push_literal" _ _ _ _ _ eq_refl eq_refl).
  exact (reads_seq (reads_seq (reads_seq (reads_str w sg (nm "PUSH_LITERAL") _) (gapped_b g1 40%N _ G1 eq_refl)
           (tok_reads w sg "opening_paren" 40%N _ _ eq_refl eq_refl))
           (gapped_b g2 34%N _ G2 eq_refl) (string_reads w sg cs ew _ S))
           (gapped_b g3 41%N _ G3 eq_refl) (tok_reads w sg "closing_paren" 41%N _ l eq_refl eq_refl)).
Qed.
End Atom2.
