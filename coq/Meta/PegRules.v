(* C07 - fuel-free derived rules for Peg.Spec.eval: [evals a em e p sg r] says that the evaluation returns r
   (a match or a failure) with some fuel, hence with every larger fuel (SpecFacts.eval_mono).  One rule per
   equation of eval for the operators grammar.pest itself is written in: literals, ranges, rule calls, ANY, SOI, EOI,
   sequence, choice, option, negative predicate, the repetitions, and the implicit skipping (none for EInsens,
   EPeekSlice, EPosPred, EPush, ENodeTag). *)
From Coq Require Import List Arith NArith ZArith Bool Lia String.
Import ListNotations.
Local Open Scope string_scope.
Local Open Scope list_scope.
Require Import PV.Comb.PState PV.Comb.Bytes PV.Iter.Queue PV.Peg.Ast PV.Peg.Spec PV.Peg.SpecFacts.

Section Rules.
Variable G : grammar.
Variable extras : bool.
Variable uprop : name -> option (N -> bool).
Variable w : list byte.
Notation eval := (eval G extras uprop w).

Definition definite (r : sres) : Prop := r <> SFuel.
Definition evals (a : atom) (em : bool) (e : expr) (p : nat) (sg : list str) (r : sres) : Prop :=
  exists n, eval n a em e p sg = r /\ definite r.
Definition skips (a : atom) (em : bool) (p : nat) (sg : list str) (r : sres) : Prop :=
  exists n, skip_with G (eval n) n a em p sg = r /\ definite r.
Definition runits (a : atom) (em : bool) (x : expr) (p : nat) (sg : list str) (r : sres) : Prop :=
  exists n, rep_unit G (eval n) n a em x p sg = r /\ definite r.
Definition reps (a : atom) (em : bool) (x : expr) (p : nat) (sg : list str) (acc : list tree) (r : sres) : Prop :=
  exists n, rep_from_with G (eval n) n a em x p sg acc = r /\ definite r.
Definition manys (a : atom) (em : bool) (nme : name) (p : nat) (sg : list str) (acc : list tree) (r : sres) : Prop :=
  exists n, many_with (eval n) n a em nme p sg acc = r /\ definite r.
(* runits, reps and manys are instances of: a unit U that is given the fuel of the loop around it, loop n (U n) *)
Definition units (U : nat -> nat -> list str -> sres) (p : nat) (sg : list str) (r : sres) : Prop :=
  exists n, U n p sg = r /\ definite r.
Definition loops (U : nat -> nat -> list str -> sres) (p : nat) (sg : list str) (acc : list tree) (r : sres) : Prop :=
  exists n, loop n (U n) p sg acc = r /\ definite r.
Definition grows (U : nat -> nat -> list str -> sres) : Prop := forall n m, n <= m -> ext_unit (U n) (U m).

Lemma evals_up a em e p sg r n : eval n a em e p sg = r -> definite r -> forall m, n <= m -> eval m a em e p sg = r.
Proof. intros H D m L. exact (eval_mono G extras uprop w n m L a em e p sg r H D). Qed.
Lemma ext_up n m : n <= m -> ext_ev (eval n) (eval m).
Proof. intros L. apply eval_mono. exact L. Qed.

Lemma dM p sg f : definite (SMatch p sg f). Proof. discriminate. Qed.
Lemma dF : definite SFail. Proof. discriminate. Qed.
Hint Resolve dM dF : core.

Lemma loops_stop U p sg acc : grows U -> units U p sg SFail -> loops U p sg acc (SMatch p sg acc).
Proof.
  intros Gr (n & E & _). exists (S n). split; [|auto]. cbn [loop]. now rewrite (Gr n (S n) ltac:(lia) p sg _ E dF).
Qed.
Lemma loops_step U p sg acc p1 sg1 f1 res : grows U -> units U p sg (SMatch p1 sg1 f1) -> loops U p1 sg1 (acc ++ f1) res ->
  loops U p sg acc res.
Proof.
  intros Gr (n1 & E1 & _) (n2 & E2 & D2). set (m := Nat.max n1 n2). exists (S m). split; [|exact D2]. cbn [loop].
  rewrite (Gr n1 (S m) ltac:(lia) p sg _ E1 (dM _ _ _)).
  exact (loop_mono n2 m (U n2) (U (S m)) p1 sg1 (acc ++ f1) res (Gr n2 (S m) ltac:(lia)) ltac:(lia) E2 D2).
Qed.

Lemma evals_str a em s p sg :
  evals a em (EStr s) p sg (match lit w s p with Some q => SMatch q sg [] | None => SFail end).
Proof. exists 1. split; [reflexivity|]. destruct (lit w s p); auto. Qed.
Lemma evals_range a em lo hi p sg : evals a em (ERange lo hi) p sg (one_char w (in_range lo hi) p sg).
Proof. exists 1. split; [reflexivity|]. unfold one_char. destruct (char_here w p) as [[c n]|]; [destruct (in_range lo hi c)|]; auto. Qed.

Definition plain_name (n : name) : bool :=
  negb (str_eqb n (nm "SOI") || str_eqb n (nm "EOI") || str_eqb n (nm "PEEK") || str_eqb n (nm "POP") || str_eqb n (nm "DROP") ||
        str_eqb n (nm "PEEK_ALL") || str_eqb n (nm "POP_ALL") || str_eqb n (nm "NEWLINE")) &&
  match ascii_builtin n with Some _ => false | None => true end.

Lemma evals_call a em n r p sg res : plain_name n = true -> find_rule G n = Some r ->
  evals (snd (rule_mode (is_special n) (rty r) a em)) em (rexpr r) p sg res ->
  evals a em (EIdent n) p sg
    (match res with
     | SMatch q sg2 f2 => SMatch q sg2 (if fst (rule_mode (is_special n) (rty r) a em) then [Node (rule_id G n) None p q f2] else f2)
     | x => x
     end).
Proof.
  intros PN FR (k & E & D). exists (S k). unfold plain_name in PN. apply andb_prop in PN. destruct PN as [P1 P2].
  apply negb_true_iff in P1. repeat (apply orb_false_iff in P1; destruct P1 as [P1 ?]).
  split.
  - cbn [Spec.eval].
    repeat match goal with H : str_eqb n _ = false |- _ => rewrite H; clear H end.
    destruct (ascii_builtin n); [discriminate|]. rewrite FR.
    destruct (rule_mode (is_special n) (rty r) a em) as [tk a2]. cbn [fst snd] in *. rewrite E. destruct res; reflexivity.
  - destruct res; auto.
Qed.

Lemma evals_any a em p sg : evals a em (EIdent (nm "ANY")) p sg (one_char w (fun _ => true) p sg).
Proof. exists 1. split; [reflexivity|]. unfold one_char. destruct (char_here w p) as [[c n]|]; auto. Qed.
Lemma evals_soi a em p sg : evals a em (EIdent (nm "SOI")) p sg (if Nat.eqb p 0 then SMatch p sg [] else SFail).
Proof. exists 1. split; [reflexivity|]. destruct (Nat.eqb p 0); auto. Qed.
Lemma evals_eoi a em p sg :
  evals a em (EIdent (nm "EOI")) p sg
    (if Nat.eqb p (List.length w) then SMatch p sg (if tok a em then [Node (rule_id G (nm "EOI")) None p p []] else []) else SFail).
Proof. exists 1. split; [reflexivity|]. destruct (Nat.eqb p (List.length w)); auto. Qed.

Lemma skips_atomic a em p sg : atom_eqb a NonAtomic = false -> skips a em p sg (SMatch p sg []).
Proof. intros H. exists 0. unfold skip_with. rewrite H. cbn. auto. Qed.

Lemma evals_seq a em l r p sg p1 sg1 f1 p2 sg2 f2 res :
  evals a em l p sg (SMatch p1 sg1 f1) -> skips a em p1 sg1 (SMatch p2 sg2 f2) -> evals a em r p2 sg2 res ->
  evals a em (ESeq l r) p sg (match res with SMatch p3 sg3 f3 => SMatch p3 sg3 (f1 ++ f2 ++ f3) | x => x end).
Proof.
  intros (n1 & E1 & _) (n2 & E2 & _) (n3 & E3 & D3).
  set (m := Nat.max n1 (Nat.max n2 n3)). exists (S m). split.
  - cbn [Spec.eval]. rewrite (evals_up _ _ _ _ _ _ _ E1 (dM _ _ _) m) by lia.
    rewrite (skip_mono G (eval n2) (eval m) n2 m a em p1 sg1 _ (ext_up n2 m ltac:(lia)) ltac:(lia) E2 (dM _ _ _)).
    rewrite (evals_up _ _ _ _ _ _ _ E3 D3 m) by lia. destruct res; reflexivity.
  - destruct res; auto.
Qed.
Lemma evals_seq_fail a em l r p sg : evals a em l p sg SFail -> evals a em (ESeq l r) p sg SFail.
Proof. intros (n & E & _). exists (S n). split; [cbn [Spec.eval]; now rewrite E|auto]. Qed.
(* outside NonAtomic nothing is skipped: a sequence is plain juxtaposition *)
Lemma evals_seq_atomic a em l r p sg p1 sg1 f1 res : atom_eqb a NonAtomic = false ->
  evals a em l p sg (SMatch p1 sg1 f1) -> evals a em r p1 sg1 res ->
  evals a em (ESeq l r) p sg (match res with SMatch p3 sg3 f3 => SMatch p3 sg3 (f1 ++ f3) | x => x end).
Proof. intros NA L R. exact (evals_seq a em l r p sg p1 sg1 f1 p1 sg1 [] res L (skips_atomic a em p1 sg1 NA) R). Qed.

Lemma evals_choice_l a em l r p sg q sg' f : evals a em l p sg (SMatch q sg' f) -> evals a em (EChoice l r) p sg (SMatch q sg' f).
Proof. intros (n & E & _). exists (S n). split; [cbn [Spec.eval]; now rewrite E|auto]. Qed.
Lemma evals_choice_r a em l r p sg res : evals a em l p sg SFail -> evals a em r p sg res -> evals a em (EChoice l r) p sg res.
Proof.
  intros (n1 & E1 & _) (n2 & E2 & D2). exists (S (Nat.max n1 n2)). split; [|exact D2].
  cbn [Spec.eval]. rewrite (evals_up _ _ _ _ _ _ _ E1 dF (Nat.max n1 n2)) by lia. apply (evals_up _ _ _ _ _ _ _ E2 D2). lia.
Qed.

Lemma evals_opt a em x p sg res : evals a em x p sg res ->
  evals a em (EOpt x) p sg (match res with SFail => SMatch p sg [] | r => r end).
Proof. intros (n & E & D). exists (S n). split; [cbn [Spec.eval]; rewrite E; destruct res; reflexivity|destruct res; auto]. Qed.

Lemma evals_neg a em x p sg res : evals a false x p sg res ->
  evals a em (ENegPred x) p sg (match res with SMatch _ _ _ => SFail | SFail => SMatch p sg [] | SFuel => SFuel end).
Proof. intros (n & E & D). exists (S n). split; [cbn [Spec.eval]; rewrite E; destruct res; reflexivity|destruct res; auto]. Qed.

Lemma runits_intro a em x p sg p1 sg1 f1 res : skips a em p sg (SMatch p1 sg1 f1) -> evals a em x p1 sg1 res ->
  runits a em x p sg (match res with SMatch p2 sg2 f2 => SMatch p2 sg2 (f1 ++ f2) | r => r end).
Proof.
  intros (n1 & E1 & _) (n2 & E2 & D2). set (m := Nat.max n1 n2). exists m. split.
  - unfold rep_unit. rewrite (skip_mono G (eval n1) (eval m) n1 m a em p sg _ (ext_up n1 m ltac:(lia)) ltac:(lia) E1 (dM _ _ _)).
    rewrite (evals_up _ _ _ _ _ _ _ E2 D2 m) by lia. destruct res; reflexivity.
  - destruct res; auto.
Qed.

Lemma runits_atomic a em x p sg res : atom_eqb a NonAtomic = false -> evals a em x p sg res -> runits a em x p sg res.
Proof. intros NA X. pose proof (runits_intro a em x p sg p sg [] res (skips_atomic a em p sg NA) X) as R. now destruct res. Qed.

Lemma rep_grows a em x : grows (fun n => rep_unit G (eval n) n a em x).
Proof. intros n m L. exact (rep_unit_mono G (eval n) (eval m) n m a em x (ext_up n m L) L). Qed.
Lemma reps_stop a em x p sg acc : runits a em x p sg SFail -> reps a em x p sg acc (SMatch p sg acc).
Proof. exact (loops_stop _ p sg acc (rep_grows a em x)). Qed.
Lemma reps_step a em x p sg acc p1 sg1 f1 res : runits a em x p sg (SMatch p1 sg1 f1) -> reps a em x p1 sg1 (acc ++ f1) res ->
  reps a em x p sg acc res.
Proof. exact (loops_step _ p sg acc p1 sg1 f1 res (rep_grows a em x)). Qed.

Lemma evals_rep a em x p sg : evals a em x p sg SFail -> evals a em (ERep x) p sg (SMatch p sg []).
Proof. intros (n & E & _). exists (S n). split; [cbn [Spec.eval]; now rewrite E|auto]. Qed.
Lemma evals_rep_more a em x p sg p1 sg1 f1 res : evals a em x p sg (SMatch p1 sg1 f1) -> reps a em x p1 sg1 f1 res ->
  evals a em (ERep x) p sg res.
Proof.
  intros (n1 & E1 & _) (n2 & E2 & D2). set (m := Nat.max n1 n2). exists (S m). split; [|exact D2].
  cbn [Spec.eval]. rewrite (evals_up _ _ _ _ _ _ _ E1 (dM _ _ _) m) by lia.
  apply (rep_from_mono G (eval n2) (eval m) n2 m a em x p1 sg1 f1 res (ext_up n2 m ltac:(lia)) ltac:(lia) E2 D2).
Qed.

(* e+ without grammar-extras, and the bounded repetitions: defined by their unrolling *)
Lemma evals_rep_once a em x p sg res : extras = false -> evals a em (ESeq x (ERep x)) p sg res -> evals a em (ERepOnce x) p sg res.
Proof. intros X (n & E & D). exists (S n). split; [|exact D]. cbn [Spec.eval]. revert E. rewrite X. auto. Qed.
Lemma evals_unroll a em e u p sg res :
  match e with ERepExact _ _ | ERepMin _ _ | ERepMax _ _ | ERepMinMax _ _ _ => True | _ => False end ->
  unroll_node extras e = Some u -> evals a em u p sg res -> evals a em e p sg res.
Proof.
  intros K U (n & E & D). exists (S n). split; [|exact D].
  destruct e; try tauto; cbn [Spec.eval]; rewrite U; exact E.
Qed.

Lemma many_grows a em nme : grows (fun n p sg => eval n a em (EIdent nme) p sg).
Proof. intros n m L p sg r. apply (ext_up n m L). Qed.
Lemma manys_stop a em nme p sg acc : evals a em (EIdent nme) p sg SFail -> manys a em nme p sg acc (SMatch p sg acc).
Proof. exact (loops_stop _ p sg acc (many_grows a em nme)). Qed.
Lemma manys_step a em nme p sg acc p1 sg1 f1 res : evals a em (EIdent nme) p sg (SMatch p1 sg1 f1) ->
  manys a em nme p1 sg1 (acc ++ f1) res -> manys a em nme p sg acc res.
Proof. exact (loops_step _ p sg acc p1 sg1 f1 res (many_grows a em nme)). Qed.

(* the second loop of the skipping: a COMMENT, then the WHITESPACE after it *)
Definition cunit (n : nat) (a : atom) (em : bool) : nat -> list str -> sres :=
  fun p sg => match eval n a em (EIdent (nm "COMMENT")) p sg with
              | SMatch p2 sg2 f2 => many_with (eval n) n a em (nm "WHITESPACE") p2 sg2 f2
              | r => r end.
Definition cloops (a : atom) (em : bool) (p : nat) (sg : list str) (acc : list tree) (r : sres) : Prop :=
  exists n, loop n (cunit n a em) p sg acc = r /\ definite r.

Lemma cunit_grows a em : grows (fun n => cunit n a em).
Proof.
  intros n m L p sg r H D. unfold cunit in *.
  destruct (eval n a em (EIdent (nm "COMMENT")) p sg) as [p2 sg2 f2| |] eqn:E.
  - rewrite (evals_up _ _ _ _ _ _ _ E (dM _ _ _) m L). apply (many_mono (eval n) (eval m) n m a em _ p2 sg2 f2 r (ext_up n m L) L H D).
  - rewrite (evals_up _ _ _ _ _ _ _ E dF m L). exact H.
  - subst r. now elim D.
Qed.

Lemma cloops_stop a em p sg acc : evals a em (EIdent (nm "COMMENT")) p sg SFail -> cloops a em p sg acc (SMatch p sg acc).
Proof.
  intros (n & E & _). apply (loops_stop _ p sg acc (cunit_grows a em)). exists n. unfold cunit. now rewrite E.
Qed.
Lemma cloops_step a em p sg acc p1 sg1 f1 p2 sg2 f2 res :
  evals a em (EIdent (nm "COMMENT")) p sg (SMatch p1 sg1 f1) -> manys a em (nm "WHITESPACE") p1 sg1 f1 (SMatch p2 sg2 f2) ->
  cloops a em p2 sg2 (acc ++ f2) res -> cloops a em p sg acc res.
Proof.
  intros (n1 & E1 & _) (n2 & E2 & _). apply (loops_step _ p sg acc p2 sg2 f2 res (cunit_grows a em)).
  set (m := Nat.max n1 n2). exists m. unfold cunit. rewrite (evals_up _ _ _ _ _ _ _ E1 (dM _ _ _) m) by lia.
  split; [|auto]. exact (many_mono (eval n2) (eval m) n2 m a em _ p1 sg1 f1 _ (ext_up n2 m ltac:(lia)) ltac:(lia) E2 (dM _ _ _)).
Qed.

Lemma skips_both em p sg p1 sg1 f1 res :
  has_rule G (nm "WHITESPACE") = true -> has_rule G (nm "COMMENT") = true ->
  manys NonAtomic em (nm "WHITESPACE") p sg [] (SMatch p1 sg1 f1) -> cloops NonAtomic em p1 sg1 f1 res ->
  skips NonAtomic em p sg res.
Proof.
  intros HW HC (n1 & E1 & _) (n2 & E2 & D2). set (m := Nat.max n1 n2). exists m. split; [|exact D2].
  unfold skip_with. cbn [atom_eqb negb]. rewrite HW, HC.
  rewrite (many_mono (eval n1) (eval m) n1 m NonAtomic em _ p sg [] _ (ext_up n1 m ltac:(lia)) ltac:(lia) E1 (dM _ _ _)).
  apply (loop_mono n2 m (cunit n2 NonAtomic em) (cunit m NonAtomic em) p1 sg1 f1 res (cunit_grows NonAtomic em n2 m ltac:(lia)) ltac:(lia) E2 D2).
Qed.

Lemma eval_rep_S n a em x p sg :
  eval (S n) a em (ERep x) p sg =
  match eval n a em x p sg with
  | SMatch p1 sg1 f1 => rep_from_with G (eval n) n a em x p1 sg1 f1
  | SFail => SMatch p sg []
  | SFuel => SFuel
  end.
Proof. reflexivity. Qed.

(* in an atomic context x* is the plain loop (no implicit skipping) *)
Lemma evals_rep_atomic a em x p sg r : atom_eqb a NonAtomic = false -> reps a em x p sg [] r -> evals a em (ERep x) p sg r.
Proof.
  intros NA (n & E & D). destruct n as [|k]; [cbn in E; subst r; now elim D|].
  unfold rep_from_with in E. cbn [loop] in E. unfold rep_unit at 1 in E. unfold skip_with in E. rewrite NA in E. cbn [negb] in E.
  destruct (eval (S k) a em x p sg) as [p2 sg2 f2| |] eqn:Ex.
  - exists (S (S k)). split; [|exact D]. rewrite eval_rep_S, Ex.
    cbn [app] in E. unfold rep_from_with.
    apply (loop_mono k (S k) (rep_unit G (eval (S k)) (S k) a em x) (rep_unit G (eval (S k)) (S k) a em x) p2 sg2 f2 r); auto.
    intros p0 sg0 r0 H0 _. exact H0.
  - exists (S (S k)). split; [|exact D]. rewrite eval_rep_S, Ex. exact E.
  - subst r. now elim D.
Qed.
End Rules.
