(* C07 - tokenisation half: node / terminal and the alternatives of terminal that do not contain an expression:
   when each fails, and string / insensitive_string / range as a node. *)
From Coq Require Import List Arith NArith ZArith Bool Lia String.
Import ListNotations.
Require Import PV.Comb.PState PV.Comb.Bytes PV.Comb.Utf8 PV.Iter.Queue PV.Peg.Ast PV.Peg.Spec PV.Peg.SpecFacts.
Require Import PV.Meta.Tokens PV.Meta.Unescape PV.Meta.Spell PV.Meta.LexProofs PV.Meta.Text PV.Meta.Proofs.
Require Import PV.Meta.PegRules PV.Meta.LexPeg PV.Meta.TokBase PV.Meta.TokLex PV.Meta.TokPost PV.Meta.TokOper.
Local Open Scope string_scope.
Local Open Scope list_scope.

Definition OP : expr := Rf "opening_paren".
Definition CP : expr := Rf "closing_paren".
Definition term_tail : list expr := [Rf "_push"; Rf "peek_slice"; Rf "identifier"; Rf "string"; Rf "insensitive_string"; Rf "range"].

Lemma prefixb_longer s s' l : prefixb s l = false -> prefixb (s ++ s') l = false.
Proof.
  revert l. induction s as [|a s IH]; intros l H; [discriminate|]. destruct l as [|x l']; [reflexivity|]. cbn [app prefixb] in *.
  destruct (a =? x)%N; [cbn [andb] in *; now apply IH|reflexivity].
Qed.
(* a keyword made of identifier characters cannot straddle the end of an identifier *)
Lemma no_kw s n rest : forallb ident_char s = true -> prefixb s n = false -> follow ident_char rest -> prefixb s (n ++ rest) = false.
Proof.
  revert n. induction s as [|a s IH]; intros n Hs H Fo; [discriminate|]. cbn [forallb] in Hs. apply andb_prop in Hs. destruct Hs as [Ha Hs].
  destruct n as [|c n'].
  - cbn [app]. destruct rest as [|x r]; [reflexivity|]. destruct Fo as [_ Fx]. cbn [prefixb].
    destruct (a =? x)%N eqn:E; [|reflexivity]. apply N.eqb_eq in E. subst x. congruence.
  - cbn [app prefixb] in *. destruct (a =? c)%N; [cbn [andb] in *; now apply IH|reflexivity].
Qed.
Lemma ident_gap_end c l : ident_char c = true -> gap_end (c :: l).
Proof. intros H. apply gap_end_byte; intros ->; discriminate H. Qed.

Section Atom.
Variable w : list byte.
Variable sg : list str.
Notation reads := (reads w sg).
Notation fails := (fails w sg).

Lemma terminal_alt l1 x l2 l l' ks : term_tail = l1 ++ x :: l2 -> fails (fold_left EChoice l1 (Rf "_push_literal")) l -> reads x l l' ks ->
  reads (Rf "terminal") l l' ks.
Proof.
  intros E N R. apply (reads_silent w sg "terminal" (fold_left EChoice term_tail (Rf "_push_literal")) _ _ _ eq_refl).
  rewrite E. now apply reads_alt.
Qed.
Lemma node_of_terminal l l' ks : hd_ne 40%N l -> reads (Rf "terminal") l l' ks -> reads NODE l l' ks.
Proof.
  intros N T. apply (reads_silent w sg "node" _ _ _ _ eq_refl).
  apply (reads_alt w sg _ [] (Rf "terminal") []); [|exact T]. do 2 apply fails_seq1. exact (tok_fails w sg "opening_paren" 40%N l eq_refl N).
Qed.

Lemma push_no l : prefixb (nm "PUSH") l = false -> fails (Rf "_push") l.
Proof.
  intros N. apply (fails_call w sg "_push" _ _ l eq_refl (or_intror eq_refl)). do 3 apply fails_seq1. now apply fails_str.
Qed.
Lemma pushlit_no l : prefixb (nm "PUSH_LITERAL") l = false -> fails (Rf "_push_literal") l.
Proof.
  intros N. apply (fails_call w sg "_push_literal" _ _ l eq_refl (or_intror eq_refl)). do 3 apply fails_seq1. now apply fails_str.
Qed.
Lemma peek_no1 l : prefixb (nm "PEEK") l = false -> fails (Rf "peek_slice") l.
Proof.
  intros N. apply (fails_call w sg "peek_slice" _ _ l eq_refl (or_intror eq_refl)). do 5 apply fails_seq1. now apply fails_str.
Qed.
Lemma peek_no2 g l : gap g -> gap_end l -> hd_ne 91%N l -> fails (Rf "peek_slice") (nm "PEEK" ++ g ++ l).
Proof.
  intros Hg GE N. apply (fails_call w sg "peek_slice" _ _ _ eq_refl (or_intror eq_refl)). do 4 apply fails_seq1.
  exact (fails_seq2 (reads_str w sg (nm "PEEK") _) (gapped_intro g l Hg GE) (tok_fails w sg "opening_brack" 91%N l eq_refl N)).
Qed.

Lemma hd_not_start (b0 : byte) l0 c : ident_start b0 = false -> ident_start c = true -> hd_ne c (b0 :: l0).
Proof. intros H Hc. cbn. intros ->. congruence. Qed.
Lemma pre4_no b0 l0 : (b0 < 128)%N -> ident_start b0 = false ->
  fails (fold_left EChoice [Rf "_push"; Rf "peek_slice"; Rf "identifier"] (Rf "_push_literal")) (b0 :: l0).
Proof.
  intros L S.
  assert (NP : prefixb (nm "PUSH") (b0 :: l0) = false) by (change (nm "PUSH") with (80%N :: [85; 83; 72]%N); apply hd_ne_prefix; now apply hd_not_start).
  assert (NK : prefixb (nm "PEEK") (b0 :: l0) = false) by (change (nm "PEEK") with (80%N :: [69; 69; 75]%N); apply hd_ne_prefix; now apply hd_not_start).
  apply fails_alts; [exact (pushlit_no _ (prefixb_longer (nm "PUSH") (nm "_LITERAL") _ NP))|]. repeat constructor.
  - exact (push_no _ NP).
  - exact (peek_no1 _ NK).
  - apply identifier_fails. split; assumption.
Qed.

Lemma atom_str cs ew l : spells_string 34%N cs ew -> reads NODE (quoted 34%N ew ++ l) l (tc (CStr cs)).
Proof.
  intros S. apply node_of_terminal; [cbn; discriminate|].
  apply (terminal_alt [Rf "_push"; Rf "peek_slice"; Rf "identifier"] (Rf "string") _ _ _ _ eq_refl); [now apply pre4_no|exact (string_reads w sg cs ew l S)].
Qed.

Lemma insens_reads cs ew g l : spells_string 34%N cs ew -> gap g ->
  reads (Rf "insensitive_string") (94%N :: g ++ quoted 34%N ew ++ l) l [SK MInsensitiveString (LIns cs) [sk_string cs]].
Proof.
  intros S Hg. apply (reads_node w sg "insensitive_string" _ _ (LIns cs) _ _ _ eq_refl eq_refl (fun _ => I)).
  exact (reads_seq (reads_str w sg [94%N] _) (gapped_b g 34%N _ Hg eq_refl) (string_reads w sg cs ew l S)).
Qed.
Lemma insens_no l : hd_ne 94%N l -> fails (Rf "insensitive_string") l.
Proof.
  intros N. apply (fails_call w sg "insensitive_string" _ _ l eq_refl (or_intror eq_refl)).
  apply fails_seq1. apply fails_str. now apply hd_ne_prefix.
Qed.
Lemma atom_insens cs ew g l : spells_string 34%N cs ew -> gap g -> reads NODE (94%N :: g ++ quoted 34%N ew ++ l) l (tc (CInsens cs)).
Proof.
  intros S Hg. apply node_of_terminal; [cbn; discriminate|].
  apply (terminal_alt [Rf "_push"; Rf "peek_slice"; Rf "identifier"; Rf "string"] (Rf "insensitive_string") _ _ _ _ eq_refl); [|exact (insens_reads cs ew g l S Hg)].
  apply (fails_alts w sg _ [Rf "string"]); [now apply pre4_no|repeat constructor]. apply string_fails; try reflexivity. cbn. discriminate.
Qed.

Lemma range_reads lo hi e1 e2 g1 g2 l : spells_char 39%N lo e1 -> spells_char 39%N hi e2 -> gap g1 -> gap g2 ->
  reads (Rf "range") (quoted 39%N e1 ++ g1 ++ 46%N :: 46%N :: g2 ++ quoted 39%N e2 ++ l) l [SK MRange LNone [sk_char lo; sk MRangeOperator; sk_char hi]].
Proof.
  intros S1 S2 G1 G2.
  apply (reads_normal w sg "range" _ _ _ _ _ eq_refl eq_refl).
  exact (reads_seq (reads_seq (character_reads w sg lo e1 _ S1) (gapped_b g1 46%N _ G1 eq_refl)
                              (reads_lit w sg "range_operator" [46%N; 46%N] _ _ eq_refl eq_refl))
                   (gapped_b g2 39%N _ G2 eq_refl) (character_reads w sg hi e2 l S2)).
Qed.
Lemma atom_range lo hi e1 e2 g1 g2 l : spells_char 39%N lo e1 -> spells_char 39%N hi e2 -> gap g1 -> gap g2 ->
  reads NODE (quoted 39%N e1 ++ g1 ++ 46%N :: 46%N :: g2 ++ quoted 39%N e2 ++ l) l (tc (CRange lo hi)).
Proof.
  intros S1 S2 G1 G2. apply node_of_terminal; [cbn; discriminate|].
  apply (terminal_alt [Rf "_push"; Rf "peek_slice"; Rf "identifier"; Rf "string"; Rf "insensitive_string"] (Rf "range") [] _ _ _ eq_refl);
    [|exact (range_reads lo hi e1 e2 g1 g2 l S1 S2 G1 G2)].
  apply (fails_alts w sg _ [Rf "string"; Rf "insensitive_string"]); [now apply pre4_no|repeat constructor].
  - apply string_fails; try reflexivity. cbn. discriminate.
  - apply insens_no. cbn. discriminate.
Qed.
End Atom.
