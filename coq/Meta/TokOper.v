(* C07 - tokenisation half: postfix_operator, prefix_operator, infix_operator, modifier, node_tag: which alternative
   reads which spelling, and when they fail. *)
From Coq Require Import List Arith NArith ZArith Bool Lia String.
Import ListNotations.
Require Import PV.Comb.PState PV.Comb.Bytes PV.Comb.Utf8 PV.Iter.Queue PV.Peg.Ast PV.Peg.Spec PV.Peg.SpecFacts.
Require Import PV.Meta.Tokens PV.Meta.Unescape PV.Meta.Spell PV.Meta.LexProofs PV.Meta.Text PV.Meta.Proofs.
Require Import PV.Meta.PegRules PV.Meta.LexPeg PV.Meta.TokBase PV.Meta.TokLex PV.Meta.TokPost.
Local Open Scope string_scope.
Local Open Scope list_scope.

(* a one-byte token fails where the text begins with another byte *)
Ltac tok_off := eapply tok_fails; try reflexivity; cbn; discriminate.
Ltac normg := repeat (progress (rewrite <- ?app_assoc; cbn [app])).

Section Oper.
Variable w : list byte.
Variable sg : list str.
Notation reads := (reads w sg).
Notation fails := (fails w sg).

Lemma hd_ne_cons (c b : byte) l : b <> c -> hd_ne c (b :: l).
Proof. auto. Qed.

(* ---- postfix_operator: ? * + and the four counts, in this order ---- *)
Definition op3 : expr := fold_left EChoice [Rf "repeat_operator"; Rf "repeat_once_operator"] (Rf "optional_operator").
Definition counts : list expr := [Rf "repeat_exact"; Rf "repeat_min"; Rf "repeat_max"; Rf "repeat_min_max"].

Lemma op3_fails l : hd_ne 63%N l -> hd_ne 42%N l -> hd_ne 43%N l -> fails op3 l.
Proof.
  intros N1 N2 N3. apply fails_alts; [|repeat constructor].
  - exact (tok_fails w sg "optional_operator" 63%N l eq_refl N1).
  - exact (tok_fails w sg "repeat_operator" 42%N l eq_refl N2).
  - exact (tok_fails w sg "repeat_once_operator" 43%N l eq_refl N3).
Qed.
Lemma op3_fails_brace l : fails op3 (123%N :: l).
Proof. apply op3_fails; cbn; discriminate. Qed.

Lemma postfix_ok k t l : post_text k t -> reads POSTOP (t ++ l) l [k].
Proof.
  intros T. apply (reads_silent w sg "postfix_operator" (fold_left EChoice counts op3) _ _ _ eq_refl).
  destruct T as [| | |n nw g2 g3 S G2 G3|n nw g2 g3 g4 S G2 G3 G4|n nw g2 g3 g4 S G2 G3 G4|m n mw nw g2 g3 g4 g5 Sm Sn G2 G3 G4 G5]; normg.
  - apply (reads_alt0 w sg op3 counts). apply (reads_alt0 w sg _ [Rf "repeat_operator"; Rf "repeat_once_operator"]). now apply tok_reads.
  - apply (reads_alt0 w sg op3 counts). apply (reads_alt w sg _ [] (Rf "repeat_operator") [Rf "repeat_once_operator"]); [tok_off|now apply tok_reads].
  - apply (reads_alt0 w sg op3 counts). apply (reads_alt w sg _ [Rf "repeat_operator"] (Rf "repeat_once_operator") []); [|now apply tok_reads].
    apply fails_alts; [|repeat constructor]; tok_off.
  - apply (reads_alt w sg op3 [] (Rf "repeat_exact") (tl counts)); [apply op3_fails_brace|]. exact (exact_reads w sg n nw g2 g3 l S G2 G3).
  - apply (reads_alt w sg op3 [Rf "repeat_exact"] (Rf "repeat_min") (tl (tl counts))); [|exact (min_reads w sg n nw g2 g3 g4 l S G2 G3 G4)].
    apply fails_alts; [apply op3_fails_brace|repeat constructor]. exact (exact_fails_comma2 w sg n nw g2 g3 _ S G2 G3).
  - apply (reads_alt w sg op3 [Rf "repeat_exact"; Rf "repeat_min"] (Rf "repeat_max") [Rf "repeat_min_max"]); [|exact (max_reads w sg n nw g2 g3 g4 l S G2 G3 G4)].
    apply fails_alts; [apply op3_fails_brace|repeat constructor].
    + exact (exact_fails_comma1 w sg g2 _ G2).
    + exact (min_fails_comma1 w sg g2 _ G2).
  - apply (reads_alt w sg op3 [Rf "repeat_exact"; Rf "repeat_min"; Rf "repeat_max"] (Rf "repeat_min_max") []);
      [|exact (min_max_reads w sg m mw n nw g2 g3 g4 g5 l Sm Sn G2 G3 G4 G5)].
    apply fails_alts; [apply op3_fails_brace|repeat constructor].
    + exact (exact_fails_comma2 w sg m mw g2 g3 _ Sm G2 G3).
    + exact (min_fails_num w sg m mw n nw g2 g3 g4 _ Sm Sn G2 G3 G4).
    + exact (max_fails_num1 w sg m mw g2 _ Sm G2).
Qed.

Lemma postfix_no l : hd_ne 63%N l -> hd_ne 42%N l -> hd_ne 43%N l -> hd_ne 123%N l -> fails POSTOP l.
Proof.
  intros N1 N2 N3 N4. destruct (counts_fail w sg l N4) as (A & B & C & D).
  apply (fails_call w sg "postfix_operator" _ (fold_left EChoice counts op3) l eq_refl (or_introl eq_refl)).
  apply fails_alts; [now apply op3_fails|repeat constructor; assumption].
Qed.

(* ---- prefix_operator = _{ positive_predicate_operator | negative_predicate_operator } ---- *)
Lemma prefix_reads (neg : bool) l :
  reads PREOP ((if neg then 33%N else 38%N) :: l) l [sk (if neg then MNegativePredicateOperator else MPositivePredicateOperator)].
Proof.
  apply (reads_silent w sg "prefix_operator" _ _ _ _ eq_refl).
  destruct neg.
  - apply (reads_alt w sg _ [] (Rf "negative_predicate_operator") []); [tok_off|now apply tok_reads].
  - apply (reads_alt0 w sg _ [Rf "negative_predicate_operator"]). now apply tok_reads.
Qed.
Lemma prefix_no l : hd_ne 38%N l -> hd_ne 33%N l -> fails PREOP l.
Proof.
  intros N1 N2. apply (fails_call w sg "prefix_operator" _ _ l eq_refl (or_introl eq_refl)).
  apply (fails_alts w sg _ [Rf "negative_predicate_operator"]); [|repeat constructor].
  - exact (tok_fails w sg "positive_predicate_operator" 38%N l eq_refl N1).
  - exact (tok_fails w sg "negative_predicate_operator" 33%N l eq_refl N2).
Qed.

(* ---- infix_operator = _{ sequence_operator | choice_operator } ---- *)
Lemma infix_reads (alt : bool) l :
  reads INFIX ((if alt then 124%N else 126%N) :: l) l [sk (if alt then MChoiceOperator else MSequenceOperator)].
Proof.
  apply (reads_silent w sg "infix_operator" _ _ _ _ eq_refl).
  destruct alt.
  - apply (reads_alt w sg _ [] (Rf "choice_operator") []); [tok_off|now apply tok_reads].
  - apply (reads_alt0 w sg _ [Rf "choice_operator"]). now apply tok_reads.
Qed.
Lemma infix_no l : hd_ne 126%N l -> hd_ne 124%N l -> fails INFIX l.
Proof.
  intros N1 N2. apply (fails_call w sg "infix_operator" _ _ l eq_refl (or_introl eq_refl)).
  apply (fails_alts w sg _ [Rf "choice_operator"]); [|repeat constructor].
  - exact (tok_fails w sg "sequence_operator" 126%N l eq_refl N1).
  - exact (tok_fails w sg "choice_operator" 124%N l eq_refl N2).
Qed.

(* ---- modifier = _{ silent_modifier | atomic_modifier | compound_atomic_modifier | non_atomic_modifier } ---- *)
Definition mod_tail : list expr := [Rf "atomic_modifier"; Rf "compound_atomic_modifier"; Rf "non_atomic_modifier"].
Lemma modifier_ok ty l : ty <> RNormal -> reads (Rf "modifier") (modifier_text ty ++ l) l (sk_modifier ty).
Proof.
  intros NN. apply (reads_silent w sg "modifier" (fold_left EChoice mod_tail (Rf "silent_modifier")) _ _ _ eq_refl).
  destruct ty; [congruence|..]; cbn [modifier_text sk_modifier app].
  - apply (reads_alt0 w sg _ mod_tail). now apply tok_reads.
  - apply (reads_alt w sg _ [] (Rf "atomic_modifier") (tl mod_tail)); [tok_off|now apply tok_reads].
  - apply (reads_alt w sg _ [Rf "atomic_modifier"] (Rf "compound_atomic_modifier") [Rf "non_atomic_modifier"]); [|now apply tok_reads].
    apply fails_alts; [|repeat constructor]; tok_off.
  - apply (reads_alt w sg _ [Rf "atomic_modifier"; Rf "compound_atomic_modifier"] (Rf "non_atomic_modifier") []); [|now apply tok_reads].
    apply fails_alts; [|repeat constructor]; tok_off.
Qed.
Lemma modifier_no l : fails (Rf "modifier") (123%N :: l).
Proof.
  apply (fails_call w sg "modifier" _ (fold_left EChoice mod_tail (Rf "silent_modifier")) _ eq_refl (or_introl eq_refl)).
  apply fails_alts; [|repeat constructor]; tok_off.
Qed.

(* ---- node_tag = _{ tag_id ~ assignment_operator } ---- *)
Lemma node_tag_ok t g1 l : tag_ok t = true -> gap g1 ->
  reads (Rf "node_tag") (35%N :: t ++ g1 ++ 61%N :: l) l [SK MTagId (LTag t) []; sk MAssignmentOperator].
Proof.
  intros OK G1. apply (reads_silent w sg "node_tag" _ _ _ _ eq_refl).
  exact (reads_seq (tag_id_reads w sg t _ OK (hard_follow_ident g1 61%N l G1 eq_refl)) (gapped_b g1 61%N l G1 eq_refl)
                   (tok_reads w sg "assignment_operator" 61%N _ l eq_refl eq_refl)).
Qed.
Lemma node_tag_no l : hd_ne 35%N l -> fails (Rf "node_tag") l.
Proof.
  intros N. apply (fails_call w sg "node_tag" _ _ l eq_refl (or_introl eq_refl)).
  apply fails_seq1. exact (tag_id_fails w sg l N).
Qed.
End Oper.
