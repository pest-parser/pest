(* C07 - tokenisation half: ( e ) and PUSH( e ), and the induction over the printed concrete expressions: every
   well-parenthesised writable expression satisfies the claims of its level. *)
From Coq Require Import List Arith NArith ZArith Bool Lia String.
Import ListNotations.
Require Import PV.Comb.PState PV.Comb.Bytes PV.Comb.Utf8 PV.Iter.Queue PV.Peg.Ast PV.Peg.Spec PV.Peg.SpecFacts.
Require Import PV.Meta.Tokens PV.Meta.Unescape PV.Meta.Spell PV.Meta.LexProofs PV.Meta.Text PV.Meta.Proofs.
Require Import PV.Meta.PegRules PV.Meta.LexPeg PV.Meta.TokBase PV.Meta.TokLex PV.Meta.TokPost PV.Meta.TokOper.
Require Import PV.Meta.TokAtom PV.Meta.TokAtom2 PV.Meta.TokTerm.
Local Open Scope string_scope.
Local Open Scope list_scope.

Lemma push_not_lit g1 l : gap g1 -> prefixb (nm "PUSH_LITERAL") (nm "PUSH" ++ g1 ++ 40%N :: l) = false.
Proof.
  intros G1. change (nm "PUSH_LITERAL") with ([80; 85; 83; 72]%N ++ 95%N :: [76; 73; 84; 69; 82; 65; 76]%N).
  change (nm "PUSH") with [80; 85; 83; 72]%N. cbn [app prefixb N.eqb Pos.eqb andb].
  destruct (gap_head g1 G1) as [->|(x & l' & -> & Hx)]; [reflexivity|]. cbn [app].
  destruct (gapb_cases x Hx) as [->|[->|[->|[->| ->]]]]; reflexivity.
Qed.

(* the bytes an operand of the highest level can begin with *)
Definition atomb (b : byte) : bool := ident_start b || existsb (N.eqb b) [34; 94; 39; 40]%N.

Section Main.
Variable w : list byte.
Variable sg : list str.
Variable extras : bool.
Notation G := meta_grammar.
Notation at_ := (at_ w).
Notation ok := (ok w sg).
Notation skp := (skp w sg).
Notation SM := (SM w).
Notation PL := (PL w sg).
Notation Claims := (Claims w sg).
Notation reads := (reads w sg).

(* opener  |? c  closer,  the closer being ) or } *)
Lemma enclosed OPX s (c : byte) r p q1 Fo c' w' (bar : bool) gb g1 g2 l :
  rule_named (nm s) = Some (mk s RNormal (EStr [c])) ->
  mrule_of_nat (rule_id G (nm s)) = r -> cstopb c = true ->
  Claims c' w' -> ok OPX p q1 Fo -> gap g1 -> gap gb -> gap g2 -> at_ q1 (g1 ++ opt_bar bar gb ++ w' ++ g2 ++ c :: l) ->
  exists Fx cp, ok (ESeq (ESeq OPX EXPR) (Rf s)) p (q1 + List.length g1 + List.length (opt_bar bar gb) + List.length w' + List.length g2 + 1) (Fo ++ Fx ++ [cp]) /\
    SM [SK MExpression LNone (sk_bar bar ++ fe c')] Fx /\ SM [sk r] [cp].
Proof.
  intros Q Hr Hc C O G1 Gb G2 H. pose proof (at_app w _ g1 _ H) as H1.
  assert (S : skp q1 (q1 + List.length g1)).
  { apply (skp_gap w sg q1 g1 _ H G1). destruct bar; [now apply gap_end_b|]. apply (HD_gap_end c' w'). apply C. }
  destruct (expr_ok w sg c' w' bar gb g2 c l _ C Gb G2 Hc H1) as (q & Fx & X & La & Mx).
  set (e := q1 + List.length g1 + List.length (opt_bar bar gb) + List.length w' + List.length g2) in *.
  assert (He : at_ e (c :: l)) by (unfold e; apply at_app; apply at_app; apply at_app; exact H1).
  destruct (tok_at w sg s c r e l Q Hr He) as [Oc Mc].
  exists Fx, (tnode s e (e + 1)). split; [|split; [exact Mx|exact Mc]].
  rewrite app_assoc. exact (seq_ok w sg _ (Rf s) p q _ e (e + 1) _ (seq_ok w sg OPX EXPR p q1 Fo _ q Fx O S X) (lands_sk w sg _ _ La) Oc).
Qed.

(* ( |? c )  after whatever opened the parenthesis *)
Lemma group OPX p q1 Fo c' w' (bar : bool) gb g1 g2 l : Claims c' w' -> ok OPX p q1 Fo -> gap g1 -> gap gb -> gap g2 ->
  at_ q1 (g1 ++ opt_bar bar gb ++ w' ++ g2 ++ 41%N :: l) ->
  exists Fx cp, ok (ESeq (ESeq OPX EXPR) CP) p (q1 + List.length g1 + List.length (opt_bar bar gb) + List.length w' + List.length g2 + 1) (Fo ++ Fx ++ [cp]) /\
    SM [SK MExpression LNone (sk_bar bar ++ fe c')] Fx /\ SM [sk MClosingParen] [cp].
Proof. exact (enclosed OPX "closing_paren" 41%N _ p q1 Fo c' w' bar gb g1 g2 l eq_refl eq_refl eq_refl). Qed.

Lemma enclosed_reads OPX s (c : byte) r l0 ko c' w' (bar : bool) gb g1 g2 l :
  rule_named (nm s) = Some (mk s RNormal (EStr [c])) ->
  mrule_of_nat (rule_id G (nm s)) = r -> cstopb c = true ->
  Claims c' w' -> reads OPX l0 (g1 ++ opt_bar bar gb ++ w' ++ g2 ++ c :: l) ko -> gap g1 -> gap gb -> gap g2 ->
  reads (ESeq (ESeq OPX EXPR) (Rf s)) l0 l (ko ++ [SK MExpression LNone (sk_bar bar ++ fe c'); sk r]).
Proof.
  intros Q Hr Hc C Ro G1 Gb G2 p H. destruct (Ro p H) as (t & Fo & -> & O & Mo).
  destruct (enclosed OPX s c r p _ Fo c' w' bar gb g1 g2 l Q Hr Hc C O G1 Gb G2 (at_app w p t _ H)) as (Fx & cp & Y & Mx & Mc).
  exists (t ++ g1 ++ opt_bar bar gb ++ w' ++ g2 ++ [c]), (Fo ++ Fx ++ [cp]). split; [now rewrite <- !app_assoc|]. split.
  - apply (ok_eq w sg _ p _ _ _ Y). len.
  - apply SM_app; [exact Mo|]. exact (SM_app w [_] [_] Fx [cp] Mx Mc).
Qed.

Lemma PL_paren c' w' (bar : bool) gb g1 g2 : Claims c' w' -> gap g1 -> gap g2 -> gap gb ->
  PL (CParen bar c') ([40%N] ++ g1 ++ opt_bar bar gb ++ w' ++ g2 ++ [41%N]).
Proof.
  intros C G1 G2 Gb. apply PL_of_atom. intros g b r' Hg Hb. normg.
  apply (reads_silent w sg "node" _ _ _ _ eq_refl). apply (reads_alt0 w sg _ [Rf "terminal"]).
  exact (enclosed_reads OP "closing_paren" 41%N _ _ _ c' w' bar gb g1 g2 _ eq_refl eq_refl eq_refl C
           (tok_reads w sg "opening_paren" 40%N _ _ eq_refl eq_refl) G1 Gb G2).
Qed.

Lemma PL_push c' w' (bar : bool) gb g1 g2 g3 : Claims c' w' -> gap g1 -> gap g2 -> gap g3 -> gap gb ->
  PL (CPush bar c') ([80; 85; 83; 72]%N ++ g1 ++ [40%N] ++ g2 ++ opt_bar bar gb ++ w' ++ g3 ++ [41%N]).
Proof.
  intros C G1 G2 G3 Gb. apply PL_of_atom. intros g b r' Hg Hb. rewrite <- !app_assoc.
  change [80; 85; 83; 72]%N with (nm "PUSH"). cbn [app]. apply node_of_terminal; [cbn; discriminate|].
  apply (terminal_alt w sg [] (Rf "_push") _ _ _ _ eq_refl); [apply pushlit_no; now apply push_not_lit|].
  apply (reads_normal w sg "_push" _ _ _ _ _ eq_refl eq_refl).
  exact (enclosed_reads (ESeq (Lt "PUSH") OP) "closing_paren" 41%N _ _ _ c' w' bar gb g2 g3 _ eq_refl eq_refl eq_refl C
           (reads_seq (reads_str w sg (nm "PUSH") _) (gapped_b g1 40%N _ G1 eq_refl) (tok_reads w sg "opening_paren" 40%N _ _ eq_refl eq_refl))
           G2 Gb G3).
Qed.

Lemma HD_app c c' w' l : HD c' w' -> lvl c <= lvl c' -> HD c (w' ++ l).
Proof.
  intros (b0 & l0 & -> & Hh & H3 & H4) L. exists b0, (l0 ++ l). split; [reflexivity|]. split; [exact Hh|].
  split; intros; [apply H3|apply H4]; lia.
Qed.
Lemma HD_byte c (b0 : byte) l : headb b0 = true -> (3 <= lvl c -> b0 <> 35%N) -> (4 <= lvl c -> b0 <> 38%N /\ b0 <> 33%N) -> HD c (b0 :: l).
Proof. intros A B C. exists b0, l. auto. Qed.

Lemma atom_claims c wc : hd_in atomb wc -> 4 <= lvl c -> PL c wc -> Claims c wc.
Proof.
  intros A L P. apply claims4; [|exact L|exact P]. destruct wc as [|b0 l]; [destruct A|]. cbn [hd_in] in A.
  assert (X : headb b0 = true /\ b0 <> 35%N /\ b0 <> 38%N /\ b0 <> 33%N).
  { apply orb_prop in A. destruct A as [A|A].
    - unfold headb. rewrite A. repeat split; intros ->; discriminate A.
    - apply existsb_eqb_In in A. cbn [In] in A. repeat (destruct A as [<-|A]; [repeat split; discriminate|]). destruct A. }
  apply HD_byte; tauto.
Qed.

Lemma post_case c' w' c g1 k t : Claims c' w' -> 4 <= lvl c' -> lvl c = 4 -> gap g1 -> post_text k t -> tc c = tc c' ++ [k] ->
  Claims c (w' ++ g1 ++ t).
Proof.
  intros (Hd & _ & _ & _ & P) L4 Lc G1 T E. apply claims4; [apply (HD_app c c'); [exact Hd|lia]|lia|].
  exact (PL_extend w sg c' w' c g1 k t (P L4) G1 T E).
Qed.

(* the operand of a one-operand form: from  wp / writable  of the form to those of the operand and its level *)
Ltac operand W Wr L :=
  cbn [wp writable] in W, Wr; apply andb_prop in W; destruct W as [W L]; apply Nat.leb_le in L;
  repeat (apply andb_prop in Wr; destruct Wr as [Wr ?]).

Theorem claims_all : forall c wc, prints c wc -> wp c = true -> writable extras c = true -> Claims c wc.
Proof.
  induction 1 as [cs ew S|cs ew g S Hg|lo hi e1 e2 g1 g2 S1 S2 G1 G2|n|i j wi wj g1 g2 g3 Si Sj G1 G2 G3
                 |c w0 g P IH Hg|c w0 g P IH Hg|a b wa wb g1 g2 Pa IHa Pb IHb G1 G2|a b wa wb g1 g2 Pa IHa Pb IHb G1 G2
                 |c w0 g P IH Hg|c w0 g P IH Hg|c w0 g P IH Hg
                 |c w0 n nw g1 g2 g3 P IH Sn G1 G2 G3|c w0 n nw g1 g2 g3 g4 P IH Sn G1 G2 G3 G4|c w0 n nw g1 g2 g3 g4 P IH Sn G1 G2 G3 G4
                 |c w0 m n mw nw g1 g2 g3 g4 g5 P IH Sm Sn G1 G2 G3 G4 G5
                 |bar c w0 g1 g2 g3 gb P IH G1 G2 G3 Gb|cs ew g1 g2 g3 S G1 G2 G3|c w0 t g1 g2 P IH G1 G2|bar c w0 g1 g2 gb P IH G1 G2 Gb];
    intros W Wr.
  - (* string *)
    apply atom_claims; [reflexivity|cbn; lia|]. apply PL_of_atom. intros g b r' Hg Hb. exact (atom_str w sg cs ew _ S).
  - (* ^string *)
    apply atom_claims; [reflexivity|cbn; lia|]. apply PL_of_atom. intros g0 b r' Hg0 Hb. normg. exact (atom_insens w sg cs ew g _ S Hg).
  - (* range *)
    apply atom_claims; [reflexivity|cbn; lia|]. apply PL_of_atom. intros g b r' Hg Hb. normg. exact (atom_range w sg lo hi e1 e2 g1 g2 _ S1 S2 G1 G2).
  - (* identifier *)
    cbn [writable] in Wr. pose proof Wr as OK. unfold ident_ok in Wr. apply andb_prop in Wr. destruct Wr as [TO _].
    destruct n as [|b0 n0]; [discriminate|]. cbn [tag_ok] in TO. apply andb_prop in TO. destruct TO as [Sb _].
    apply atom_claims; [cbn; unfold atomb; now rewrite Sb|cbn; lia|]. apply PL_of_atom. intros g b r' Hg Hb.
    exact (atom_ident w sg (b0 :: n0) g b r' OK Hg (stop_hard b Hb) (test_ne stopb b 91%N Hb eq_refl)).
  - (* PEEK[..] *)
    apply atom_claims; [reflexivity|cbn; lia|]. apply PL_of_atom. intros g b r' Hg Hb. normg. exact (atom_peek w sg i j wi wj g1 g2 g3 _ Si Sj G1 G2 G3).
  - (* & *)
    operand W Wr L. destruct (IH W Wr) as (Hd & _ & _ & R & _).
    apply claims3; [apply HD_byte; [reflexivity|discriminate|cbn; lia]|reflexivity|]. exact (RL_pre w sg c w0 (CPos c) false g (R L) Hd Hg eq_refl).
  - (* ! *)
    operand W Wr L. destruct (IH W Wr) as (Hd & _ & _ & R & _).
    apply claims3; [apply HD_byte; [reflexivity|discriminate|cbn; lia]|reflexivity|]. exact (RL_pre w sg c w0 (CNeg c) true g (R L) Hd Hg eq_refl).
  - (* ~ *)
    cbn [wp writable] in W, Wr. apply andb_prop in W. destruct W as [W Lb]. apply andb_prop in W. destruct W as [W La]. apply andb_prop in W. destruct W as [Wa Wb].
    apply andb_prop in Wr. destruct Wr as [Wra Wrb]. apply Nat.leb_le in La. destruct (IHa Wa Wra) as (Hda & Ea & _). destruct (IHb Wb Wrb) as (Hdb & Eb & _).
    apply claims1; [apply (HD_app _ a); [exact Hda|exact La]|cbn; lia|].
    exact (EL_infix w sg a wa b wb (CSeq a b) false g1 g2 Ea Eb Hdb G1 G2 eq_refl).
  - (* | *)
    cbn [wp writable] in W, Wr. apply andb_prop in W. destruct W as [W Lb]. apply andb_prop in W. destruct W as [Wa Wb].
    apply andb_prop in Wr. destruct Wr as [Wra Wrb]. destruct (IHa Wa Wra) as (Hda & Ea & _). destruct (IHb Wb Wrb) as (Hdb & Eb & _).
    apply claims1; [apply (HD_app _ a); [exact Hda|cbn; lia]|cbn; lia|].
    exact (EL_infix w sg a wa b wb (CChoice a b) true g1 g2 Ea Eb Hdb G1 G2 eq_refl).
  - (* ? *) operand W Wr L. exact (post_case c w0 (COpt c) g _ [63%N] (IH W Wr) L eq_refl Hg pt_opt eq_refl).
  - (* * *) operand W Wr L. exact (post_case c w0 (CRep c) g _ [42%N] (IH W Wr) L eq_refl Hg pt_rep eq_refl).
  - (* + *) operand W Wr L. exact (post_case c w0 (CRepOnce c) g _ [43%N] (IH W Wr) L eq_refl Hg pt_once eq_refl).
  - (* {n} *) operand W Wr L. exact (post_case c w0 (CRepExact c n) g1 _ _ (IH W Wr) L eq_refl G1 (pt_exact n nw g2 g3 Sn G2 G3) eq_refl).
  - (* {n,} *) operand W Wr L. exact (post_case c w0 (CRepMin c n) g1 _ _ (IH W Wr) L eq_refl G1 (pt_min n nw g2 g3 g4 Sn G2 G3 G4) eq_refl).
  - (* {,n} *) operand W Wr L. exact (post_case c w0 (CRepMax c n) g1 _ _ (IH W Wr) L eq_refl G1 (pt_max n nw g2 g3 g4 Sn G2 G3 G4) eq_refl).
  - (* {m,n} *)
    operand W Wr L. exact (post_case c w0 (CRepMinMax c m n) g1 _ _ (IH W Wr) L eq_refl G1 (pt_min_max m n mw nw g2 g3 g4 g5 Sm Sn G2 G3 G4 G5) eq_refl).
  - (* PUSH( ) *)
    apply atom_claims; [reflexivity|cbn; lia|]. exact (PL_push c w0 bar gb g1 g2 g3 (IH W Wr) G1 G2 G3 Gb).
  - (* PUSH_LITERAL( ) *)
    apply atom_claims; [reflexivity|cbn; lia|]. apply PL_of_atom. intros g b r' Hg Hb. rewrite <- !app_assoc.
    change [80; 85; 83; 72; 95; 76; 73; 84; 69; 82; 65; 76]%N with (nm "PUSH_LITERAL"). cbn [app]. exact (atom_pushlit w sg cs ew g1 g2 g3 _ S G1 G2 G3).
  - (* #t = *)
    cbn [wp writable] in W, Wr. apply andb_prop in W. destruct W as [W L]. apply Nat.leb_le in L.
    apply andb_prop in Wr. destruct Wr as [Wr TO]. apply andb_prop in Wr. destruct Wr as [_ Wr]. destruct (IH W Wr) as (Hd & _ & _ & R & _).
    apply claims2; [apply HD_byte; [reflexivity|cbn; lia|cbn; lia]|reflexivity|]. exact (TL_tag w sg c w0 (CTag c t) t g1 g2 (R L) Hd TO G1 G2 eq_refl).
  - (* ( ) *)
    apply atom_claims; [reflexivity|cbn; lia|]. exact (PL_paren c w0 bar gb g1 g2 (IH W Wr) G1 G2 Gb).
Qed.
End Main.
