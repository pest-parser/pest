(* From a per-rule law to a grammar-level equivalence.  A pass maps every rule to a rule with the same name and
   type; if each new body is equivalent to the old one (at the atomicities the rule type allows, in both the old
   and the new grammar), then the old and the new grammar have the same derivations.                        *)
From Coq Require Import List Arith NArith ZArith Bool String Lia.
Require Import PV.Peg.AstFacts.
Import ListNotations.
Require Import PV.Comb.PState PV.Comb.Bytes PV.Iter.Queue PV.Peg.Ast PV.Peg.Spec PV.Opt.Sem PV.Opt.SemProofs PV.Opt.SemCong
  PV.Opt.SemTransfer PV.Opt.MapExpr PV.Opt.MapExprProofs.

(* the atomicities under which the body of a rule of type ty is evaluated *)
Definition body_atom (ty : rtype) (a : atom) : Prop :=
  match ty with RAtomic => a = Atomic | RCompound => a = CompoundAtomic | _ => True end.
Lemma rule_mode_body_atom sp ty a emit : body_atom ty (snd (rule_mode sp ty a emit)).
Proof. destruct sp, ty; cbn; auto. Qed.

Lemma map_rules_F2 (F : rule -> option rule) : forall G G', map_rules F G = Some G' -> Forall2 (fun r r' => F r = Some r') G G'.
Proof.
  induction G as [|r G IH]; intros G' H; cbn [map_rules] in H.
  - injection H as <-. constructor.
  - destruct (F r) as [r'|] eqn:E; [|discriminate]. cbn [obind] in H. destruct (map_rules F G) as [G''|]; [|discriminate].
    cbn [obind] in H. injection H as <-. constructor; auto.
Qed.

Lemma map_rules_In (P : rule -> Prop) (F : rule -> option rule) G G' :
  (forall r r', F r = Some r' -> P r -> P r') -> (forall r, In r G -> P r) -> map_rules F G = Some G' -> forall r, In r G' -> P r.
Proof.
  intros HF V H. apply map_rules_F2 in H. induction H as [|r r' G G' Hr HG IH]; intros x Hx; [destruct Hx|].
  destruct Hx as [<-|Hx]; [eapply HF; eauto; apply V; now left|apply IH; auto; intros y Hy; apply V; now right].
Qed.

Section Sig.
Variable F : rule -> option rule.
Hypothesis Fsig : forall r r', F r = Some r' -> rname r' = rname r /\ rty r' = rty r.

Lemma F2_names G G' : Forall2 (fun r r' => F r = Some r') G G' -> map rname G' = map rname G.
Proof. induction 1; cbn; [reflexivity|]. destruct (Fsig _ _ H) as [-> _]. now rewrite IHForall2. Qed.

Lemma F2_find G G' : Forall2 (fun r r' => F r = Some r') G G' -> forall n,
  match find_rule G n, find_rule G' n with
  | Some r, Some r' => F r = Some r' /\ In r G
  | None, None => True
  | _, _ => False
  end.
Proof.
  induction 1 as [|r r' G G' Hr HG IH]; intros n; cbn [find_rule]; [exact I|].
  specialize (IH n). destruct (find_rule G n) as [x|], (find_rule G' n) as [x'|]; try contradiction.
  - destruct IH as [A B]. split; [exact A|now right].
  - destruct (Fsig _ _ Hr) as [-> _]. destruct (str_eqb (rname r) n); [split; [exact Hr|now left]|exact I].
Qed.

Lemma F2_length {A B} (R : A -> B -> Prop) l l' : Forall2 R l l' -> List.length l = List.length l'.
Proof. induction 1; cbn; auto. Qed.
Lemma F2_rule_id G G' : Forall2 (fun r r' => F r = Some r') G G' -> forall n, rule_id G' n = rule_id G n.
Proof. intros H n. unfold rule_id, rule_names. rewrite (F2_names _ _ H). now rewrite (F2_length _ _ _ H). Qed.
End Sig.


Lemma with_expr_sig r o r' : with_expr r o = Some r' -> rname r' = rname r /\ rty r' = rty r.
Proof. unfold with_expr. destruct o; [|discriminate]. intros [= <-]. auto. Qed.
Lemma with_expr_inv r o r' : with_expr r o = Some r' -> o = Some (rexpr r').
Proof. unfold with_expr. destruct o; [|discriminate]. intros [= <-]. reflexivity. Qed.

Section Pass.
Variables G G' : grammar.
Variable extras : bool.
Variable uprop : name -> option (N -> bool).
Variable w : list byte.
Variable Q : str -> Prop.
Variable Inv : state_inv.
Variable h : rule -> option expr.
Hypothesis HF : map_rules (fun r => with_expr r (h r)) G = Some G'.
Hypothesis HP : preserved G extras uprop w Q Inv.
Hypothesis HP' : preserved G' extras uprop w Q Inv.
Hypothesis HQ : forall r, In r G -> Forall Q (estrs (rexpr r)).
Hypothesis HQ' : forall r, In r G' -> Forall Q (estrs (rexpr r)).
Hypothesis LawG : forall r e' a, In r G -> h r = Some e' -> body_atom (rty r) a -> equiv G extras uprop w Inv a (rexpr r) e'.
Hypothesis LawG' : forall r e' a, In r G -> h r = Some e' -> body_atom (rty r) a -> equiv G' extras uprop w Inv a (rexpr r) e'.

(* `transfer` in both directions: the rule found under a name in G' is the image of the one found in G *)
Theorem pass_iff a emit j p sg res : jvalid Q j -> Inv p sg ->
  (bs G' extras uprop w a emit j p sg res <-> bs G extras uprop w a emit j p sg res).
Proof.
  set (F := fun r => with_expr r (h r)) in HF.
  assert (Fsig : forall r r', F r = Some r' -> rname r' = rname r /\ rty r' = rty r) by (intros r r'; apply with_expr_sig).
  pose proof (map_rules_F2 _ _ _ HF) as F2.
  assert (X : forall n, match find_rule G n, find_rule G' n with
                        | Some r, Some r' => rty r' = rty r /\ h r = Some (rexpr r') /\ In r G
                        | None, None => True
                        | _, _ => False
                        end).
  { intros n. pose proof (F2_find F Fsig _ _ F2 n) as X. destruct (find_rule G n), (find_rule G' n); auto.
    destruct X as [X Y]. split; [apply (Fsig _ _ X)|]. split; [now apply with_expr_inv in X|exact Y]. }
  intros V I. split; intros B.
  - refine (transfer G' G extras uprop w Q Inv _ _ HP' _ _ a emit j p sg res B V I).
    + intros n. specialize (X n). destruct (find_rule G n), (find_rule G' n); tauto.
    + intros n. now apply (F2_rule_id F Fsig).
    + intros n r Fr. apply HQ'. eapply proj1, AstFacts.find_rule_In; eauto.
    + intros n r' r a0 emit0 F' F0. specialize (X n). rewrite F0, F' in X. destruct X as (T & E & Hin).
      rewrite T. apply (LawG r); auto. apply rule_mode_body_atom.
  - refine (transfer G G' extras uprop w Q Inv _ _ HP _ _ a emit j p sg res B V I).
    + intros n. specialize (X n). destruct (find_rule G n), (find_rule G' n); intuition.
    + intros n. symmetry. now apply (F2_rule_id F Fsig).
    + intros n r Fr. apply HQ. eapply proj1, AstFacts.find_rule_In; eauto.
    + intros n r r' a0 emit0 F0 F'. specialize (X n). rewrite F0, F' in X. destruct X as (T & E & Hin).
      apply (LawG' r); auto. apply rule_mode_body_atom.
Qed.

End Pass.

Lemma preserved_True G extras uprop w Q : preserved G extras uprop w Q (fun _ _ => True).
Proof. intros a emit j p sg p' sg' f _ _ _. exact I. Qed.
Lemma jvalid_True j : jvalid (fun _ => True) j.
Proof. destruct j; cbn; auto using Forall_True. Qed.

Corollary pass_iff_plain (h : rule -> option expr) G G' extras uprop w :
  map_rules (fun r => with_expr r (h r)) G = Some G' ->
  (forall Gx r e' a, h r = Some e' -> body_atom (rty r) a -> equiv Gx extras uprop w (fun _ _ => True) a (rexpr r) e') ->
  forall a emit j p sg res, bs G' extras uprop w a emit j p sg res <-> bs G extras uprop w a emit j p sg res.
Proof.
  intros H L a emit j p sg res.
  apply (pass_iff G G' extras uprop w (fun _ => True) (fun _ _ => True) h H); auto using preserved_True, Forall_True, jvalid_True.
Qed.
