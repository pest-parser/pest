(* Reasoning principles over the big-step semantics (Sem.v):
   - `refines`: e2 has every definite behaviour of e1 (at one atomicity, from states satisfying an invariant);
   - refinement is a congruence for every constructor with sub-expressions.                            *)
From Coq Require Import List Arith NArith ZArith Bool String Lia.
Import ListNotations.
Require Import PV.Comb.PState PV.Comb.Bytes PV.Iter.Queue PV.Peg.Ast PV.Peg.Spec PV.Peg.SpecFacts PV.Opt.Sem PV.Opt.SemProofs.

Ltac inv H := inversion H; subst; clear H; try discriminate.

(* all string literals of an expression; side conditions of laws are stated as Forall Q (estrs e) *)
Fixpoint estrs (e : expr) : list str :=
  match e with
  | EStr s | EInsens s | EPushLiteral s => [s]
  | ESkip ss => ss
  | EPosPred x | ENegPred x | EOpt x | ERep x | ERepOnce x | ERepExact x _ | ERepMin x _ | ERepMax x _
  | ERepMinMax x _ _ | EPush x | ENodeTag x _ => estrs x
  | ESeq a b | EChoice a b => estrs a ++ estrs b
  | _ => []
  end.
Definition jvalid (Q : str -> Prop) (j : judg) : Prop :=
  match j with JE e | JRep e _ => Forall Q (estrs e) | _ => True end.

Definition state_inv := nat -> list str -> Prop.
(* a state invariant kept by every derivation of a judgement whose literals satisfy Q *)
Definition preserved (G : grammar) (extras : bool) uprop (w : list byte) (Q : str -> Prop) (Inv : state_inv) : Prop :=
  forall a emit j p sg p' sg' f, jvalid Q j -> bs G extras uprop w a emit j p sg (SMatch p' sg' f) -> Inv p sg -> Inv p' sg'.
Definition refines (G : grammar) (extras : bool) uprop (w : list byte) (Inv : state_inv) (a : atom) (e1 e2 : expr) : Prop :=
  forall emit p sg res, Inv p sg -> bs G extras uprop w a emit (JE e1) p sg res -> bs G extras uprop w a emit (JE e2) p sg res.
Definition equiv G extras uprop w Inv a e1 e2 : Prop := refines G extras uprop w Inv a e1 e2 /\ refines G extras uprop w Inv a e2 e1.

Section Cong.
Variable G : grammar.
Variable extras : bool.
Variable uprop : name -> option (N -> bool).
Variable w : list byte.
Variable Q : str -> Prop.
Variable Inv : state_inv.
Hypothesis HP : preserved G extras uprop w Q Inv.
Notation SV := (fun e => Forall Q (estrs e)).

Notation bs := (bs G extras uprop w).
Notation refines := (refines G extras uprop w Inv).
Notation equiv := (equiv G extras uprop w Inv).

(* the invariant at a state reached by derivations we hold *)
Ltac pres := repeat match goal with
  | |- Inv _ _ => assumption
  | H : Sem.bs _ _ _ _ _ _ _ _ _ (SMatch ?p ?sg _) |- Inv ?p ?sg => refine (HP _ _ _ _ _ _ _ _ _ H _); [cbn [jvalid]; try exact I; auto|]
  end.

Lemma refines_refl a e : refines a e e.
Proof. intros emit p sg res _ H. exact H. Qed.
Lemma refines_trans a e1 e2 e3 : refines a e1 e2 -> refines a e2 e3 -> refines a e1 e3.
Proof. intros H1 H2 emit p sg res I H. apply H2; auto. Qed.
Lemma equiv_refl a e : equiv a e e.
Proof. split; apply refines_refl. Qed.
Lemma equiv_sym a e1 e2 : equiv a e1 e2 -> equiv a e2 e1.
Proof. intros [H1 H2]. split; assumption. Qed.
Lemma equiv_trans a e1 e2 e3 : equiv a e1 e2 -> equiv a e2 e3 -> equiv a e1 e3.
Proof. intros [A1 A2] [B1 B2]. split; eapply refines_trans; eauto. Qed.

Lemma ref_seq a l l' r r' : SV l -> refines a l l' -> refines a r r' -> refines a (ESeq l r) (ESeq l' r').
Proof.
  intros Vl Hl Hr emit p sg res I H. inv H.
  - apply bs_seq_l. now apply Hl.
  - eapply bs_seq; [apply Hl; eauto|eauto|]. apply Hr; auto. pres.
Qed.

Lemma ref_cho a l l' r r' : refines a l l' -> refines a r r' -> refines a (EChoice l r) (EChoice l' r').
Proof.
  intros Hl Hr emit p sg res I H. inv H.
  - apply bs_cho_l. now apply Hl.
  - apply bs_cho_r; [now apply Hl|now apply Hr].
Qed.

Lemma ref_opt a x x' : refines a x x' -> refines a (EOpt x) (EOpt x').
Proof. intros Hx emit p sg res I H. inv H. apply bs_opt. now apply Hx. Qed.
Lemma ref_pos a x x' : refines a x x' -> refines a (EPosPred x) (EPosPred x').
Proof. intros Hx emit p sg res I H. inv H. apply bs_pos. now apply Hx. Qed.
Lemma ref_neg a x x' : refines a x x' -> refines a (ENegPred x) (ENegPred x').
Proof. intros Hx emit p sg res I H. inv H. apply bs_neg. now apply Hx. Qed.
Lemma ref_push a x x' : refines a x x' -> refines a (EPush x) (EPush x').
Proof. intros Hx emit p sg res I H. inv H. apply bs_push. now apply Hx. Qed.
Lemma ref_tag a x x' t : refines a x x' -> refines a (ENodeTag x t) (ENodeTag x' t).
Proof. intros Hx emit p sg res I H. inv H. apply bs_tag. now apply Hx. Qed.

Lemma ref_loop a x x' : SV x -> refines a x x' -> forall emit j p sg res, bs a emit j p sg res -> forall acc, j = JRep x acc -> Inv p sg ->
  bs a emit (JRep x' acc) p sg res.
Proof.
  intros Vx Hx emit j p sg res H. induction H; intros acc0 Ej I; try discriminate; injection Ej as -> ->.
  - eapply bs_rep_stop; [eassumption|]. apply Hx; [pres|assumption].
  - eapply bs_rep_step; [eassumption| |].
    + apply Hx; [pres|eassumption].
    + apply IHbs3; auto. pres.
Qed.

Lemma ref_rep a x x' : SV x -> refines a x x' -> refines a (ERep x) (ERep x').
Proof.
  intros Vx Hx emit p sg res I H. inv H.
  - apply bs_rep_0. now apply Hx.
  - eapply bs_rep; [apply Hx; eauto|]. eapply (ref_loop a x x' Vx Hx); eauto; pres.
Qed.

Lemma ref_rep1 a x x' : SV x -> refines a x x' -> refines a (ERepOnce x) (ERepOnce x').
Proof.
  intros Vx Hx emit p sg res I H. inv H.
  - apply bs_rep1x_0; auto.
  - eapply bs_rep1x; [auto|apply Hx; eauto|]. eapply (ref_loop a x x' Vx Hx); eauto; pres.
  - apply bs_rep1d; [auto|].
    match goal with H : Sem.bs _ _ _ _ _ _ (JE (ESeq x (ERep x))) _ _ _ |- _ => revert H end. apply ref_seq; auto. now apply ref_rep.
Qed.

(* bounded repetitions: through their unrolling *)
Lemma seq_of_cons_some e r : exists u, seq_of (e :: r) = Some u.
Proof. destruct r as [|e2 r]; cbn [seq_of]; [eauto|]. destruct (match r with [] => _ | _ => _ end); eauto. Qed.

Lemma ref_seq_of a : forall l l', Forall2 (refines a) l l' -> Forall (fun e => Forall Q (estrs e)) l ->
  (forall u, seq_of l = Some u -> exists u', seq_of l' = Some u' /\ refines a u u') /\ (seq_of l = None -> seq_of l' = None).
Proof.
  induction 1 as [|e e' r r' He Hr IH]; intros V.
  - split; [discriminate|reflexivity].
  - inversion V as [|? ? Ve Vr]; subst. destruct (IH Vr) as [IH1 IH2]. split.
    + intros u. destruct Hr as [|e2 e2' r2 r2' H2 Hr2].
      * cbn [seq_of]. intros [= <-]. eauto.
      * change (seq_of (e :: e2 :: r2)) with (match seq_of (e2 :: r2) with Some x => Some (ESeq e x) | None => Some e end).
        change (seq_of (e' :: e2' :: r2')) with (match seq_of (e2' :: r2') with Some x => Some (ESeq e' x) | None => Some e' end).
        destruct (seq_of_cons_some e2 r2) as [v Ev]. rewrite Ev. intros [= <-].
        destruct (IH1 _ Ev) as [v' [Ev' Rv]]. rewrite Ev'. eexists; split; [reflexivity|]. now apply ref_seq.
    + destruct (seq_of_cons_some e r) as [v Ev]. rewrite Ev. discriminate.
Qed.

Lemma ref_unroll a e e' : is_bounded e = true -> is_bounded e' = true ->
  (forall u, unroll_node extras e = Some u -> exists u', unroll_node extras e' = Some u' /\ refines a u u') ->
  (unroll_node extras e = None -> unroll_node extras e' = None) -> refines a e e'.
Proof.
  intros B B' HS HN emit p sg res I H. inversion H; subst; clear H;
    try (cbn in B; discriminate B); try (match goal with L : leaf _ _ = true |- _ => destruct e; discriminate end).
  - match goal with U : unroll_node _ _ = Some _ |- _ => destruct (HS _ U) as [u' [E' R]] end. eapply bs_bounded; eauto.
  - apply bs_bounded_none; auto.
Qed.

Lemma Forall2_repeat {A} (R : A -> A -> Prop) x y n : R x y -> Forall2 R (repeat x n) (repeat y n).
Proof. intros H. induction n; cbn; constructor; auto. Qed.
Lemma Forall_repeat {A} (P : A -> Prop) x n : P x -> Forall P (repeat x n).
Proof. intros H. induction n; cbn; constructor; auto. Qed.

Lemma ref_bounded a e e' l l' : is_bounded e = true -> is_bounded e' = true ->
  unroll_node extras e = seq_of l -> unroll_node extras e' = seq_of l' ->
  Forall2 (refines a) l l' -> Forall SV l -> refines a e e'.
Proof. intros B B' U U' F V. destruct (ref_seq_of a l l' F V). apply ref_unroll; auto; now rewrite U, U'. Qed.

Lemma ref_repexact a x x' n : SV x -> refines a x x' -> refines a (ERepExact x n) (ERepExact x' n).
Proof. intros Vx Hx. eapply ref_bounded; try reflexivity; [now apply Forall2_repeat|now apply Forall_repeat]. Qed.
Lemma ref_repmax a x x' n : SV x -> refines a x x' -> refines a (ERepMax x n) (ERepMax x' n).
Proof. intros Vx Hx. eapply ref_bounded; try reflexivity; [apply Forall2_repeat; now apply ref_opt|now apply Forall_repeat]. Qed.
Lemma ref_repmin a x x' n : SV x -> refines a x x' -> refines a (ERepMin x n) (ERepMin x' n).
Proof.
  intros Vx Hx. eapply ref_bounded; try reflexivity.
  - apply Forall2_app; [now apply Forall2_repeat|]. constructor; [now apply ref_rep|constructor].
  - apply Forall_app. split; [now apply Forall_repeat|]. constructor; [exact Vx|constructor].
Qed.
Lemma ref_repminmax a x x' m n : SV x -> refines a x x' -> refines a (ERepMinMax x m n) (ERepMinMax x' m n).
Proof.
  intros Vx Hx. eapply ref_bounded; try reflexivity.
  - apply Forall2_app; apply Forall2_repeat; auto. now apply ref_opt.
  - apply Forall_app. split; now apply Forall_repeat.
Qed.

End Cong.

(* cong: the congruence rules of `refines`, one for each constructor with a sub-expression *)
#[export] Hint Resolve ref_seq ref_cho ref_opt ref_pos ref_neg ref_push ref_tag ref_rep ref_rep1
  ref_repexact ref_repmin ref_repmax ref_repminmax : cong.
