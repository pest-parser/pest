(* concatenate preserves the documented meaning.  It is applied in Atomic rules only, where `~` skips nothing;
   "a" ~ "b" = "ab" is a fact about byte prefixes; ^"a" ~ ^"b" = ^"ab" additionally needs that the char boundary
   required after ^"a" is implied by the match of ^"ab": true because the literal b is valid UTF-8 (its first byte is
   not a continuation byte, and ASCII case folding never turns a continuation byte into another class).       *)
From Coq Require Import List Arith NArith ZArith Bool String Lia.
Import ListNotations.
Require Import PV.Comb.PState PV.Comb.Bytes PV.Comb.Utf8 PV.Comb.Utf8b PV.Iter.Queue PV.Peg.Ast PV.Peg.Spec PV.Opt.Sem PV.Opt.SemProofs PV.Opt.SemCong
  PV.Opt.SemTransfer PV.Opt.SemLaws PV.Opt.MapExpr PV.Opt.MapExprProofs PV.Opt.PassProofs PV.Opt.Concat.

Lemma prefixb_app x y : forall l, prefixb (x ++ y) l = prefixb x l && prefixb y (skipn (List.length x) l).
Proof.
  induction x as [|b x IH]; intros l; [reflexivity|]. destruct l as [|c l]; [reflexivity|].
  cbn [app prefixb List.length skipn]. rewrite IH. now rewrite andb_assoc.
Qed.
Lemma prefixb_ci_app x y : forall l, prefixb_ci (x ++ y) l = prefixb_ci x l && prefixb_ci y (skipn (List.length x) l).
Proof.
  induction x as [|b x IH]; intros l; [reflexivity|]. destruct l as [|c l]; [reflexivity|].
  cbn [app prefixb_ci List.length skipn]. rewrite IH. now rewrite andb_assoc.
Qed.

(* folding moves only A-Z, and moves them to a-z: no continuation byte on either side *)
Lemma is_cont_lower b : is_cont (ascii_lower b) = is_cont b.
Proof.
  unfold ascii_lower, is_cont. destruct ((65 <=? b)%N && (b <=? 90)%N) eqn:U; [|reflexivity].
  apply andb_true_iff in U. destruct U as [L H]. apply N.leb_le in L, H.
  replace (128 <=? b)%N with false by (symmetry; apply N.leb_gt; lia).
  replace (128 <=? b + 32)%N with false by (symmetry; apply N.leb_gt; lia). reflexivity.
Qed.
Lemma ascii_lower_cont b c : ascii_lower b = ascii_lower c -> is_cont b = is_cont c.
Proof. intros E. now rewrite <- (is_cont_lower b), E, is_cont_lower. Qed.

Lemma concat_fn_lits ty e : Forall valid_utf8 (estrs e) -> Forall valid_utf8 (estrs (concat_fn ty e)).
Proof.
  intros V. unfold concat_fn. destruct (rtype_eqb ty RAtomic); [|exact V].
  destruct e; try exact V. destruct e1; try exact V; destruct e2; try exact V;
    cbn [estrs app] in *; inversion V as [|? ? V1 V']; inversion V' as [|? ? V2 _]; subst; (constructor; [now apply valid_app|constructor]).
Qed.

Section ConcatSem.
Variable G : grammar.
Variable extras : bool.
Variable uprop : name -> option (N -> bool).
Variable w : list byte.
Variable Inv : state_inv.
Hypothesis HP : preserved G extras uprop w valid_utf8 Inv.
Notation equiv := (equiv G extras uprop w Inv).
Notation bs := (bs G extras uprop w).
Notation ev1 := (eval G extras uprop w 1).

Lemma leaf_inv a emit e p sg res : leaf G e = true -> bs a emit (JE e) p sg res -> res = ev1 a emit e p sg.
Proof.
  intros L H. inversion H; subst; clear H; try reflexivity; try (cbn in L; discriminate L).
  - cbn [leaf] in L. rewrite H1 in L. discriminate.
  - destruct e; discriminate.
  - destruct e; discriminate.
Qed.

Lemma lit_app x y p : lit w (x ++ y) p = match lit w x p with Some q => lit w y q | None => None end.
Proof.
  unfold lit. rewrite prefixb_app. destruct (prefixb x (skipn p w)); cbn [andb]; [|reflexivity].
  rewrite <- skipn_add. rewrite app_length. destruct (prefixb y _); [f_equal; lia|reflexivity].
Qed.

Definition ins_ok (s : str) (p : nat) : bool := boundaryb w (p + List.length s) && prefixb_ci s (skipn p w).

Lemma prefixb_ci_head y l b y' : y = b :: y' -> prefixb_ci y l = true -> exists c l', l = c :: l' /\ ascii_lower b = ascii_lower c.
Proof. intros -> H. destruct l as [|c l']; [discriminate|]. cbn in H. apply andb_true_iff in H. destruct H as [H _]. apply N.eqb_eq in H. eauto. Qed.

Lemma ins_app x y p : valid_utf8 y -> ins_ok (x ++ y) p = ins_ok x p && ins_ok y (p + List.length x).
Proof.
  intros Vy. unfold ins_ok. rewrite prefixb_ci_app, app_length, <- skipn_add, Nat.add_assoc.
  destruct (prefixb_ci x (skipn p w)) eqn:Cx; [|now rewrite !andb_false_r].
  destruct (prefixb_ci y (skipn (p + List.length x) w)) eqn:Cy; [|now rewrite !andb_false_r].
  rewrite !andb_true_r.
  destruct (boundaryb w (p + List.length x + List.length y)) eqn:B2; [|now rewrite andb_false_r].
  rewrite andb_true_r. symmetry.
  destruct y as [|b y'].
  - now rewrite Nat.add_0_r in B2.
  - destruct (prefixb_ci_head _ _ b y' eq_refl Cy) as (c & l' & El & Eb).
    assert (Nc : is_cont c = false).
    { rewrite <- (ascii_lower_cont _ _ Eb). apply (valid_first_not_cont (b :: y') Vy). discriminate. }
    unfold boundaryb. assert (Lt : p + List.length x < List.length w).
    { assert (List.length (skipn (p + List.length x) w) > 0) by (rewrite El; cbn; lia). rewrite skipn_length in H. lia. }
    apply Nat.compare_lt_iff in Lt. rewrite Lt, nth_skipn_hd, El. cbn [hd]. now rewrite Nc.
Qed.

Lemma ev1_str a emit s p sg : ev1 a emit (EStr s) p sg = match lit w s p with Some q => SMatch q sg [] | None => SFail end.
Proof. reflexivity. Qed.
Lemma ev1_ins a emit s p sg : ev1 a emit (EInsens s) p sg = if ins_ok s p then SMatch (p + List.length s) sg [] else SFail.
Proof. reflexivity. Qed.

Lemma seq_leaves a x y z : atom_eqb a NonAtomic = false -> leaf G x = true -> leaf G y = true -> leaf G z = true ->
  (forall emit p sg, ev1 a emit z p sg =
     match ev1 a emit x p sg with
     | SMatch p1 sg1 f1 => map_forest (fun f3 => f1 ++ [] ++ f3) (ev1 a emit y p1 sg1)
     | r => r end) ->
  equiv a (ESeq x y) z.
Proof.
  intros NA Lx Ly Lz E. split; intros emit p sg res _ H.
  - eapply bs_res; [now apply bs_leaf|]. rewrite E.
    destruct (seq_inv _ _ _ _ _ _ _ _ _ _ _ H) as [[H1 ->]|(p1 & sg1 & f1 & p2 & sg2 & f2 & res' & H1 & H2 & H3 & ->)].
    + apply leaf_inv in H1; auto. now rewrite <- H1.
    + apply leaf_inv in H1; auto. pose proof (skip_atomic_inv _ _ _ _ _ _ _ _ _ NA H2) as [= -> -> ->].
      apply leaf_inv in H3; auto. rewrite <- H1. now subst res'.
  - apply leaf_inv in H; auto. rewrite E in H. subst res.
    destruct (ev1 a emit x p sg) as [p1 sg1 f1| |] eqn:Ex.
    + eapply bs_seq; [eapply bs_res; [now apply bs_leaf|exact Ex]|now apply bs_skip_atomic|now apply bs_leaf].
    + apply bs_seq_l. eapply bs_res; [now apply bs_leaf|exact Ex].
    + exfalso. revert Ex. now apply leaf_definite.
Qed.

Lemma concat_str a x y : atom_eqb a NonAtomic = false -> equiv a (ESeq (EStr x) (EStr y)) (EStr (x ++ y)).
Proof.
  intros NA. apply seq_leaves; auto. intros emit p sg. rewrite !ev1_str, lit_app.
  destruct (lit w x p) as [q|]; [|reflexivity]. rewrite ev1_str. destruct (lit w y q); reflexivity.
Qed.

Lemma concat_ins a x y : atom_eqb a NonAtomic = false -> valid_utf8 y -> equiv a (ESeq (EInsens x) (EInsens y)) (EInsens (x ++ y)).
Proof.
  intros NA Vy. apply seq_leaves; auto. intros emit p sg. rewrite !ev1_ins, ins_app by assumption.
  destruct (ins_ok x p); cbn [andb]; [|reflexivity]. rewrite ev1_ins. rewrite app_length, Nat.add_assoc.
  destruct (ins_ok y (p + List.length x)); reflexivity.
Qed.

Lemma concat_fn_equiv ty a e : body_atom ty a -> Forall valid_utf8 (estrs e) ->
  equiv a e (concat_fn ty e) /\ Forall valid_utf8 (estrs (concat_fn ty e)).
Proof.
  intros BA V. split; [|now apply concat_fn_lits]. unfold concat_fn. destruct (rtype_eqb ty RAtomic) eqn:T; [|apply equiv_refl].
  assert (NA : atom_eqb a NonAtomic = false) by (destruct ty; try discriminate; cbn in BA; now subst a).
  destruct e; try apply equiv_refl. destruct e1; try apply equiv_refl; destruct e2; try apply equiv_refl.
  - now apply concat_str.
  - apply concat_ins; [exact NA|]. cbn [estrs app] in V. inversion V as [|? ? _ V']. now inversion V'.
Qed.

Theorem concat_expr_equiv ty a e e' : body_atom ty a -> Forall valid_utf8 (estrs e) -> concat_expr ty e = Some e' ->
  equiv a e e' /\ Forall valid_utf8 (estrs e').
Proof.
  unfold concat_expr. intros BA V H.
  apply (map_bottom_up_equiv G extras uprop w valid_utf8 Inv HP a (fun x => Some (concat_fn ty x))) in H; auto.
  intros x y Vx [= <-]. now apply concat_fn_equiv.
Qed.
End ConcatSem.

Definition gvalid (G : grammar) : Prop := forall r, In r G -> Forall valid_utf8 (estrs (rexpr r)).

Lemma concat_gvalid G G' : gvalid G -> map_rules concat_rule G = Some G' -> gvalid G'.
Proof.
  intros V0 H0. refine (map_rules_In _ _ G G' _ V0 H0). intros r r' H V. apply with_expr_inv in H.
  eapply (map_bottom_up_lits valid_utf8 (fun x => Some (concat_fn (rty r) x))); [|exact V|exact H].
  intros x y Vx [= <-]. now apply concat_fn_lits.
Qed.

Theorem concat_grammar G G' extras uprop w : gvalid G -> map_rules concat_rule G = Some G' ->
  forall a emit j p sg res, jvalid valid_utf8 j ->
    (bs G' extras uprop w a emit j p sg res <-> bs G extras uprop w a emit j p sg res).
Proof.
  intros V H a emit j p sg res VJ.
  apply (pass_iff G G' extras uprop w valid_utf8 (fun _ _ => True) (fun r => concat_expr (rty r) (rexpr r)) H);
    auto using preserved_True, (concat_gvalid _ _ V H).
  all: intros r e' a0 Hin E BA; eapply concat_expr_equiv; eauto using preserved_True.
Qed.
