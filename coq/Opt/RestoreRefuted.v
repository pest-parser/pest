(* The restorer clause of the C05 statement is false of the code as shipped: an alternative that child_modifies_state
   does not flag (POP_ALL), resp. that the traversal never reaches (inside #t = .. / (..)+), fails with a modified stack. *)
From Coq Require Import List Arith NArith ZArith Bool String Lia.
Import ListNotations.
Require Import PV.Stack.Model PV.Stack.Proofs PV.Comb.PState PV.Comb.Bytes PV.Comb.Prog PV.Comb.Exec PV.Comb.Frame
  PV.Iter.Queue PV.Peg.Ast PV.Peg.Spec PV.Peg.VmCompile PV.Opt.MapExpr PV.Opt.Restore PV.Opt.Pipeline PV.Opt.Statement PV.Opt.RestoreWitness.

(* a state with the stack [top = y; x] in front of the input `rest` *)
Definition two_pushed (x y : string) (rest : string) : pst :=
  set_stack (init (nm rest) None false) (push (push (@empty (list byte)) (nm x)) (nm y)).
Lemma two_pushed_ok x y rest : wf (two_pushed x y rest) /\ Inv (stack (two_pushed x y rest)) (spush (spush (@sempty (list byte)) (nm x)) (nm y)).
Proof. split; [unfold wf; cbn; lia|]. cbn. apply inv_push, inv_push, inv_empty. Qed.

Theorem restorer_pop_all_not_ok : forall extras OG, to_optimized_rules extras false false false G_popall = Some OG -> ~ restorer_ok false false OG.
Proof.
  intros extras OG H R. assert (OG = [{| oname := nm "r"; oty := RNormal;
      oexpr_of := OSeq (OSeq (OPush (OStr (nm "a"))) (OPush (OStr (nm "b")))) (OChoice (OIdent (nm "POP_ALL")) (OIdent (nm "PEEK_ALL"))) |}]) as ->
    by (destruct extras; vm_compute in H; injection H as <-; reflexivity).
  specialize (R _ (or_introl eq_refl) (OIdent (nm "POP_ALL")) ltac:(vm_compute; tauto)).
  destruct (two_pushed_ok "a" "b" "bX") as [W I].
  specialize (R wcfg no_uranges 5 _ _ (set_stack (two_pushed "a" "b" "bX") (@empty (list byte))) W I ltac:(vm_compute; reflexivity)).
  vm_compute in R. discriminate.
Qed.

(* grammar-extras, POP_ALL repaired, traversals as shipped: the alternatives under the tag are not wrapped *)
Theorem restorer_map_not_ok : forall OG, to_optimized_rules true true false false G_nodetag = Some OG -> ~ restorer_ok true false OG.
Proof.
  intros OG H R. vm_compute in H. injection H as <-.
  specialize (R _ (or_introl eq_refl) (OIdent (nm "POP")) ltac:(vm_compute; tauto)).
  destruct (two_pushed_ok "x" "y" "x") as [W I].
  specialize (R wcfg no_uranges 5 _ _ (set_stack (two_pushed "x" "y" "x") (push (@empty (list byte)) (nm "x"))) W I ltac:(vm_compute; reflexivity)).
  vm_compute in R. discriminate.
Qed.
