(* restore_on_err with fixes/C05-1 and C05-2 applied (fixpop = fixmap = true): every alternative of every restored rule
   fails clean.  Two parts:
   (A) child_modifies_state is a sound reachability analysis: when it answers `false` for e, the names in its final cache
       form a set closed under "the rule's body mentions only harmless nodes and names of the set" and e itself mentions
       only such nodes (depth-first search with a visited set; a `true` anywhere would have propagated to the answer);
   (B) an expression all of whose reachable nodes are harmless cannot fail with a modified stack, when run by the VM on the
       RESTORED rules (sequences, repetitions, look-aheads and RestoreOnErr restore by themselves: Comb.Contracts).      *)
From Coq Require Import List Arith NArith ZArith Bool String Lia.
Require Import PV.Peg.AstFacts.
Import ListNotations.
Require Import PV.Stack.Model PV.Stack.Proofs PV.Comb.PState PV.Comb.Bytes PV.Comb.Prog PV.Comb.Exec PV.Comb.ExecInd PV.Comb.Frame PV.Comb.Contracts
  PV.Peg.Ast PV.Peg.VmCompile PV.Opt.MapExpr PV.Opt.MapExprProofs PV.Opt.Restore PV.Opt.Statement.

(* ---------- (A) the analysis ---------- *)
Definition indom (c : ccache) (n : name) : Prop := cache_get c n <> None.

Definition node_ok (D : name -> Prop) (x : oexpr) : Prop :=
  match x with
  | OPush _ => False
  | OIdent n => str_eqb n (nm "DROP") = false /\ str_eqb n (nm "POP") = false /\ str_eqb n (nm "POP_ALL") = false /\ D n
  | _ => True
  end.
Definition nodes_ok (D : name -> Prop) (e : oexpr) : Prop := Forall (node_ok D) (oiter_top_down true e).

Lemma node_ok_mono (D D' : name -> Prop) x : (forall n, D n -> D' n) -> node_ok D x -> node_ok D' x.
Proof. intros H. destruct x; cbn; auto. intros (A & B & C & E). auto. Qed.
Lemma nodes_ok_mono (D D' : name -> Prop) l : (forall n, D n -> D' n) -> Forall (node_ok D) l -> Forall (node_ok D') l.
Proof. intros H F. eapply Forall_impl; [|exact F]. intros x. now apply node_ok_mono. Qed.

Lemma indom_set c n v m : indom c m -> indom (cache_set c n v) m.
Proof. unfold indom, cache_set. cbn. destruct (str_eqb n m); [discriminate|auto]. Qed.
Lemma indom_set_same c n v : indom (cache_set c n v) n.
Proof. unfold indom, cache_set. cbn. now rewrite str_eqb_refl. Qed.
Lemma indom_set_inv c n v m : indom (cache_set c n v) m -> indom c m \/ str_eqb n m = true.
Proof. unfold indom, cache_set. cbn. destruct (str_eqb n m); auto. Qed.

Section Analysis.
Variable rules : ogrammar.

(* what a `false` answer establishes, relative to the cache before (c) and after (c') *)
Definition closed_new (c c' : ccache) : Prop :=
  forall n, indom c' n -> ~ indom c n -> forall b, omap_get rules n = Some b -> nodes_ok (indom c') b.
Definition false_post (l : list oexpr) (c c' : ccache) : Prop :=
  (forall n, indom c n -> indom c' n) /\ Forall (node_ok (indom c')) l /\ closed_new c c'.

Lemma false_post_trans x l c c1 c' : false_post [x] c c1 -> false_post l c1 c' -> false_post (x :: l) c c'.
Proof.
  intros (M1 & N1 & C1) (M2 & N2 & C2). split; [auto|]. split.
  - constructor; [|exact N2]. inversion N1; subst. eapply node_ok_mono; [|eassumption]. exact M2.
  - intros n I' NI b Hb. destruct (cache_get c1 n) as [v|] eqn:E.
    + assert (I1 : indom c1 n) by (unfold indom; congruence). eapply nodes_ok_mono; [exact M2|]. eapply C1; eauto.
    + eapply C2; eauto; unfold indom; congruence.
Qed.

Section Rec.
Variable rec : oexpr -> ccache -> option (bool * ccache).
Hypothesis Hrec : forall e c c', rec e c = Some (false, c') -> false_post (oiter_top_down true e) c c'.

Lemma visit_false x c c' : cms_visit true rules rec x c = Some (false, c') -> false_post [x] c c'.
Proof.
  assert (Triv : forall y, node_ok (indom c) y -> false_post [y] c c).
  { intros y Hy. split; [auto|]. split; [constructor; [exact Hy|constructor]|]. intros n I NI. contradiction. }
  destruct x; cbn [cms_visit]; try (intros [= <-]; apply Triv; exact I); try discriminate.
  destruct (str_eqb n (nm "DROP")) eqn:E1; [discriminate|]. destruct (str_eqb n (nm "POP")) eqn:E2; [discriminate|].
  cbn [andb]. destruct (str_eqb n (nm "POP_ALL")) eqn:E3; [discriminate|].
  destruct (cache_get c n) as [[cached|]|] eqn:G.
  - intros [= -> <-]. apply Triv. cbn. repeat split; auto. unfold indom. congruence.
  - intros [= <-]. split; [intros m; apply indom_set|]. split.
    + constructor; [|constructor]. cbn. repeat split; auto. apply indom_set_same.
    + intros m I' NI. apply indom_set_inv in I'. destruct I' as [I'|I']; [contradiction|].
      apply str_eqb_eq in I'. subst m. exfalso. apply NI. unfold indom. congruence.
  - set (c1 := cache_set c n None).
    assert (Fin : forall c2, false_post (match omap_get rules n with Some b => oiter_top_down true b | None => [] end) c1 c2 ->
                             false_post [OIdent n] c (cache_set c2 n (Some false))).
    { intros c2 (M & N & C). split; [intros m Im; apply indom_set, M, indom_set; exact Im|]. split.
      - constructor; [|constructor]. cbn. repeat split; auto. apply indom_set_same.
      - intros m I' NI b Hb. apply indom_set_inv in I'. destruct I' as [I'|I'].
        + destruct (cache_get c1 m) as [v|] eqn:Gm.
          * assert (I1 : indom c1 m) by (unfold indom; congruence). apply indom_set_inv in I1. destruct I1 as [I1|I1]; [contradiction|].
            apply str_eqb_eq in I1. subst m. rewrite Hb in N. eapply nodes_ok_mono; [|exact N]. intros k; apply indom_set.
          * eapply nodes_ok_mono; [intros k; apply indom_set|]. eapply C; eauto; unfold indom; congruence.
        + apply str_eqb_eq in I'. subst m. rewrite Hb in N. eapply nodes_ok_mono; [|exact N]. intros k; apply indom_set. }
    destruct (omap_get rules n) as [body|] eqn:Hm.
    + destruct (rec body c1) as [[[|] c2]|] eqn:R; try discriminate. intros [= <-]. apply Fin. now apply Hrec.
    + intros [= <-]. apply Fin. split; [auto|]. split; [constructor|]. intros m I' NI. contradiction.
Qed.

Lemma any_false : forall l c c', cms_any true rules rec l c = Some (false, c') -> false_post l c c'.
Proof.
  induction l as [|x l IH]; intros c c' H; cbn [cms_any] in H.
  - injection H as <-. split; [auto|]. split; [constructor|]. intros n I NI. contradiction.
  - destruct (cms_visit true rules rec x c) as [[[|] c1]|] eqn:V; try discriminate.
    eapply false_post_trans; [exact (visit_false _ _ _ V)|exact (IH _ _ H)].
Qed.
End Rec.

Lemma cms_false : forall fuel e c c', cms true true rules fuel e c = Some (false, c') -> false_post (oiter_top_down true e) c c'.
Proof.
  induction fuel as [|n IH]; intros e c c' H; [discriminate|]. cbn [cms] in H. eapply any_false; [|exact H]. exact IH.
Qed.

(* the top-level call starts from an empty cache: the final domain is closed *)
Theorem child_modifies_state_closed e : child_modifies_state true true rules e = false ->
  exists D : name -> Prop, nodes_ok D e /\ (forall n b, D n -> omap_get rules n = Some b -> nodes_ok D b).
Proof.
  unfold child_modifies_state. destruct (cms true true rules (cms_fuel rules) e []) as [[[|] c']|] eqn:H; try discriminate. intros _.
  destruct (cms_false _ _ _ _ H) as (M & N & C). exists (indom c'). split; [exact N|].
  intros n b Dn Hb. eapply C; eauto; unfold indom; cbn; congruence.
Qed.
End Analysis.

(* ---------- (B) harmless expressions fail clean ---------- *)
Definition safe_prim (o : prim) : bool :=
  match o with MStackPop | MStackMatchPop | MStackDrop => false | _ => true end.
Fixpoint safe_prog (p : prog) : bool :=
  match p with PPrim o => safe_prim o | POrElse a b => safe_prog a && safe_prog b | _ => false end.

Lemma apply_pres_err_stack s r t x : apply_pres s r t = RErr x -> stack x = stack s.
Proof.
  unfold apply_pres. destruct r as [p| |]; try discriminate.
  destruct t as [tk|]; [destruct (pa_enabled s)|]; intros [= <-]; auto.
  destruct (handle_token_core s (pos s) tk false) as [C _]. exact (c_stack _ _ C).
Qed.

(* a safe primitive leaves the stack as it is (or pushes and succeeds): its Err is that of apply_pres on the state it got *)
Lemma safe_prim_err cfg o s x : safe_prim o = true -> exec_prim cfg o s = RErr x -> stack x = stack s.
Proof.
  rewrite exec_prim_act. destruct o; cbn [safe_prim prim_act run_act]; try discriminate; intros _;
    rewrite ?set_stack_id; try apply apply_pres_err_stack.
  - destruct (peek (stack s)); cbn [run_act]; [rewrite set_stack_id; apply apply_pres_err_stack|discriminate].
  - unfold tag_node. destruct (negb _); [discriminate|]. destruct (queue s) as [|[]]; discriminate.
Qed.

Section Clean.
Variable cfg : config.
Variable RG : ogrammar.                               (* the rules the VM runs: the restored ones *)
Variable uranges : name -> option (list (N * N)).
Notation E := (vm_env RG uranges).
Notation vme := (vm_expr RG uranges).

Lemma safe_prog_err : forall p fuel s sa x, safe_prog p = true -> wf s -> Inv (stack s) sa -> exec cfg E fuel p s = RErr x -> stack x = stack s.
Proof.
  induction p; intros fuel s sa x S W I H; try discriminate; destruct fuel as [|fuel]; try discriminate; cbn [exec] in H.
  - eapply safe_prim_err; eauto.
  - cbn [safe_prog] in S. apply andb_true_iff in S. destruct S as [S1 S2].
    pose proof (exec_post cfg E fuel p1 s sa W I) as P.
    destruct (exec cfg E fuel p1 s) as [y|y|k|] eqn:E1; try discriminate.
    cbn in P. destruct P as (F & Wy & ay & Iy & _).
    rewrite (IHp2 fuel y ay x S2 Wy Iy H). eapply IHp1; eauto.
Qed.

Lemma inc_call_stack s s1 : inc_call s = Some s1 -> stack s1 = stack s /\ (wf s -> wf s1).
Proof. intros H. destruct (inc_call_frame _ _ H) as (_ & A & B & _ & C & _). split; [exact A|]. unfold wf. congruence. Qed.

Lemma rule_err_stack r fr s x : rule_err r fr s = RErr x -> stack x = stack s.
Proof.
  unfold rule_err. destruct (negb (lk_eqb (lookahead s) LNeg)).
  - set (t := track s r (rf_pos fr) (rf_pai fr) (rf_nai fr) (rf_attempts fr)).
    pose proof (track_same s r (rf_pos fr) (rf_pai fr) (rf_nai fr) (rf_attempts fr)) as T. fold t in T.
    destruct (pa_enabled t).
    + destruct (try_add_rule_to_stack t r (rf_csn fr) (rf_max fr)) as [y|] eqn:Y; [|discriminate].
      apply try_add_rule_to_stack_core in Y. intros [= <-]. destruct (emits y); cbn; rewrite (c_stack _ _ Y); exact (t_stack _ _ T).
    + intros [= <-]. destruct (emits t); cbn; exact (t_stack _ _ T).
  - intros [= <-]. destruct (emits s); reflexivity.
Qed.
Lemma rule_ok_not_err r fr s x : rule_ok r fr s <> RErr x.
Proof.
  unfold rule_ok. destruct (emits _).
  - destruct (set_start_end _ _ _); [|discriminate]. destruct (pa_enabled _); [|discriminate].
    destruct (try_add_rule_to_stack _ _ _ _); discriminate.
  - destruct (pa_enabled _); [|discriminate]. destruct (try_add_rule_to_stack _ _ _ _); discriminate.
Qed.

(* a failing rule or atomicity wrapper: the call limit was reached, or the failure is the body's *)
Lemma wrapper_err fuel q p s x : (exists r, q = PRule r p) \/ (exists a0, q = PAtomic a0 p) ->
  exec cfg E (S fuel) q s = RErr x -> wf s ->
  x = s \/ exists s2 s3, exec cfg E fuel p s2 = RErr s3 /\ stack s2 = stack s /\ wf s2 /\ stack x = stack s3.
Proof.
  intros Q H W. destruct Q as [[r ->]|[a0 ->]]; cbn [exec] in H;
    (destruct (inc_call s) as [s1|] eqn:Ei; [|left; now injection H]); destruct (inc_call_stack _ _ Ei) as [S1 W1]; right.
  - destruct (rule_enter s1) as [fr s2] eqn:Er.
    destruct (rule_enter_spec s1) as (_ & _ & _ & _ & _ & SQ). rewrite Er in SQ. cbn [snd] in SQ.
    destruct (exec cfg E fuel p s2) as [y|y|k|] eqn:Ex; try discriminate.
    + exfalso. eapply rule_ok_not_err; eauto.
    + exists s2, y. split; [exact Ex|]. split; [rewrite (q_stack _ _ SQ); exact S1|]. split.
      * unfold wf. rewrite (q_pos _ _ SQ), (q_input _ _ SQ). now apply W1.
      * eapply rule_err_stack; eauto.
  - set (s2 := if negb (atom_eqb (atomicity s1) a0) then set_atomicity s1 a0 else s1) in *.
    assert (E2 : stack s2 = stack s1 /\ wf s2) by (unfold s2; destruct (negb _); cbn; split; auto; now apply W1).
    destruct (exec cfg E fuel p s2) as [y|y|k|] eqn:Ex; try discriminate.
    exists s2, y. split; [exact Ex|]. split; [destruct E2; congruence|]. split; [tauto|].
    injection H as <-. destruct (negb _); reflexivity.
Qed.

Lemma proe_err fuel p s a x : wf s -> Inv (stack s) a -> exec cfg E fuel (PRestoreOnErr p) s = RErr x -> cache (stack x) = cache (stack s).
Proof.
  intros W I H. destruct fuel as [|fuel]; [discriminate|]. cbn [exec] in H.
  assert (I1 : Inv (stack (checkpoint s)) (ssnapshot a)) by (cbn; now apply inv_snapshot).
  pose proof (exec_post cfg E fuel p (checkpoint s) (ssnapshot a) W I1) as P.
  destruct (exec cfg E fuel p (checkpoint s)) as [y|y|k|]; try discriminate.
  - cbn in P. destruct P as (_ & _ & a2 & I2 & _). unfold checkpoint_ok in H. destruct (inv_clear I2) as (st & Ec & _). rewrite Ec in H. discriminate.
  - cbn in P. destruct P as (_ & _ & a2 & I2 & S2). unfold restore_st in H. destruct (inv_restore I2) as (st & Er & I3).
    rewrite Er in H. cbn in H. injection H as <-. cbn. rewrite (inv_cache _ _ I3). unfold srestore. rewrite S2. cbn.
    symmetry. now apply inv_cache.
Qed.

Lemma index_of_some names n : forall k0 k, index_of names n k0 = Some k ->
  exists i x, k = k0 + i /\ nth_error names i = Some x /\ str_eqb x n = true.
Proof.
  induction names as [|y names IH]; intros k0 k H; cbn [index_of] in H; [discriminate|].
  destruct (str_eqb y n) eqn:Sy.
  - injection H as <-. exists 0, y. split; [lia|]. split; [reflexivity|exact Sy].
  - destruct (IH _ _ H) as (i & x & -> & A & B). exists (S i), x. split; [lia|]. split; [exact A|exact B].
Qed.
Lemma index_of_none names n : forall k0, index_of names n k0 = None -> forall x, In x names -> str_eqb x n = false.
Proof.
  induction names as [|y names IH]; intros k0 H x Hx; [destruct Hx|]. cbn [index_of] in H.
  destruct (str_eqb y n) eqn:Sy; [discriminate|]. destruct Hx as [<-|Hx]; [exact Sy|eapply IH; eauto].
Qed.
Lemma find_orule_in g : forall n r, find_orule g n = Some r -> In r g /\ str_eqb (oname r) n = true.
Proof.
  induction g as [|x g IH]; intros n r; cbn [find_orule]; [discriminate|].
  destruct (find_orule g n) as [y|] eqn:F; [intros [= <-]; destruct (IH _ _ F); split; [now right|assumption]|].
  destruct (str_eqb (oname x) n) eqn:Sx; [intros [= <-]; split; [now left|exact Sx]|discriminate].
Qed.

Lemma orule_id_nth n : has_orule RG n = true -> exists r, nth_error RG (orule_id RG n) = Some r /\ oname r = n.
Proof.
  unfold has_orule, orule_id, onames. destruct (find_orule RG n) as [r0|] eqn:F; [|discriminate]. intros _.
  destruct (find_orule_in _ _ _ F) as [Hin Hs].
  destruct (index_of (map oname RG) n 0) as [k|] eqn:I.
  - destruct (index_of_some _ _ _ _ I) as (i & x & -> & A & B). cbn [Nat.add].
    rewrite nth_error_map in A. destruct (nth_error RG i) as [r|]; [|discriminate]. injection A as <-.
    exists r. split; [reflexivity|]. now apply str_eqb_eq.
  - exfalso. pose proof (index_of_none _ _ _ I (oname r0) (in_map oname _ _ Hin)). congruence.
Qed.

Fixpoint okx (D : name -> Prop) (e : oexpr) : Prop :=
  match e with
  | OChoice l r => okx D l /\ okx D r
  | ONodeTag x _ => okx D x
  | _ => node_ok D e
  end.

(* the rule/atomic wrappers around a rule body (vm_rule_body) only pass a failure on *)
Inductive wraps (b : prog) : prog -> Prop :=
| w_base : wraps b b
| w_rule id q : wraps b q -> wraps b (PRule id q)
| w_atomic at0 q : wraps b q -> wraps b (PAtomic at0 q).

Lemma wraps_clean b n :
  (forall f1 s1 a1 x1, f1 <= n -> wf s1 -> Inv (stack s1) a1 -> exec cfg E f1 b s1 = RErr x1 -> cache (stack x1) = cache (stack s1)) ->
  forall q, wraps b q -> forall f1 s1 a1 x1, f1 <= n -> wf s1 -> Inv (stack s1) a1 -> exec cfg E f1 q s1 = RErr x1 -> cache (stack x1) = cache (stack s1).
Proof.
  intros Body q Wq. induction Wq as [|id q Wq IHq|at0 q Wq IHq]; intros f1 s1 a1 x1 L1 W1 I1 H1.
  - eapply Body; eauto.
  - destruct f1 as [|f2]; [discriminate|]. destruct (wrapper_err _ _ q _ _ (or_introl (ex_intro _ id eq_refl)) H1 W1) as [->|(s2 & s3 & X & S2 & W2 & S3)]; [reflexivity|].
    rewrite S3, <- S2. apply (IHq f2 s2 a1 s3); [lia|exact W2|now rewrite S2|exact X].
  - destruct f1 as [|f2]; [discriminate|]. destruct (wrapper_err _ _ q _ _ (or_intror (ex_intro _ at0 eq_refl)) H1 W1) as [->|(s2 & s3 & X & S2 & W2 & S3)]; [reflexivity|].
    rewrite S3, <- S2. apply (IHq f2 s2 a1 s3); [lia|exact W2|now rewrite S2|exact X].
Qed.

Lemma vm_rule_body_wraps r : wraps (vme (oexpr_of r)) (vm_rule_body RG uranges r).
Proof. unfold vm_rule_body. destruct (is_special_name (oname r)), (oty r); repeat constructor. Qed.

Variable D : name -> Prop.
Hypothesis DC : forall r, In r RG -> D (oname r) -> okx D (oexpr_of r).

Lemma safe_clean p fuel s a x : safe_prog p = true -> wf s -> Inv (stack s) a -> exec cfg E fuel p s = RErr x -> cache (stack x) = cache (stack s).
Proof. intros S W I H. now rewrite (safe_prog_err p fuel s a x S W I H). Qed.

Theorem okx_clean : forall n fuel, fuel <= n -> forall e s a x, okx D e -> wf s -> Inv (stack s) a ->
  exec cfg E fuel (vme e) s = RErr x -> cache (stack x) = cache (stack s).
Proof.
  induction n as [|n IH]; intros fuel Hle e s a x O W I H; (destruct fuel as [|fuel]; [discriminate|]); [lia|].
  assert (Hf : fuel <= n) by lia.
  destruct e; cbn [vm_expr okx node_ok] in O, H; try (refine (safe_clean _ _ _ _ _ _ W I H); reflexivity).
  - (* OIdent *)
    destruct O as (ND & NP & NA & Dn). unfold vm_call in H.
    case_eq (has_orule RG n0); intros HR; rewrite HR in H.
    { (* a rule of the grammar (it shadows the hard-coded names) *)
      destruct (orule_id_nth _ HR) as (r & Nth & Nm). cbn [exec] in H. unfold vm_env in H. rewrite Nth in H. cbn [option_map] in H.
      assert (Hin : In r RG) by (eapply nth_error_In; eauto).
      assert (OB : okx D (oexpr_of r)) by (apply DC; auto; now rewrite Nm).
      pose proof (wraps_clean (vme (oexpr_of r)) n (fun f1 s1 a1 x1 L1 W1 I1 H1 => IH f1 L1 (oexpr_of r) s1 a1 x1 OB W1 I1 H1)) as WC.
      pose proof (vm_rule_body_wraps r) as WR.
      exact (WC _ WR fuel s a x Hf W I H). }
    cbv match in H.
    repeat match type of H with
    | exec _ _ _ (if str_eqb n0 ?k then _ else _) _ = _ => destruct (str_eqb n0 k) eqn:?; try discriminate
    end; try (refine (safe_clean _ _ _ _ _ _ W I H); reflexivity).
    + (* EOI *) destruct (wrapper_err _ _ _ _ _ (or_introl (ex_intro _ _ eq_refl)) H W) as [->|(s2 & s3 & X & S2 & W2 & S3)]; [reflexivity|].
      rewrite S3, <- S2. f_equal. eapply (safe_prog_err (PPrim MEoi) _ s2 a s3 eq_refl W2); [rewrite S2; exact I|exact X].
    + (* a Unicode property *)
      cbv match in H.
      case_eq (uranges n0); [intros rs Hu|intros Hu]; rewrite Hu in H; [refine (safe_clean _ _ _ _ _ _ W I H); reflexivity|].
      assert (Nn : nth_error RG (S (List.length RG)) = None) by (apply nth_error_None; apply Nat.le_succ_diag_r).
      cbn [exec] in H. unfold vm_env in H. rewrite Nn in H. discriminate H.
  - (* OPosPred *) eapply lookahead_restores; eauto.
  - (* ONegPred *) eapply lookahead_restores; eauto.
  - (* OSeq *) eapply sequence_err_restores; eauto.
  - (* OChoice *) destruct O as [Ol Or]. cbn [exec] in H.
    pose proof (exec_post cfg E fuel (vme e1) s a W I) as P.
    destruct (exec cfg E fuel (vme e1) s) as [y|y|k|] eqn:E1; try discriminate.
    cbn in P. destruct P as (_ & Wy & ay & Iy & _).
    rewrite (IH fuel Hf e2 y ay x Or Wy Iy H). exact (IH fuel Hf e1 s a y Ol W I E1).
  - (* OOpt *) cbn [exec] in H. destruct (inc_call s); [|now injection H as <-]. destruct (exec _ _ _ _ _); discriminate.
  - (* ORep *) eapply sequence_err_restores; eauto.
  - (* ORepOnce *) eapply sequence_err_restores; eauto.
  - (* OPush *) contradiction.
  - (* ONodeTag *) cbn [exec] in H. destruct (exec cfg E fuel (vme e) s) as [y|y|k|] eqn:E1; try discriminate.
    + destruct fuel as [|f1]; [discriminate|]. cbn [exec exec_prim] in H. destruct (negb _); [discriminate|]. destruct (queue y) as [|[]]; discriminate.
    + injection H as <-. eapply IH; eauto.
  - (* ORestoreOnErr *) eapply proe_err; eauto.
Qed.
End Clean.

(* ---------- putting (A) and (B) together ---------- *)
Section Assembly.
Variable OG : ogrammar.                                  (* the optimized rules before restoration *)
Notation RG := (restore_all true true OG).
Notation wrapif := (wrap_if true true OG).
Notation rest := (restore_expr true true OG).

Lemma nodes_ok_okx D : forall e, nodes_ok D e -> okx D e /\ okx D (rest e).
Proof.
  unfold nodes_ok, restore_expr.
  induction e; cbn [oiter_top_down omap_bottom_up wrap_branching_exprs okx node_ok]; intros H; inversion H as [|? ? H0 H1]; subst; auto.
  - apply Forall_app in H1. destruct H1 as [Ha Hb]. destruct (IHe1 Ha), (IHe2 Hb). unfold wrap_if.
    split; [now split|]. split; destruct (child_modifies_state _ _ _ _); auto; exact I.
Qed.

Fixpoint noroe (e : oexpr) : Prop :=
  match e with
  | ORestoreOnErr _ => False
  | OSeq l r | OChoice l r => noroe l /\ noroe r
  | OPosPred x | ONegPred x | OOpt x | ORep x | ORepOnce x | OPush x | ONodeTag x _ => noroe x
  | _ => True
  end.

Lemma alts_wrapif y : alternatives (wrapif y) = alternatives y.
Proof. unfold wrap_if. destruct (child_modifies_state _ _ _ _); reflexivity. Qed.

Lemma alt_wrapped : forall e, noroe e -> forall c, In c (alternatives (rest e)) -> exists c0, c = wrapif c0.
Proof.
  unfold restore_expr.
  induction e; cbn [noroe omap_bottom_up wrap_branching_exprs alternatives]; intros N c Hc; try contradiction; auto.
  - destruct N as [N1 N2]. apply in_app_or in Hc. destruct Hc; auto.
  - destruct N as [N1 N2]. destruct Hc as [<-|[<-|Hc]]; eauto. rewrite !alts_wrapif in Hc. apply in_app_or in Hc. destruct Hc; auto.
  - destruct Hc as [<-|Hc]; eauto. rewrite alts_wrapif in Hc. auto.
  - destruct Hc as [<-|Hc]; eauto. rewrite alts_wrapif in Hc. auto.
Qed.

Hypothesis Huniq : NoDup (map oname OG).

Lemma find_orule_uniq : forall g r, NoDup (map oname g) -> In r g -> find_orule g (oname r) = Some r.
Proof.
  induction g as [|x g IH]; intros r ND Hin; [destruct Hin|]. cbn [map] in ND. inversion ND as [|? ? Nx ND']; subst. cbn [find_orule].
  destruct Hin as [<-|Hin].
  - destruct (find_orule g (oname x)) as [y|] eqn:F.
    + exfalso. destruct (find_orule_in _ _ _ F) as [Hy Sy]. apply str_eqb_eq in Sy. apply Nx. rewrite <- Sy. now apply in_map.
    + now rewrite str_eqb_refl.
  - now rewrite (IH r ND' Hin).
Qed.

Theorem restorer_sound : (forall r, In r OG -> noroe (oexpr_of r)) -> restorer_ok true true OG.
Proof.
  intros NR r Hr c Hc. unfold restore_all in Hr. apply in_map_iff in Hr. destruct Hr as (r0 & <- & Hr0). cbn [restore_rule oexpr_of] in Hc.
  destruct (alt_wrapped _ (NR _ Hr0) _ Hc) as [c0 ->].
  intros cfg uranges fuel s a s' W I H. unfold wrap_if in *. destruct (child_modifies_state true true OG c0) eqn:CM.
  - eapply proe_err; eauto.
  - destruct (child_modifies_state_closed OG c0 CM) as (D & N0 & CL).
    eapply (okx_clean cfg RG uranges D) with (n := fuel) (fuel := fuel); eauto; try apply (nodes_ok_okx D c0 N0).
    intros q Hq Dq. unfold restore_all in Hq. apply in_map_iff in Hq. destruct Hq as (q0 & <- & Hq0). cbn [restore_rule oexpr_of oname] in *.
    apply nodes_ok_okx. apply (CL (oname q0)); auto. unfold omap_get. now rewrite (find_orule_uniq OG q0 Huniq Hq0).
Qed.
End Assembly.
