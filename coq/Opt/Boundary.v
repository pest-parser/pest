(* Positions stay on char boundaries and the stack holds valid UTF-8 along every derivation, for a valid
   input and a grammar whose literals are valid UTF-8 (every Rust String is).  This is the state invariant
   under which the byte-level laws of concatenate (adjacent case-insensitive literals) and skip hold.  *)
From Coq Require Import List Arith NArith ZArith Bool String Lia.
Import ListNotations.
Require Import PV.Comb.PState PV.Comb.Bytes PV.Comb.Utf8 PV.Comb.Utf8b PV.Iter.Queue PV.Peg.Ast PV.Peg.Spec
  PV.Opt.Sem PV.Opt.SemProofs PV.Opt.SemCong PV.Opt.SemTransfer.

Definition on_boundary (w : list byte) : state_inv := fun p sg => boundaryb w p = true /\ Forall valid_utf8 sg.

Section Boundary.
Variable G : grammar.
Variable extras : bool.
Variable uprop : name -> option (N -> bool).
Variable w : list byte.
Hypothesis Vw : valid_utf8 w.
Hypothesis VG : forall n r, find_rule G n = Some r -> Forall valid_utf8 (estrs (rexpr r)).

Notation bs := (bs G extras uprop w).
Notation Inv := (on_boundary w).

Lemma In_firstn' {A} (x : A) n : forall l, In x (firstn n l) -> In x l.
Proof. intros l H. rewrite <- (firstn_skipn n l). apply in_or_app. now left. Qed.
Lemma In_skipn' {A} (x : A) n : forall l, In x (skipn n l) -> In x l.
Proof. intros l H. rewrite <- (firstn_skipn n l). apply in_or_app. now right. Qed.

Lemma lit_boundary s p q : boundaryb w p = true -> valid_utf8 s -> lit w s p = Some q -> boundaryb w q = true.
Proof.
  intros B Vs. unfold lit. destruct (prefixb s (skipn p w)) eqn:P; [|discriminate]. intros [= <-].
  apply (match_string_boundary w p s); auto. unfold match_string. now rewrite P.
Qed.

Lemma lit_all_boundary : forall l p q, boundaryb w p = true -> Forall valid_utf8 l -> lit_all w l p = Some q -> boundaryb w q = true.
Proof.
  induction l as [|s l IH]; intros p q B V; cbn [lit_all]; [now intros [= <-]|].
  inversion V; subst. destruct (lit w s p) as [q1|] eqn:L; [|discriminate]. apply IH; auto. eapply lit_boundary; eauto.
Qed.

Definition res_inv (r : sres) : Prop := match r with SMatch p sg _ => Inv p sg | _ => True end.

(* the shape of most leaf results: a literal matched at p, or something else *)
Lemma lit_inv s p sg' f r : boundaryb w p = true -> valid_utf8 s -> Forall valid_utf8 sg' -> res_inv r ->
  res_inv (match lit w s p with Some q => SMatch q sg' f | None => r end).
Proof. intros B Vs V R. destruct (lit w s p) eqn:E; [|exact R]. split; [exact (lit_boundary _ _ _ B Vs E)|exact V]. Qed.
Lemma lit_all_inv l p sg' f : boundaryb w p = true -> Forall valid_utf8 l -> Forall valid_utf8 sg' ->
  res_inv (match lit_all w l p with Some q => SMatch q sg' f | None => SFail end).
Proof. intros B Vl V. destruct (lit_all w l p) eqn:E; [|exact I]. split; [exact (lit_all_boundary _ _ _ B Vl E)|exact V]. Qed.

Lemma one_char_boundary ok p sg : Inv p sg -> res_inv (one_char w ok p sg).
Proof.
  intros [B V]. unfold one_char, char_here.
  destruct (char_at_valid w p Vw B) as [[_ E]|(c & l' & Hc & Es & V' & E & B')]; unfold char_at in E; rewrite B in E; injection E as E; rewrite E.
  - exact I.
  - destruct (ok c); [|exact I]. split; auto.
Qed.

Lemma valid_byte10 : valid_utf8 [10%N]. Proof. apply valid_ascii. repeat constructor. Qed.
Lemma valid_byte13 : valid_utf8 [13%N]. Proof. apply valid_ascii. repeat constructor. Qed.
Lemma valid_crlf : valid_utf8 [13%N; 10%N]. Proof. apply valid_ascii. repeat constructor. Qed.

Lemma leaf_boundary a emit e p sg : leaf G e = true -> Forall valid_utf8 (estrs e) -> Inv p sg ->
  res_inv (eval G extras uprop w 1 a emit e p sg).
Proof.
  intros L V HI. pose proof HI as [B Vs]. destruct e; cbn [leaf] in L; try discriminate; cbn [Spec.eval estrs] in *.
  - apply lit_inv; auto; [now inversion V|exact I].
  - destruct (boundaryb w (p + List.length s)) eqn:E; cbn [andb]; [|exact I]. destruct (prefixb_ci _ _); [|exact I]. split; auto.
  - now apply one_char_boundary.
  - destruct (str_eqb n (nm "SOI")). { destruct (Nat.eqb p 0); [exact HI|exact I]. }
    destruct (str_eqb n (nm "EOI")). { destruct (Nat.eqb p (List.length w)); [exact HI|exact I]. }
    destruct (str_eqb n (nm "PEEK")). { destruct sg as [|top rest]; [exact I|]. apply lit_inv; auto; [now inversion Vs|exact I]. }
    destruct (str_eqb n (nm "POP")). { destruct sg as [|top rest]; [exact I|]. inversion Vs; subst. apply lit_inv; auto. exact I. }
    destruct (str_eqb n (nm "DROP")). { destruct sg as [|top rest]; [exact I|]. inversion Vs; subst. split; auto. }
    destruct (str_eqb n (nm "PEEK_ALL")). { now apply lit_all_inv. }
    destruct (str_eqb n (nm "POP_ALL")). { now apply lit_all_inv. }
    destruct (str_eqb n (nm "NEWLINE")).
    { apply lit_inv; auto using valid_byte10. apply lit_inv; auto using valid_crlf. apply lit_inv; auto using valid_byte13. exact I. }
    destruct (ascii_builtin n); [now apply one_char_boundary|].
    destruct (find_rule G n); [destruct (rule_mode _ _ _ _); exact I|]. destruct (uprop n); [now apply one_char_boundary|exact I].
  - destruct (norm_idx i _) as [s0|]; [|exact I]. destruct (match j with Some _ => _ | None => _ end) as [e0|]; [|exact I].
    destruct (Nat.leb e0 s0); [exact HI|]. apply lit_all_inv; auto.
    apply Forall_forall. intros x Hx. apply In_firstn' in Hx. rewrite Forall_forall in Vs. apply Vs.
    apply in_rev. eapply In_skipn'; eauto.
  - split; auto. apply skip_until_basic_boundary. now apply boundaryb_le.
  - split; auto. constructor; auto. now inversion V.
Qed.

Theorem bs_boundary a emit j p sg res : bs a emit j p sg res -> jvalid valid_utf8 j -> Inv p sg -> res_inv res.
Proof.
  induction 1; intros V I; cbn [jvalid estrs] in V; try (apply Forall_app in V; destruct V as [V1 V2]); cbn [res_inv]; auto.
  - (* leaf *) now apply leaf_boundary.
  - (* call *) assert (R := IHbs (VG _ _ H0) I). destruct res; cbn in *; auto.
  - (* seq *) assert (R1 := IHbs1 V1 I). assert (R2 := IHbs2 Logic.I R1). assert (R3 := IHbs3 V2 R2). destruct res; cbn in *; auto.
  - (* cho_l *) apply (IHbs V1 I).
  - (* opt *) assert (R := IHbs V I). destruct res; cbn in *; auto.
  - (* rep *) apply IHbs2; auto. apply (IHbs1 V I).
  - (* rep1x *) apply IHbs2; auto. apply (IHbs1 V I).
  - (* rep1d *) apply IHbs; auto. cbn [jvalid estrs]. apply Forall_app; auto.
  - (* bounded *) apply IHbs; auto. cbn [jvalid]. exact (unroll_node_strs _ _ _ _ H0 V).
  - (* pos *) destruct res; cbn; auto.
  - (* neg *) destruct res; cbn; auto.
  - (* push *) assert (R := IHbs V I). destruct res as [q sg2 f2| |]; cbn in *; auto. destruct R as [Bq Vq]. split; auto. constructor; auto.
    destruct I as [Bp _]. destruct (Nat.le_gt_cases p q) as [L|L]; [now apply valid_slice|].
    replace (q - p) with 0 by lia. apply valid_nil.
  - (* tag *) assert (R := IHbs V I). destruct res; cbn in *; auto.
  - (* many_step *) apply IHbs2; auto. apply (IHbs1 (Forall_nil _) I).
  - (* cw_step *) apply IHbs3; auto. apply (IHbs2 Logic.I). apply (IHbs1 (Forall_nil _) I).
  - (* rep_step *) apply IHbs3; auto. apply (IHbs2 V). apply (IHbs1 Logic.I I).
  - (* skip_both *) apply IHbs2; auto. apply (IHbs1 Logic.I I).
Qed.

Corollary boundary_preserved : preserved G extras uprop w valid_utf8 Inv.
Proof. intros a emit j p sg p' sg' f V H I. exact (bs_boundary _ _ _ _ _ _ H V I). Qed.

End Boundary.
