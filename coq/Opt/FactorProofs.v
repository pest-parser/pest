(* factor preserves the documented meaning: the three rewrites rest on the determinism of the semantics (a
   re-evaluated common head gives the same result) and on a failing alternative leaving no state behind.   *)
From Coq Require Import List Arith NArith ZArith Bool String Lia.
Import ListNotations.
Require Import PV.Comb.PState PV.Comb.Bytes PV.Iter.Queue PV.Peg.Ast PV.Peg.Spec PV.Opt.Sem PV.Opt.SemProofs PV.Opt.SemCong
  PV.Opt.SemTransfer PV.Opt.SemLaws PV.Opt.MapExpr PV.Opt.MapExprProofs PV.Opt.PassProofs PV.Opt.Factor.

(* what factor_fn does to a node: nothing, or one of the three rewrites (the derived equality read as equality) *)
Inductive factored (ty : rtype) : expr -> expr -> Prop :=
| f_same e : factored ty e e
| f_common l r1 r2 : factored ty (EChoice (ESeq l r1) (ESeq l r2)) (ESeq l (EChoice r1 r2))
| f_opt l1 l2 : atomic_ty ty = true -> factored ty (EChoice (ESeq l1 l2) l1) (ESeq l1 (EOpt l2))
| f_absorb l r : factored ty (EChoice l (ESeq l r)) l.

Lemma factor_fn_factored ty e : factored ty e (factor_fn ty e).
Proof.
  destruct e; try apply f_same. cbn [factor_fn].
  destruct e1, e2; try apply f_same;
    repeat match goal with |- context [if ?c then _ else _] => destruct c eqn:? end; try apply f_same;
    match goal with E : expr_eqb _ _ = true |- _ => apply expr_eqb_eq in E; try subst end; now constructor.
Qed.

Lemma factor_fn_size ty e : esize (factor_fn ty e) <= esize e.
Proof. destruct (factor_fn_factored ty e); cbn [esize]; lia. Qed.

Theorem factor_expr_total ty e : exists e', factor_expr ty e = Some e'.
Proof.
  unfold factor_expr. apply map_top_down_total; [|lia].
  intros x. eexists; split; [reflexivity|]. apply factor_fn_size.
Qed.

Section FactorSem.
Variable G : grammar.
Variable extras : bool.
Variable uprop : name -> option (N -> bool).
Variable w : list byte.
Variable Inv : state_inv.
Hypothesis HP : preserved G extras uprop w (fun _ => True) Inv.
Notation equiv := (equiv G extras uprop w Inv).

Lemma body_atom_atomic ty a : atomic_ty ty = true -> body_atom ty a -> atom_eqb a NonAtomic = false.
Proof. destruct ty; cbn; try discriminate; intros _ ->; reflexivity. Qed.

Lemma factor_fn_equiv ty a e : body_atom ty a -> equiv a e (factor_fn ty e).
Proof.
  intros BA. destruct (factor_fn_factored ty e).
  - apply equiv_refl.
  - apply factor_common.
  - apply factor_opt. eapply body_atom_atomic; eauto.
  - apply factor_absorb.
Qed.

Theorem factor_expr_equiv ty a e e' : body_atom ty a -> factor_expr ty e = Some e' -> equiv a e e'.
Proof.
  unfold factor_expr. intros BA H.
  apply (map_top_down_equiv G extras uprop w (fun _ => True) Inv HP a (fun x => Some (factor_fn ty x))) in H.
  - tauto.
  - intros x y _ [= <-]. split; [now apply factor_fn_equiv|apply Forall_True].
  - apply Forall_True.
Qed.
End FactorSem.

Theorem factor_grammar G G' extras uprop w : map_rules factor_rule G = Some G' ->
  forall a emit j p sg res, bs G' extras uprop w a emit j p sg res <-> bs G extras uprop w a emit j p sg res.
Proof.
  intros H. apply (pass_iff_plain (fun r => factor_expr (rty r) (rexpr r))); [exact H|].
  intros Gx r e' a E BA. eapply factor_expr_equiv; eauto using preserved_True.
Qed.
