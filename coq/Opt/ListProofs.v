(* The lister rewrite `(l1 ~ l2)* ~ l1  =>  l1 ~ (l2 ~ l1)*` is NOT meaning-preserving: refuted on Layer S by
   evaluation.  What can be said: where the rewrite does not fire the pass is the identity.                 *)
From Coq Require Import List Arith NArith ZArith Bool String Lia.
Require Import PV.Peg.AstFacts.
Import ListNotations.
Require Import PV.Comb.PState PV.Comb.Bytes PV.Iter.Queue PV.Peg.Ast PV.Peg.Spec PV.Opt.MapExpr PV.Opt.MapExprProofs PV.Opt.List.

(* r = { ("a" ~ "b")* ~ "a" } on "abab" *)
Definition lister_G : grammar :=
  [{| rname := nm "r"; rty := RNormal; rexpr := ESeq (ERep (ESeq (EStr (nm "a")) (EStr (nm "b")))) (EStr (nm "a")) |}].
Definition lister_input : list byte := nm "abab".

Theorem lister_refuted :
  exists G G' w fuel, map_rules list_rule G = Some G' /\
    eval G false (fun _ => None) w fuel NonAtomic true (EIdent (nm "r")) 0 [] = SFail /\
    eval G' false (fun _ => None) w fuel NonAtomic true (EIdent (nm "r")) 0 [] = SMatch 3 [] [Node 0 None 0 3 []].
Proof.
  exists lister_G, [{| rname := nm "r"; rty := RNormal; rexpr := ESeq (EStr (nm "a")) (ERep (ESeq (EStr (nm "b")) (EStr (nm "a")))) |}],
         lister_input, 20.
  split; [vm_compute; reflexivity|]. split; vm_compute; reflexivity.
Qed.

(* the same with grammar-extras (the rewrite does not depend on the feature set) *)
Theorem lister_refuted_extras :
  exists G G' w fuel, map_rules list_rule G = Some G' /\
    eval G true (fun _ => None) w fuel NonAtomic true (EIdent (nm "r")) 0 [] = SFail /\
    (exists p sg f, eval G' true (fun _ => None) w fuel NonAtomic true (EIdent (nm "r")) 0 [] = SMatch p sg f).
Proof.
  exists lister_G, [{| rname := nm "r"; rty := RNormal; rexpr := ESeq (EStr (nm "a")) (ERep (ESeq (EStr (nm "b")) (EStr (nm "a")))) |}],
         lister_input, 20.
  split; [vm_compute; reflexivity|]. split; [vm_compute; reflexivity|]. eexists _, _, _. vm_compute. reflexivity.
Qed.

Lemma expr_eqb_refl : forall e, expr_eqb e e = true.
Proof.
  assert (SS : forall l, strs_eqb l l = true) by (induction l; cbn; auto; now rewrite str_eqb_refl).
  induction e; cbn [expr_eqb]; rewrite ?str_eqb_refl, ?SS, ?N.eqb_refl, ?Z.eqb_refl, ?IHe, ?IHe1, ?IHe2; auto.
  destruct j; cbn; auto using Z.eqb_refl.
Qed.

Lemma lister_identity G : lister_applies G = false -> map_rules list_rule G = Some G.
Proof.
  induction G as [|r G IH]; cbn [lister_applies existsb map_rules]; [reflexivity|].
  intros H. apply orb_false_iff in H. destruct H as [H1 H2]. unfold lister_applies_rule in H1.
  unfold list_rule at 1. unfold with_expr. destruct (list_expr (rexpr r)) as [e|]; [|discriminate].
  apply negb_false_iff in H1. apply expr_eqb_eq in H1. subst e. cbn [option_map obind].
  unfold lister_applies in IH. rewrite (IH H2). cbn [obind]. destruct r; reflexivity.
Qed.
