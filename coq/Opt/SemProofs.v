(* Adequacy of the big-step presentation (Sem.v) for Peg.Spec.eval:
     bs_sound    : a derivation gives a fuel from which on `eval` (and the loop helpers) return that definite result;
     bs_complete : a definite result of `eval` at any fuel has a derivation;
   hence bs is a function (bs_deterministic) and `evaluates` (exists fuel, eval .. = r definite) coincides with bs. *)
From Coq Require Import List Arith NArith ZArith Bool String Lia.
Import ListNotations.
Require Import PV.Comb.PState PV.Comb.Bytes PV.Iter.Queue PV.Peg.Ast PV.Peg.Spec PV.Peg.SpecFacts PV.Opt.Sem.

Section Adequacy.
Variable G : grammar.
Variable extras : bool.
Variable uprop : name -> option (N -> bool).
Variable w : list byte.

Notation eval := (eval G extras uprop w).
Notation bs := (bs G extras uprop w).
Notation run := (run G).
Notation WS := (nm "WHITESPACE").
Notation CM := (nm "COMMENT").

Lemma one_char_definite ok p sg : one_char w ok p sg <> SFuel.
Proof. unfold one_char. destruct (char_here w p) as [[c n]|]; [destruct (ok c)|]; discriminate. Qed.

Lemma not_calls n : calls_rule G n = false -> builtin_name n = true \/ find_rule G n = None.
Proof.
  unfold calls_rule. intros H. apply andb_false_iff in H. destruct H as [H|H].
  - left. now apply negb_false_iff in H.
  - right. unfold has_rule in H. destruct (find_rule G n); [discriminate|reflexivity].
Qed.

(* a leaf is evaluated within one unit of fuel, and looks at the grammar only for the id of EOI and for the absence of a rule *)
Lemma eval_leaf_in G2 n a emit e p sg : leaf G e = true ->
  rule_id G2 (nm "EOI") = rule_id G (nm "EOI") -> (forall x, find_rule G x = None -> find_rule G2 x = None) ->
  eval (S n) a emit e p sg = Spec.eval G2 extras uprop w 1 a emit e p sg.
Proof.
  destruct e; cbn [leaf]; try discriminate; intros H Hid Hn; cbn [Spec.eval]; try reflexivity.
  apply negb_true_iff in H. apply not_calls in H. unfold builtin_name in H. rewrite Hid.
  repeat match goal with |- (if ?c then _ else _) = _ => destruct c; [reflexivity|] end.
  destruct (ascii_builtin n0); [reflexivity|].
  destruct H as [H|H]; [cbn in H; discriminate|]. rewrite H, (Hn _ H). reflexivity.
Qed.

Lemma eval_leaf n a emit e p sg : leaf G e = true -> eval (S n) a emit e p sg = eval 1 a emit e p sg.
Proof. intros L. now apply eval_leaf_in. Qed.

Lemma leaf_definite a emit e p sg : leaf G e = true -> definite (eval 1 a emit e p sg).
Proof.
  unfold definite. destruct e; cbn [leaf]; try discriminate; intros H; cbn [Spec.eval].
  - destruct (lit w s p); discriminate.
  - destruct (_ && _); discriminate.
  - apply one_char_definite.
  - apply negb_true_iff in H. apply not_calls in H. unfold builtin_name in H.
    repeat match goal with |- (if ?c then _ else _) <> _ => destruct c end;
      try (destruct (Nat.eqb _ _); discriminate);
      try (destruct sg as [|top rest]; [discriminate|]; try destruct (lit w top p); discriminate);
      try (destruct (lit_all w sg p); discriminate).
    + destruct (lit w [10%N] p); [discriminate|]. destruct (lit w [13%N; 10%N] p); [discriminate|]. destruct (lit w [13%N] p); discriminate.
    + destruct (ascii_builtin n); [apply one_char_definite|].
      destruct H as [H|H]; [cbn in H; discriminate|]. rewrite H.
      destruct (uprop n); [apply one_char_definite|discriminate].
  - destruct (norm_idx i _); [|discriminate]. destruct (match j with Some _ => _ | None => _ end); [|discriminate].
    destruct (Nat.leb _ _); [discriminate|]. destruct (lit_all _ _ _); discriminate.
Qed.

Lemma eval_call k a emit n r p sg : calls_rule G n = true -> find_rule G n = Some r ->
  eval (S k) a emit (EIdent n) p sg =
  wrap_call (fst (rule_mode (is_special n) (rty r) a emit)) (rule_id G n) p
            (eval k (snd (rule_mode (is_special n) (rty r) a emit)) emit (rexpr r) p sg).
Proof.
  unfold calls_rule, builtin_name. intros H F. apply andb_true_iff in H. destruct H as [H _]. apply negb_true_iff in H.
  repeat (apply orb_false_iff in H; destruct H as [H ?]).
  cbn [Spec.eval].
  repeat match goal with E : str_eqb n ?x = false |- _ => rewrite E; clear E end.
  destruct (ascii_builtin n); [discriminate|]. rewrite F.
  destruct (rule_mode _ _ _ _) as [tk a2]. cbn [fst snd]. unfold wrap_call.
  destruct (Spec.eval _ _ _ _ _ _ _ _ _ _); reflexivity.
Qed.

Lemma cw_unit_mono e1 e2 n m a emit : ext_ev e1 e2 -> n <= m -> ext_unit (cw_unit e1 n a emit) (cw_unit e2 m a emit).
Proof.
  intros HE Hm p sg r H Hr. unfold cw_unit in *.
  destruct (e1 a emit (EIdent CM) p sg) as [p2 sg2 f2| |] eqn:E1; try congruence.
  - rewrite (HE _ _ _ _ _ _ E1) by discriminate. revert H Hr. now apply many_mono.
  - rewrite (HE _ _ _ _ _ _ E1) by discriminate. exact H.
Qed.

Lemma run_mono_gen e1 e2 n m a emit j p sg r : ext_ev e1 e2 -> n <= m ->
  run e1 n a emit j p sg = r -> r <> SFuel -> run e2 m a emit j p sg = r.
Proof.
  intros HE Hm. destruct j; cbn [Sem.run].
  - apply HE.
  - now apply skip_mono.
  - now apply many_mono.
  - apply loop_mono; auto. now apply cw_unit_mono.
  - now apply rep_from_mono.
Qed.

Lemma loop_S n u p sg acc :
  loop (S n) u p sg acc = match u p sg with SMatch p' sg' f => loop n u p' sg' (acc ++ f) | SFail => SMatch p sg acc | SFuel => SFuel end.
Proof. reflexivity. Qed.

Lemma eval_rep1_x n a emit x p sg : negb extras = false ->
  eval (S n) a emit (ERepOnce x) p sg =
  match eval n a emit x p sg with SMatch p1 sg1 f1 => rep_from_with G (eval n) n a emit x p1 sg1 f1 | r => r end.
Proof. intros H. cbn [Spec.eval]. destruct extras; [reflexivity|discriminate]. Qed.
Lemma eval_rep1_d n a emit x p sg : negb extras = true -> eval (S n) a emit (ERepOnce x) p sg = eval n a emit (ESeq x (ERep x)) p sg.
Proof. intros H. cbn [Spec.eval]. destruct extras; [discriminate|reflexivity]. Qed.
Lemma eval_bounded n a emit e p sg : is_bounded e = true ->
  eval (S n) a emit e p sg = match unroll_node extras e with Some u => eval n a emit u p sg | None => SFail end.
Proof. destruct e; try discriminate; reflexivity. Qed.

Lemma bs_definite a emit j p sg res : bs a emit j p sg res -> definite res.
Proof.
  unfold definite. induction 1; try discriminate; try assumption; try (destruct res; cbn; congruence). now apply leaf_definite.
Qed.

(* the goal at every fuel S m beyond N *)
Ltac from N := exists (S N); intros [|m] Hm; [lia|]; cbn [Sem.run].
(* for expressions: the equations we hold, taken at m, rewrite the unfolded `eval (S m)` *)
Ltac fin N := from N; match goal with _ : _ <= S ?m |- _ => repeat match goal with E : forall k, _ <= k -> _ |- _ => specialize (E m ltac:(lia)) end end;
  cbn [Spec.eval];
  repeat (match goal with E : ?l = _ |- context [?l] => tryif is_var l then fail else rewrite E end; cbv iota beta).

Lemma bs_sound_from a emit j p sg res : bs a emit j p sg res -> exists n, forall m, n <= m -> run (eval m) m a emit j p sg = res.
Proof.
  induction 1;
    repeat match goal with IH : exists n, _ |- _ =>
      let n := fresh "fu" in let E := fresh "EQ" in destruct IH as [n E]; cbn [Sem.run] in E end.
  - (* leaf *) from 0. now apply eval_leaf.
  - (* call *) from fu. rewrite (eval_call m a emit n r p sg H H0). now rewrite EQ by lia.
  - (* seq_l *) fin fu. reflexivity.
  - (* seq *) fin (fu + fu0 + fu1). destruct res; reflexivity.
  - (* cho_l *) fin fu. reflexivity.
  - (* cho_r *) fin (fu + fu0). reflexivity.
  - (* opt *) fin fu. destruct res; reflexivity.
  - (* rep_0 *) fin fu. reflexivity.
  - (* rep *) fin (fu + fu0). reflexivity.
  - (* rep1x_0 *) from fu. rewrite eval_rep1_x by assumption. now rewrite EQ by lia.
  - (* rep1x *) from (fu + fu0). rewrite eval_rep1_x by assumption. rewrite EQ0 by lia. apply EQ; lia.
  - (* rep1d *) from fu. rewrite eval_rep1_d by assumption. apply EQ; lia.
  - (* bounded *) from fu. rewrite eval_bounded, H0 by assumption. apply EQ; lia.
  - (* bounded_none *) from 0. now rewrite eval_bounded, H0.
  - (* pos *) fin fu. destruct res; reflexivity.
  - (* neg *) fin fu. destruct res; reflexivity.
  - (* push *) fin fu. destruct res; reflexivity.
  - (* tag *) fin fu. destruct res; reflexivity.
  (* loops: one turn of `loop` at fuel S m; its unit is evaluated at S m, the remaining turns come from the equation at m by monotonicity *)
  - (* many_stop *) from fu. unfold many_with. now rewrite loop_S, EQ by lia.
  - (* many_step *) from (fu + fu0). unfold many_with. rewrite loop_S, EQ0 by lia.
    generalize (EQ m ltac:(lia)) (bs_definite _ _ _ _ _ _ H0). apply many_mono; [apply eval_mono|]; lia.
  - (* cw_stop *) from fu. rewrite loop_S. unfold cw_unit. now rewrite EQ by lia.
  - (* cw_step *) from (fu + fu0 + fu1). rewrite loop_S. unfold cw_unit at 1. rewrite EQ1, EQ0 by lia.
    generalize (EQ m ltac:(lia)) (bs_definite _ _ _ _ _ _ H1). apply loop_mono; [|lia]. apply cw_unit_mono; [apply eval_mono|]; lia.
  - (* rep_stop *) from (fu + fu0). unfold rep_from_with. rewrite loop_S. unfold rep_unit. now rewrite EQ0, EQ by lia.
  - (* rep_step *) from (fu + fu0 + fu1). unfold rep_from_with. rewrite loop_S. unfold rep_unit at 1. rewrite EQ1, EQ0 by lia.
    generalize (EQ m ltac:(lia)) (bs_definite _ _ _ _ _ _ H1). apply loop_mono; [|lia]. apply rep_unit_mono; [apply eval_mono|]; lia.
  - (* skip_atomic *) from 0. unfold skip_with. now rewrite H.
  - (* skip_none *) from 0. unfold skip_with. now rewrite H, H0, H1.
  - (* skip_ws *) from fu. unfold skip_with. rewrite H, H0, H1. apply EQ; lia.
  - (* skip_cm *) from fu. unfold skip_with. rewrite H, H0, H1. apply EQ; lia.
  - (* skip_both *) from (fu + fu0). unfold skip_with. rewrite H, H0, H1. cbn [negb]. rewrite EQ0 by lia. apply EQ; lia.
Qed.

Definition sound_at (a : atom) (emit : bool) (j : judg) (p : nat) (sg : list str) (res : sres) : Prop :=
  definite res /\ exists n, run (eval n) n a emit j p sg = res.

Theorem bs_sound a emit j p sg res : bs a emit j p sg res -> sound_at a emit j p sg res.
Proof. intros H. split; [exact (bs_definite _ _ _ _ _ _ H)|]. destruct (bs_sound_from _ _ _ _ _ _ H) as [n E]. exists n. now apply E. Qed.

Section Level.
Variable n : nat.
Hypothesis HE : forall a emit e p sg res, eval n a emit e p sg = res -> definite res -> bs a emit (JE e) p sg res.

Lemma many_complete k a emit nm0 : forall acc p sg res,
  many_with (eval n) k a emit nm0 p sg acc = res -> definite res -> bs a emit (JMany nm0 acc) p sg res.
Proof.
  unfold many_with, definite. induction k as [|k IH]; intros acc p sg res H D; [cbn in H; congruence|].
  rewrite loop_S in H. destruct (eval n a emit (EIdent nm0) p sg) as [p1 sg1 f1| |] eqn:E; [| |congruence].
  - eapply bs_many_step; [apply HE; [exact E|discriminate]|]. now apply IH.
  - subst res. apply bs_many_stop. apply HE; [exact E|discriminate].
Qed.

Lemma cw_complete k' a emit k : forall acc p sg res,
  loop k (cw_unit (eval n) k' a emit) p sg acc = res -> definite res -> bs a emit (JCW acc) p sg res.
Proof.
  unfold definite. induction k as [|k IH]; intros acc p sg res H D; [cbn in H; congruence|].
  rewrite loop_S in H. unfold cw_unit at 1 in H.
  destruct (eval n a emit (EIdent CM) p sg) as [p2 sg2 f2| |] eqn:E; [| |congruence].
  - destruct (many_with (eval n) k' a emit WS p2 sg2 f2) as [p3 sg3 f3| |] eqn:M; [| |congruence].
    + eapply bs_cw_step; [apply HE; [exact E|discriminate]|eapply many_complete; [exact M|discriminate]|]. now apply IH.
    + exfalso. revert M. apply loop_not_fail.
  - subst res. apply bs_cw_stop. apply HE; [exact E|discriminate].
Qed.

Lemma skip_complete k a emit p sg res : skip_with G (eval n) k a emit p sg = res -> definite res -> bs a emit JSkip p sg res.
Proof.
  unfold skip_with, definite. intros H D.
  destruct (atom_eqb a NonAtomic) eqn:A; cbn [negb] in H; [|subst res; now apply bs_skip_atomic].
  destruct (has_rule G WS) eqn:HW, (has_rule G CM) eqn:HC.
  - destruct (many_with (eval n) k a emit WS p sg []) as [p1 sg1 f1| |] eqn:M.
    + eapply bs_skip_both; auto; [eapply many_complete; [exact M|discriminate]|]. eapply cw_complete; [exact H|exact D].
    + exfalso. revert M. apply loop_not_fail.
    + congruence.
  - apply bs_skip_ws; auto. eapply many_complete; eauto.
  - apply bs_skip_cm; auto. eapply many_complete; eauto.
  - subst res. now apply bs_skip_none.
Qed.

Lemma rep_complete k' a emit x k : forall acc p sg res,
  loop k (rep_unit G (eval n) k' a emit x) p sg acc = res -> definite res -> bs a emit (JRep x acc) p sg res.
Proof.
  unfold definite. induction k as [|k IH]; intros acc p sg res H D; [cbn in H; congruence|].
  rewrite loop_S in H. unfold rep_unit at 1 in H.
  destruct (skip_with G (eval n) k' a emit p sg) as [p1 sg1 f1| |] eqn:S1; [| |congruence].
  - destruct (eval n a emit x p1 sg1) as [p2 sg2 f2| |] eqn:E; [| |congruence].
    + eapply bs_rep_step; [eapply skip_complete; [exact S1|discriminate]|apply HE; [exact E|discriminate]|]. now apply IH.
    + subst res. eapply bs_rep_stop; [eapply skip_complete; [exact S1|discriminate]|apply HE; [exact E|discriminate]].
  - exfalso. revert S1. apply skip_not_fail.
Qed.
End Level.

Theorem bs_complete : forall n a emit e p sg res, eval n a emit e p sg = res -> definite res -> bs a emit (JE e) p sg res.
Proof.
  unfold definite. induction n as [|n IH]; intros a emit e p sg res H D; [cbn in H; congruence|].
  destruct (leaf G e) eqn:L.
  { rewrite eval_leaf in H by assumption. subst res. now apply bs_leaf. }
  assert (SK := skip_complete n IH). assert (RP := rep_complete n IH).
  (* a sub-expression whose result the result of e is computed from *)
  assert (Sub : forall a emit x p sg, eval n a emit x p sg <> SFuel -> bs a emit (JE x) p sg (eval n a emit x p sg)) by (intros; now apply IH).
  destruct (is_bounded e) eqn:B.
  { rewrite eval_bounded in H by assumption. destruct (unroll_node extras e) as [u|] eqn:U.
    - eapply bs_bounded; eauto.
    - subst res. now apply bs_bounded_none. }
  destruct e; cbn [leaf is_bounded] in L, B; try discriminate.
  - (* EIdent: a rule call *)
    apply negb_false_iff in L. assert (C := L). unfold calls_rule in C. apply andb_true_iff in C. destruct C as [_ C].
    unfold has_rule in C. destruct (find_rule G n0) as [r|] eqn:F; [|discriminate].
    rewrite (eval_call n a emit n0 r p sg L F) in H. subst res. apply bs_call; auto.
    apply Sub. intros X. rewrite X in D. now apply D.
  - cbn [Spec.eval] in H. subst res. eapply bs_pos, Sub. intros X. rewrite X in D. now apply D.
  - cbn [Spec.eval] in H. subst res. eapply bs_neg, Sub. intros X. rewrite X in D. now apply D.
  - cbn [Spec.eval] in H.
    destruct (eval n a emit e1 p sg) as [p1 sg1 f1| |] eqn:E1; [| |congruence].
    + destruct (skip_with G (eval n) n a emit p1 sg1) as [p2 sg2 f2| |] eqn:E2; [| |congruence].
      * subst res. refine (bs_seq G extras uprop w a emit e1 e2 p sg p1 sg1 f1 p2 sg2 f2 _ _ _ _).
        -- apply IH; [exact E1|discriminate].
        -- eapply SK; [exact E2|discriminate].
        -- apply Sub. intros X. rewrite X in D. now apply D.
      * exfalso. revert E2. apply skip_not_fail.
    + subst res. apply bs_seq_l. apply IH; [exact E1|discriminate].
  - cbn [Spec.eval] in H.
    destruct (eval n a emit e1 p sg) as [p1 sg1 f1| |] eqn:E1; [| |congruence].
    + subst res. apply bs_cho_l. apply IH; [exact E1|discriminate].
    + apply bs_cho_r; [apply IH; [exact E1|discriminate]|now apply IH].
  - cbn [Spec.eval] in H. subst res. eapply bs_opt, Sub. intros X. rewrite X in D. now apply D.
  - cbn [Spec.eval] in H.
    destruct (eval n a emit e p sg) as [p1 sg1 f1| |] eqn:E1; [| |congruence].
    + eapply bs_rep; [apply IH; [exact E1|discriminate]|]. eapply RP; eauto.
    + subst res. apply bs_rep_0. apply IH; [exact E1|discriminate].
  - (* ERepOnce: a primitive with grammar-extras, x ~ x* without *)
    destruct (Bool.bool_dec (negb extras) false) as [X|X]; [|apply not_false_is_true in X].
    + rewrite eval_rep1_x in H by assumption.
      destruct (eval n a emit e p sg) as [p1 sg1 f1| |] eqn:E1; [| |congruence].
      * eapply bs_rep1x; [exact X|apply IH; [exact E1|discriminate]|]. eapply RP; eauto.
      * subst res. apply bs_rep1x_0; [exact X|]. apply IH; [exact E1|discriminate].
    + rewrite eval_rep1_d in H by assumption. apply bs_rep1d; [exact X|]. now apply IH.
  - cbn [Spec.eval] in H. subst res. eapply bs_push, Sub. intros X. rewrite X in D. now apply D.
  - cbn [Spec.eval] in H. subst res. eapply bs_tag, Sub. intros X. rewrite X in D. now apply D.
Qed.

Theorem bs_iff_evaluates a emit e p sg res : bs a emit (JE e) p sg res <-> evaluates G extras uprop w a emit e p sg res.
Proof.
  split.
  - intros H. destruct (bs_sound _ _ _ _ _ _ H) as [D [n E]]. exists n. split; assumption.
  - intros [n [E D]]. eapply bs_complete; eauto.
Qed.

Theorem bs_deterministic a emit j p sg r1 r2 : bs a emit j p sg r1 -> bs a emit j p sg r2 -> r1 = r2.
Proof.
  intros H1 H2. destruct (bs_sound_from _ _ _ _ _ _ H1) as [n1 E1]. destruct (bs_sound_from _ _ _ _ _ _ H2) as [n2 E2].
  rewrite <- (E1 (n1 + n2)), <- (E2 (n1 + n2)) by lia. reflexivity.
Qed.

End Adequacy.
