(* Algebraic laws of the documented semantics used by the optimizer passes, over the big-step presentation. *)
From Coq Require Import List Arith NArith ZArith Bool String Lia.
Import ListNotations.
Require Import PV.Comb.PState PV.Comb.Bytes PV.Iter.Queue PV.Peg.Ast PV.Peg.Spec PV.Opt.Sem PV.Opt.SemProofs PV.Opt.SemCong.

Section Laws.
Variable G : grammar.
Variable extras : bool.
Variable uprop : name -> option (N -> bool).
Variable w : list byte.

Notation bs := (bs G extras uprop w).

Lemma bs_res a emit j p sg r r' : bs a emit j p sg r -> r = r' -> bs a emit j p sg r'.
Proof. now intros H <-. Qed.

Lemma map_forest_fail g r : map_forest g r = SFail -> r = SFail.
Proof. destruct r; cbn; congruence. Qed.
Lemma map_forest_match g r p sg f : map_forest g r = SMatch p sg f -> exists f0, r = SMatch p sg f0 /\ f = g f0.
Proof. destruct r; cbn; try congruence. intros [= -> -> <-]. eauto. Qed.

(* inversion principles in a convenient form *)
Lemma seq_inv a emit l r p sg res : bs a emit (JE (ESeq l r)) p sg res ->
  (bs a emit (JE l) p sg SFail /\ res = SFail) \/
  (exists p1 sg1 f1 p2 sg2 f2 res', bs a emit (JE l) p sg (SMatch p1 sg1 f1) /\ bs a emit JSkip p1 sg1 (SMatch p2 sg2 f2) /\
     bs a emit (JE r) p2 sg2 res' /\ res = map_forest (fun f3 => f1 ++ f2 ++ f3) res').
Proof. intros H. inv H; [left; auto|right; repeat eexists; eauto]. Qed.

Lemma cho_inv a emit l r p sg res : bs a emit (JE (EChoice l r)) p sg res ->
  (exists p1 sg1 f1, bs a emit (JE l) p sg (SMatch p1 sg1 f1) /\ res = SMatch p1 sg1 f1) \/
  (bs a emit (JE l) p sg SFail /\ bs a emit (JE r) p sg res).
Proof. intros H. inv H; [left; eauto|right; auto]. Qed.

Lemma opt_inv a emit x p sg res : bs a emit (JE (EOpt x)) p sg res ->
  (exists p1 sg1 f1, bs a emit (JE x) p sg (SMatch p1 sg1 f1) /\ res = SMatch p1 sg1 f1) \/
  (bs a emit (JE x) p sg SFail /\ res = SMatch p sg []).
Proof.
  intros H. inv H.
  match goal with H5 : Sem.bs _ _ _ _ _ _ (JE x) _ _ ?r |- _ => pose proof (bs_definite _ _ _ _ _ _ _ _ _ _ H5) as D; destruct r end;
    [left; eauto|right; auto|now elim D].
Qed.

Lemma skip_atomic_inv a emit p sg res : atom_eqb a NonAtomic = false -> bs a emit JSkip p sg res -> res = SMatch p sg [].
Proof. intros A H. inv H; congruence. Qed.

(* a sequence in which the right operand has failed *)
Lemma bs_seq_r_fail a emit l r p sg p1 sg1 f1 p2 sg2 f2 :
  bs a emit (JE l) p sg (SMatch p1 sg1 f1) -> bs a emit JSkip p1 sg1 (SMatch p2 sg2 f2) -> bs a emit (JE r) p2 sg2 SFail ->
  bs a emit (JE (ESeq l r)) p sg SFail.
Proof. intros A B C. exact (bs_seq G extras uprop w a emit l r p sg p1 sg1 f1 p2 sg2 f2 SFail A B C). Qed.
Lemma bs_seq_ok a emit l r p sg p1 sg1 f1 p2 sg2 f2 p3 sg3 f3 :
  bs a emit (JE l) p sg (SMatch p1 sg1 f1) -> bs a emit JSkip p1 sg1 (SMatch p2 sg2 f2) -> bs a emit (JE r) p2 sg2 (SMatch p3 sg3 f3) ->
  bs a emit (JE (ESeq l r)) p sg (SMatch p3 sg3 (f1 ++ f2 ++ f3)).
Proof. intros A B C. exact (bs_seq G extras uprop w a emit l r p sg p1 sg1 f1 p2 sg2 f2 _ A B C). Qed.

Section WithInv.
Variable Inv : state_inv.
Notation equiv := (equiv G extras uprop w Inv).
Notation refines := (refines G extras uprop w Inv).

Lemma seq_assoc a x y z : equiv a (ESeq (ESeq x y) z) (ESeq x (ESeq y z)).
Proof.
  split; intros emit p sg res _ H.
  - destruct (seq_inv _ _ _ _ _ _ _ H) as [[H1 ->]|(p1 & sg1 & f1 & p2 & sg2 & f2 & res' & H1 & H2 & H3 & ->)].
    + destruct (seq_inv _ _ _ _ _ _ _ H1) as [[H2 _]|(pa & sga & fa & pb & sgb & fb & r' & A & B & C & E)].
      * now apply bs_seq_l.
      * symmetry in E. apply map_forest_fail in E. subst r'. eapply bs_seq_r_fail; eauto. now apply bs_seq_l.
    + destruct (seq_inv _ _ _ _ _ _ _ H1) as [[_ E]|(pa & sga & fa & pb & sgb & fb & r' & A & B & C & E)]; [discriminate|].
      symmetry in E. apply map_forest_match in E. destruct E as (fy & -> & ->).
      eapply bs_res; [eapply bs_seq; [exact A|exact B|eapply bs_seq; [exact C|exact H2|exact H3]]|].
      destruct res'; cbn; auto. now rewrite <- !app_assoc.
  - destruct (seq_inv _ _ _ _ _ _ _ H) as [[H1 ->]|(p1 & sg1 & f1 & p2 & sg2 & f2 & res' & H1 & H2 & H3 & ->)].
    + apply bs_seq_l. now apply bs_seq_l.
    + destruct (seq_inv _ _ _ _ _ _ _ H3) as [[H4 ->]|(pa & sga & fa & pb & sgb & fb & r' & A & B & C & ->)].
      * apply bs_seq_l. eapply bs_seq_r_fail; eauto.
      * eapply bs_res; [eapply bs_seq; [eapply bs_seq_ok; [exact H1|exact H2|exact A]|exact B|exact C]|].
        destruct r'; cbn; auto. now rewrite <- !app_assoc.
Qed.

Lemma cho_assoc a x y z : equiv a (EChoice (EChoice x y) z) (EChoice x (EChoice y z)).
Proof.
  split; intros emit p sg res _ H.
  - destruct (cho_inv _ _ _ _ _ _ _ H) as [(p1 & sg1 & f1 & H1 & ->)|[H1 H2]].
    + destruct (cho_inv _ _ _ _ _ _ _ H1) as [(pa & sga & fa & A & [= -> -> ->])|[A B]].
      * now apply bs_cho_l.
      * apply bs_cho_r; auto. now apply bs_cho_l.
    + destruct (cho_inv _ _ _ _ _ _ _ H1) as [(pa & sga & fa & A & E)|[A B]]; [discriminate|].
      apply bs_cho_r; auto. now apply bs_cho_r.
  - destruct (cho_inv _ _ _ _ _ _ _ H) as [(p1 & sg1 & f1 & H1 & ->)|[H1 H2]].
    + apply bs_cho_l. now apply bs_cho_l.
    + destruct (cho_inv _ _ _ _ _ _ _ H2) as [(pa & sga & fa & A & ->)|[A B]].
      * apply bs_cho_l. now apply bs_cho_r.
      * apply bs_cho_r; auto. now apply bs_cho_r.
Qed.


(* the factorizer's laws need that bs is a function *)
Ltac det := repeat match goal with
  | H1 : Sem.bs _ _ _ _ ?a ?e ?j ?p ?sg ?r1, H2 : Sem.bs _ _ _ _ ?a ?e ?j ?p ?sg ?r2 |- _ =>
      assert_fails (constr_eq r1 r2);
      let E := fresh "E" in pose proof (bs_deterministic _ _ _ _ _ _ _ _ _ _ _ H1 H2) as E; try discriminate E; first [injection E as ? ? ?; subst | subst]
  end.

Lemma factor_common a l r1 r2 : equiv a (EChoice (ESeq l r1) (ESeq l r2)) (ESeq l (EChoice r1 r2)).
Proof.
  split; intros emit p sg res _ H.
  - destruct (cho_inv _ _ _ _ _ _ _ H) as [(p1 & sg1 & f1 & H1 & ->)|[H1 H2]].
    + destruct (seq_inv _ _ _ _ _ _ _ H1) as [[_ E]|(pa & sga & fa & pb & sgb & fb & r' & A & B & C & E)]; [discriminate|].
      symmetry in E. apply map_forest_match in E. destruct E as (f0 & -> & ->).
      eapply bs_res; [eapply bs_seq; [exact A|exact B|apply bs_cho_l; exact C]|reflexivity].
    + destruct (seq_inv _ _ _ _ _ _ _ H1) as [[A _]|(pa & sga & fa & pb & sgb & fb & r' & A & B & C & E)].
      * destruct (seq_inv _ _ _ _ _ _ _ H2) as [[_ ->]|(pa' & sga' & fa' & pb' & sgb' & fb' & r'' & A' & B' & C' & ->)]; [now apply bs_seq_l|det].
      * symmetry in E. apply map_forest_fail in E. subst r'.
        destruct (seq_inv _ _ _ _ _ _ _ H2) as [[A' _]|(pa' & sga' & fa' & pb' & sgb' & fb' & r'' & A' & B' & C' & ->)]; [det|].
        det. det. eapply bs_seq; [exact A|exact B|]. now apply bs_cho_r.
  - destruct (seq_inv _ _ _ _ _ _ _ H) as [[H1 ->]|(p1 & sg1 & f1 & p2 & sg2 & f2 & res' & H1 & H2 & H3 & ->)].
    + apply bs_cho_r; now apply bs_seq_l.
    + destruct (cho_inv _ _ _ _ _ _ _ H3) as [(pa & sga & fa & A & ->)|[A B]].
      * apply bs_cho_l. eapply bs_seq_ok; eauto.
      * apply bs_cho_r; [eapply bs_seq_r_fail; eauto|eapply bs_seq; eauto].
Qed.

Lemma factor_opt a l1 l2 : atom_eqb a NonAtomic = false -> equiv a (EChoice (ESeq l1 l2) l1) (ESeq l1 (EOpt l2)).
Proof.
  intros NA. split; intros emit p sg res _ H.
  - destruct (cho_inv _ _ _ _ _ _ _ H) as [(p1 & sg1 & f1 & H1 & ->)|[H1 H2]].
    + destruct (seq_inv _ _ _ _ _ _ _ H1) as [[_ E]|(pa & sga & fa & pb & sgb & fb & r' & A & B & C & E)]; [discriminate|].
      symmetry in E. apply map_forest_match in E. destruct E as (f0 & -> & ->).
      eapply bs_res; [eapply bs_seq; [exact A|exact B|apply bs_opt; exact C]|reflexivity].
    + destruct (seq_inv _ _ _ _ _ _ _ H1) as [[A _]|(pa & sga & fa & pb & sgb & fb & r' & A & B & C & E)].
      * det. now apply bs_seq_l.
      * symmetry in E. apply map_forest_fail in E. subst r'. det.
        pose proof (skip_atomic_inv _ _ _ _ _ NA B) as [= -> -> ->].
        eapply bs_res; [eapply bs_seq; [exact A|exact B|apply bs_opt; exact C]|]. cbn. now rewrite app_nil_r.
  - destruct (seq_inv _ _ _ _ _ _ _ H) as [[H1 ->]|(p1 & sg1 & f1 & p2 & sg2 & f2 & res' & H1 & H2 & H3 & ->)].
    + apply bs_cho_r; [now apply bs_seq_l|assumption].
    + destruct (opt_inv _ _ _ _ _ _ H3) as [(pa & sga & fa & A & ->)|[A ->]].
      * apply bs_cho_l. eapply bs_seq_ok; eauto.
      * pose proof (skip_atomic_inv _ _ _ _ _ NA H2) as [= -> -> ->]. cbn. rewrite app_nil_r.
        apply bs_cho_r; [eapply bs_seq_r_fail; eauto|assumption].
Qed.

Lemma factor_absorb a l r : equiv a (EChoice l (ESeq l r)) l.
Proof.
  split; intros emit p sg res _ H.
  - destruct (cho_inv _ _ _ _ _ _ _ H) as [(p1 & sg1 & f1 & H1 & ->)|[H1 H2]]; [assumption|].
    destruct (seq_inv _ _ _ _ _ _ _ H2) as [[_ ->]|(pa & sga & fa & pb & sgb & fb & r' & A & B & C & ->)]; [assumption|det].
  - pose proof (bs_definite _ _ _ _ _ _ _ _ _ _ H) as D. destruct res; [now apply bs_cho_l| |now elim D].
    apply bs_cho_r; [assumption|now apply bs_seq_l].
Qed.

End WithInv.
End Laws.
