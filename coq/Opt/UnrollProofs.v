(* unroll preserves the documented meaning (bounded repetitions are defined by their unrolling; e+ is e ~ e* without
   grammar-extras and a primitive with it), and it returns normally for counts the grammar reader accepts.   *)
From Coq Require Import List Arith NArith ZArith Bool String Lia.
Import ListNotations.
Require Import PV.Comb.PState PV.Comb.Bytes PV.Iter.Queue PV.Peg.Ast PV.Peg.Spec PV.Opt.Sem PV.Opt.SemProofs PV.Opt.SemCong
  PV.Opt.SemTransfer PV.Opt.SemLaws PV.Opt.MapExpr PV.Opt.MapExprProofs PV.Opt.PassProofs PV.Opt.Unroll.

Section UnrollSem.
Variable ovf : bool.
Variable G : grammar.
Variable extras : bool.
Variable uprop : name -> option (N -> bool).
Variable w : list byte.
Variable Inv : state_inv.
Hypothesis HP : preserved G extras uprop w (fun _ => True) Inv.
Notation equiv := (equiv G extras uprop w Inv).
Notation bs := (bs G extras uprop w).

Lemma bounded_equiv a e u : is_bounded e = true -> unroll_node extras e = Some u -> equiv a e u.
Proof.
  intros B U. split; intros emit p sg res _ H.
  - inversion H; subst; clear H; try (cbn in B; discriminate B);
      try (match goal with L : leaf _ _ = true |- _ => destruct e; discriminate end); congruence.
  - eapply bs_bounded; eauto.
Qed.

Lemma reponce_equiv a x : extras = false -> equiv a (ERepOnce x) (ESeq x (ERep x)).
Proof.
  intros X. split; intros emit p sg res _ H.
  - inv H; try (rewrite X in *; discriminate). assumption.
  - apply bs_rep1d; [now rewrite X|assumption].
Qed.

Lemma unroll_fn_node e u : unroll_fn ovf extras e = Some u -> unroll_node extras e = Some u.
Proof. destruct e; cbn [unroll_fn]; auto; destruct (negb ovf || fits _); auto; discriminate. Qed.

Lemma unroll_node_equiv a e u : unroll_node extras e = Some u -> equiv a e u.
Proof.
  destruct (is_bounded e) eqn:B; [now apply bounded_equiv|].
  destruct e; try discriminate B; cbn [unroll_node]; try (intros [= <-]; apply equiv_refl).
  assert (K : forall v, (if extras then Some (ERepOnce e) else Some (ESeq e (ERep e))) = Some v ->
                 v = ERepOnce e \/ (extras = false /\ v = ESeq e (ERep e))) by (destruct extras; intros v [= <-]; auto).
  intros H. destruct (K _ H) as [->|[X ->]]; [apply equiv_refl|now apply reponce_equiv].
Qed.

Lemma unroll_fn_equiv a e u : unroll_fn ovf extras e = Some u -> equiv a e u.
Proof. intros H. now apply unroll_node_equiv, unroll_fn_node. Qed.

Theorem unroll_expr_equiv a e e' : unroll_expr ovf extras e = Some e' -> equiv a e e'.
Proof.
  unfold unroll_expr. intros H.
  apply (map_bottom_up_equiv G extras uprop w (fun _ => True) Inv HP a (unroll_fn ovf extras)) in H.
  - tauto.
  - intros x y _ E. split; [now apply unroll_fn_equiv|apply Forall_True].
  - apply Forall_True.
Qed.
End UnrollSem.

Theorem unroll_grammar ovf G G' extras uprop w : map_rules (unroll_rule ovf extras) G = Some G' ->
  forall a emit j p sg res, bs G' extras uprop w a emit j p sg res <-> bs G extras uprop w a emit j p sg res.
Proof.
  intros H. apply (pass_iff_plain (fun r => unroll_expr ovf extras (rexpr r))); [exact H|].
  intros Gx r e' a E _. eapply unroll_expr_equiv; eauto using preserved_True.
Qed.

(* no panic for counts as the grammar reader produces them: non-zero where required, below u32::MAX *)
Fixpoint counts_ok (e : expr) : bool :=
  match e with
  | ERepExact x n | ERepMax x n => counts_ok x && (0 <? n)%N && (n <? u32_max)%N
  | ERepMin x n => counts_ok x && (n + 1 <? u32_max)%N
  | ERepMinMax x _ n => counts_ok x && (0 <? n)%N && (n <? u32_max)%N
  | EPosPred x | ENegPred x | EOpt x | ERep x | ERepOnce x | EPush x | ENodeTag x _ => counts_ok x
  | ESeq a b | EChoice a b => counts_ok a && counts_ok b
  | _ => true
  end.

Lemma seq_of_nonempty l : l <> [] -> exists u, seq_of l = Some u.
Proof. destruct l as [|e r]; [congruence|]. intros _. apply seq_of_cons_some. Qed.

Lemma repeat_nonempty {A} (x : A) n : 0 < n -> repeat x n <> [].
Proof. destruct n; [lia|]. discriminate. Qed.

Theorem unroll_expr_total ovf extras e : counts_ok e = true -> exists e', unroll_expr ovf extras e = Some e'.
Proof.
  unfold unroll_expr.
  induction e; cbn [counts_ok map_bottom_up]; intros C;
    repeat (apply andb_true_iff in C; destruct C as [C ?]);
    try (cbn [obind unroll_fn unroll_node]; eexists; reflexivity);
    try (destruct (IHe C) as [y ->]; cbn [option_map obind unroll_fn unroll_node]);
    try (eexists; reflexivity).
  - destruct (IHe1 C) as [y1 ->]. destruct (IHe2 H) as [y2 ->]. cbn. eexists; reflexivity.
  - destruct (IHe1 C) as [y1 ->]. destruct (IHe2 H) as [y2 ->]. cbn. eexists; reflexivity.
  - destruct extras; eexists; reflexivity.
  - apply N.ltb_lt in H, H0. unfold fits. replace (n + 1 <=? u32_max)%N with true by (symmetry; apply N.leb_le; lia). rewrite orb_true_r.
    apply seq_of_nonempty. apply repeat_nonempty. lia.
  - apply N.ltb_lt in H. unfold fits. replace (n + 2 <=? u32_max)%N with true by (symmetry; apply N.leb_le; lia). rewrite orb_true_r.
    apply seq_of_nonempty. unfold repeatn. destruct (repeat y (N.to_nat n)); discriminate.
  - apply N.ltb_lt in H, H0. unfold fits. replace (n + 1 <=? u32_max)%N with true by (symmetry; apply N.leb_le; lia). rewrite orb_true_r.
    apply seq_of_nonempty. apply repeat_nonempty. lia.
  - apply N.ltb_lt in H, H0. unfold fits. replace (n + 1 <=? u32_max)%N with true by (symmetry; apply N.leb_le; lia). rewrite orb_true_r.
    apply seq_of_nonempty. unfold repeatn. intros E. apply app_eq_nil in E. destruct E as [E1 E2].
    assert (L : List.length (repeat y (Nat.min (N.to_nat m) (N.to_nat n))) + List.length (repeat (EOpt y) (N.to_nat n - N.to_nat m)) = 0)
      by (rewrite E1, E2; reflexivity).
    rewrite !repeat_length in L. lia.
Qed.
