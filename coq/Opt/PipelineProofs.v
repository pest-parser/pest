(* From the per-pass grammar theorems to the vocabulary of the C05 statement. *)
From Coq Require Import List Arith NArith ZArith Bool String Lia.
Require Import PV.Peg.AstFacts.
Import ListNotations.
Require Import PV.Comb.PState PV.Comb.Bytes PV.Comb.Utf8 PV.Iter.Queue PV.Peg.Ast PV.Peg.Spec
  PV.Opt.Sem PV.Opt.SemProofs PV.Opt.SemCong PV.Opt.MapExpr PV.Opt.MapExprProofs PV.Opt.PassProofs
  PV.Opt.Rotate PV.Opt.Skip PV.Opt.Unroll PV.Opt.Concat PV.Opt.Factor PV.Opt.List PV.Opt.Restore PV.Opt.Pipeline
  PV.Opt.RotateProofs PV.Opt.UnrollProofs PV.Opt.ConcatProofs PV.Opt.FactorProofs PV.Opt.ListProofs PV.Opt.Statement.
Require Import PV.Opt.Boundary PV.Opt.SkipProofs PV.Opt.SemTransfer PV.Opt.RestoreProofs.

Lemma same_meaning_refl extras G : same_meaning extras G G.
Proof. intros uprop w a emit e p sg r _ _ _ _. tauto. Qed.
Lemma same_meaning_trans extras G1 G2 G3 : same_meaning extras G1 G2 -> same_meaning extras G2 G3 -> same_meaning extras G1 G3.
Proof. intros H1 H2 uprop w a emit e p sg r Vw Ve B Vs. rewrite (H2 uprop w a emit e p sg r Vw Ve B Vs). now apply H1. Qed.

Lemma same_meaning_of_bs extras G G' :
  (forall uprop w a emit e p sg res, valid_utf8 w -> Forall valid_utf8 (estrs e) -> boundaryb w p = true -> Forall valid_utf8 sg ->
     (bs G' extras uprop w a emit (JE e) p sg res <-> bs G extras uprop w a emit (JE e) p sg res)) ->
  same_meaning extras G G'.
Proof. intros H uprop w a emit e p sg r Vw Ve B Vs. rewrite <- !bs_iff_evaluates. now apply H. Qed.

Theorem rotate_preserves extras G : pass_preserves extras 0 G.
Proof. intros ovf G' H. apply same_meaning_of_bs. intros. now apply (rotate_grammar G G'). Qed.

Theorem unroll_preserves extras G : pass_preserves extras 2 G.
Proof. intros ovf G' H. apply same_meaning_of_bs. intros. now apply (unroll_grammar ovf G G'). Qed.

Theorem concat_preserves extras G : literals_valid G -> pass_preserves extras 3 G.
Proof. intros V ovf G' H. apply same_meaning_of_bs. intros. now apply (concat_grammar G G'). Qed.

Theorem factor_preserves extras G : pass_preserves extras 4 G.
Proof. intros ovf G' H. apply same_meaning_of_bs. intros. now apply (factor_grammar G G'). Qed.

Theorem list_preserves_outside_class extras G : lister_applies G = false -> pass_preserves extras 5 G.
Proof.
  intros L ovf G' H. unfold apply_pass in H. change (map_rules (fun r => list_rule r) G) with (map_rules list_rule G) in H.
  rewrite (lister_identity G L) in H. injection H as <-. apply same_meaning_refl.
Qed.

(* skip on its own: the map is the grammar itself, as in verif_apply_pass *)

Lemma gvalid_map G : literals_valid G -> forall n body, map_get G n = Some body -> Forall valid_utf8 (estrs body).
Proof.
  intros V n body H. unfold map_get in H. destruct (find_rule G n) as [r|] eqn:F; [|discriminate]. injection H as <-.
  apply V. eapply proj1, AstFacts.find_rule_In; eauto.
Qed.

Theorem skip_step_preserves extras M G G' : literals_valid M -> literals_valid G -> agrees M G ->
  map_rules (skip_rule M) G = Some G' -> same_meaning extras G G'.
Proof.
  intros VM V A H. apply same_meaning_of_bs. intros uprop w a emit e p sg res Vw Ve B Vs.
  apply (skip_grammar M G G' extras uprop w Vw (gvalid_map M VM) V A H); [exact Ve|now split].
Qed.

Theorem skip_preserves extras G : valid_grammar G -> pass_preserves extras 1 G.
Proof. intros (V & N & _) ovf G' H. apply (skip_step_preserves extras G G G'); auto. now apply agrees_self. Qed.

Lemma rot_seq_strs l : forall r, estrs (rot_seq l r) = estrs l ++ estrs r.
Proof. induction l; intros r; cbn [rot_seq estrs]; auto. rewrite IHl1. cbn [estrs]. now rewrite app_assoc. Qed.
Lemma rot_cho_strs l : forall r, estrs (rot_cho l r) = estrs l ++ estrs r.
Proof. induction l; intros r; cbn [rot_cho estrs]; auto. rewrite IHl1. cbn [estrs]. now rewrite app_assoc. Qed.
Lemma rotate_internal_strs e : estrs (rotate_internal e) = estrs e.
Proof. destruct e; cbn [rotate_internal]; auto; [apply rot_seq_strs|apply rot_cho_strs]. Qed.

Lemma gvalid_step (F : rule -> option rule) G G' :
  (forall r r', F r = Some r' -> Forall valid_utf8 (estrs (rexpr r)) -> Forall valid_utf8 (estrs (rexpr r'))) ->
  literals_valid G -> map_rules F G = Some G' -> literals_valid G'.
Proof. exact (map_rules_In _ F G G'). Qed.

Lemma rotate_gvalid G G' : literals_valid G -> map_rules rotate_rule G = Some G' -> literals_valid G'.
Proof.
  apply gvalid_step. intros r r' H V. apply with_expr_inv in H. unfold rotate_expr in H.
  eapply (map_top_down_lits valid_utf8 (fun x => Some (rotate_internal x))); [|exact V|exact H].
  intros x y Vx [= <-]. now rewrite rotate_internal_strs.
Qed.

Lemma unroll_fn_strs ovf extras e u : unroll_fn ovf extras e = Some u -> Forall valid_utf8 (estrs e) -> Forall valid_utf8 (estrs u).
Proof. intros H. apply unroll_node_strs with (extras := extras). now apply unroll_fn_node in H. Qed.
Lemma unroll_gvalid ovf extras G G' : literals_valid G -> map_rules (unroll_rule ovf extras) G = Some G' -> literals_valid G'.
Proof.
  apply gvalid_step. intros r r' H V. apply with_expr_inv in H. unfold unroll_expr in H.
  eapply (map_bottom_up_lits valid_utf8 (unroll_fn ovf extras)); [|exact V|exact H].
  intros x y Vx Hxy. eapply unroll_fn_strs; eauto.
Qed.

Lemma pcs_rotate_fixed : forall fuel e, esize e < fuel -> pcs e -> map_top_down fuel (fun x => Some (rotate_internal x)) e = Some e.
Proof. apply pcs_fixed. intros e P. destruct e; try contradiction; try reflexivity. destruct e1; try contradiction; reflexivity. Qed.

Lemma agrees_after_rotate M G G' : map_rules rotate_rule G = Some G' -> agrees M G -> agrees M G'.
Proof.
  apply (agrees_after M (fun r => rotate_expr (rexpr r))). intros r e' E P.
  unfold rotate_expr in E. rewrite pcs_rotate_fixed in E by (auto; lia). congruence.
Qed.

Lemma map_rules_compose (f g : rule -> option rule) : forall G,
  map_rules (fun r => obind (f r) g) G = obind (map_rules f G) (map_rules g).
Proof.
  induction G as [|r G IH]; cbn [map_rules obind]; [reflexivity|].
  destruct (f r) as [r1|]; cbn [obind]; [|reflexivity]. rewrite IH.
  destruct (map_rules f G) as [G1|]; cbn [obind map_rules].
  - destruct (g r1); reflexivity.
  - destruct (g r1); reflexivity.
Qed.

Lemma optimize_ast_stages ovf extras G G6 : optimize_ast ovf extras G = Some G6 ->
  exists G1 G2 G3 G4 G5, map_rules rotate_rule G = Some G1 /\ map_rules (skip_rule G) G1 = Some G2 /\
    map_rules (unroll_rule ovf extras) G2 = Some G3 /\ map_rules concat_rule G3 = Some G4 /\ map_rules factor_rule G4 = Some G5 /\
    map_rules list_rule G5 = Some G6 /\ front5 ovf extras G = Some G5.
Proof.
  unfold optimize_ast, front5, ast_pipeline_rule, front5_rule. intros H.
  rewrite map_rules_compose in H. rewrite map_rules_compose.
  destruct (map_rules rotate_rule G) as [G1|] eqn:E1; cbn [obind] in *; [|discriminate].
  rewrite map_rules_compose in H. rewrite map_rules_compose.
  destruct (map_rules (skip_rule G) G1) as [G2|] eqn:E2; cbn [obind] in *; [|discriminate].
  rewrite map_rules_compose in H. rewrite map_rules_compose.
  destruct (map_rules (unroll_rule ovf extras) G2) as [G3|] eqn:E3; cbn [obind] in *; [|discriminate].
  rewrite map_rules_compose in H. rewrite map_rules_compose.
  destruct (map_rules concat_rule G3) as [G4|] eqn:E4; cbn [obind] in *; [|discriminate].
  rewrite map_rules_compose in H.
  change (map_rules (fun r4 => factor_rule r4) G4) with (map_rules factor_rule G4).
  destruct (map_rules factor_rule G4) as [G5|] eqn:E5; cbn [obind] in *; [|discriminate].
  change (map_rules (fun r5 => list_rule r5) G5) with (map_rules list_rule G5) in H.
  exists G1, G2, G3, G4, G5. repeat split; auto.
Qed.

Theorem pipeline_preserves_outside_class extras G : valid_grammar G -> (forall ovf, lister_class ovf extras G = false) -> pipeline_preserves extras G.
Proof.
  intros (V & N & _) L0 ovf G6 H. pose proof (L0 ovf) as L.
  destruct (optimize_ast_stages _ _ _ _ H) as (G1 & G2 & G3 & G4 & G5 & H1 & H2 & H3 & H4 & H5 & H6 & F5).
  unfold lister_class in L. rewrite F5 in L.
  assert (V1 := rotate_gvalid _ _ V H1).
  assert (A1 : agrees G G1) by (eapply agrees_after_rotate; eauto; now apply agrees_self).
  assert (V2 : literals_valid G2) by (eapply skip_gvalid; eauto; now apply gvalid_map).
  assert (V3 := unroll_gvalid _ _ _ _ V2 H3).
  eapply same_meaning_trans; [exact (rotate_preserves extras G ovf G1 H1)|].
  eapply same_meaning_trans; [exact (skip_step_preserves extras G G1 G2 V V1 A1 H2)|].
  eapply same_meaning_trans; [exact (unroll_preserves extras G2 ovf G3 H3)|].
  eapply same_meaning_trans; [exact (concat_preserves extras G3 V3 ovf G4 H4)|].
  eapply same_meaning_trans; [exact (factor_preserves extras G4 ovf G5 H5)|].
  exact (list_preserves_outside_class extras G5 L ovf G6 H6).
Qed.


Lemma to_optimized_noroe extras : forall e o, to_optimized extras e = Some o -> noroe o.
Proof.
  induction e; intros o H; cbn [to_optimized] in H; try (injection H as <-; exact I); try discriminate;
    try (destruct (to_optimized extras e) as [y|]; [|discriminate]; injection H as <-; cbn; now apply IHe).
  - destruct (to_optimized extras e1) as [y1|]; [|discriminate]. destruct (to_optimized extras e2) as [y2|]; [|discriminate].
    injection H as <-. cbn. split; [now apply IHe1|now apply IHe2].
  - destruct (to_optimized extras e1) as [y1|]; [|discriminate]. destruct (to_optimized extras e2) as [y2|]; [|discriminate].
    injection H as <-. cbn. split; [now apply IHe1|now apply IHe2].
  - destruct extras; [|discriminate]. destruct (to_optimized true e) as [y|]; [|discriminate]. injection H as <-. cbn. now apply IHe.
Qed.

Lemma map_orules_facts extras : forall G OG, map_orules (rule_to_optimized_rule extras) G = Some OG ->
  map oname OG = map rname G /\ (forall r, In r OG -> noroe (oexpr_of r)).
Proof.
  induction G as [|r G IH]; intros OG H; cbn [map_orules] in H.
  - injection H as <-. split; [reflexivity|intros r []].
  - unfold rule_to_optimized_rule in H at 1. destruct (to_optimized extras (rexpr r)) as [o|] eqn:E; [|discriminate]. cbn [option_map obind] in H.
    destruct (map_orules (rule_to_optimized_rule extras) G) as [OG'|]; [|discriminate]. cbn [obind] in H. injection H as <-.
    destruct (IH _ eq_refl) as [A B]. split; [cbn; now rewrite A|].
    intros q [<-|Hq]; [cbn; eapply to_optimized_noroe; eauto|now apply B].
Qed.

Theorem restorer_fixed extras G : valid_grammar G -> forall OG, to_optimized_rules extras true true false G = Some OG -> restorer_ok true true OG.
Proof.
  intros (_ & _ & U) OG H. unfold to_optimized_rules in H. destruct (map_orules (rule_to_optimized_rule extras) G) as [OG0|] eqn:E; [|discriminate].
  injection H as <-. destruct (map_orules_facts _ _ _ E) as [A B]. apply restorer_sound; [|exact B]. rewrite A. exact U.
Qed.
