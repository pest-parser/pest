(* Generic facts about the traversals, both seen as `map_children` around the node function: a traversal whose node
   function is semantics-preserving (equiv) is semantics-preserving; map_top_down with the fuel S (esize e) returns
   when the node function does not grow expressions.                                                          *)
From Coq Require Import List Arith NArith ZArith Bool String Lia.
Import ListNotations.
Require Import PV.Comb.PState PV.Comb.Bytes PV.Iter.Queue PV.Peg.Ast PV.Peg.AstFacts PV.Peg.Spec PV.Opt.Sem PV.Opt.SemProofs PV.Opt.SemCong PV.Opt.MapExpr.

(* what both traversals do below a node: map the immediate children, keep the constructor *)
Definition map_children (go : expr -> option expr) (e : expr) : option expr :=
  match e with
  | EPosPred x => option_map EPosPred (go x)
  | ENegPred x => option_map ENegPred (go x)
  | ESeq l r => obind (go l) (fun l' => obind (go r) (fun r' => Some (ESeq l' r')))
  | EChoice l r => obind (go l) (fun l' => obind (go r) (fun r' => Some (EChoice l' r')))
  | ERep x => option_map ERep (go x)
  | ERepOnce x => option_map ERepOnce (go x)
  | ERepExact x k => option_map (fun y => ERepExact y k) (go x)
  | ERepMin x k => option_map (fun y => ERepMin y k) (go x)
  | ERepMax x k => option_map (fun y => ERepMax y k) (go x)
  | ERepMinMax x k1 k2 => option_map (fun y => ERepMinMax y k1 k2) (go x)
  | EOpt x => option_map EOpt (go x)
  | EPush x => option_map EPush (go x)
  | ENodeTag x t => option_map (fun y => ENodeTag y t) (go x)
  | x => Some x
  end.

Lemma map_top_down_S n f e : map_top_down (S n) f e = obind (f e) (map_children (map_top_down n f)).
Proof. reflexivity. Qed.
Lemma map_bottom_up_eq f e : map_bottom_up f e = obind (map_children (map_bottom_up f) e) f.
Proof. destruct e; reflexivity. Qed.

Lemma obind_Some {A B} (o : option A) (k : A -> option B) y : obind o k = Some y -> exists x, o = Some x /\ k x = Some y.
Proof. destruct o; [eauto|discriminate]. Qed.
Lemma option_map_Some {A B} (k : A -> B) o y : option_map k o = Some y -> exists x, o = Some x /\ y = k x.
Proof. destruct o; [intros [= <-]; eauto|discriminate]. Qed.

Section MapSound.
Variable G : grammar.
Variable extras : bool.
Variable uprop : name -> option (N -> bool).
Variable w : list byte.
Variable Q : str -> Prop.
Variable Inv : state_inv.
Hypothesis HP : preserved G extras uprop w Q Inv.
Variable a : atom.
Variable f : expr -> option expr.

Notation equiv := (equiv G extras uprop w Inv a).
Definition SV (e : expr) : Prop := Forall Q (estrs e).
Hypothesis Hf : forall e e', SV e -> f e = Some e' -> equiv e e' /\ SV e'.

Lemma SV_app x y : SV x -> SV y -> Forall Q (estrs x ++ estrs y).
Proof. intros. apply Forall_app; auto. Qed.

(* equivalence is a congruence: the one place where the rules of SemCong (the database cong) are applied,
   constructor by constructor and in both directions *)
Lemma map_children_equiv go e e' :
  (forall x x', go x = Some x' -> esize x < esize e -> SV x -> equiv x x' /\ SV x') ->
  SV e -> map_children go e = Some e' -> equiv e e' /\ SV e'.
Proof.
  intros Hgo S H. destruct e; cbn [map_children] in H;
    try (injection H as <-; split; [apply equiv_refl|exact S]);
    try (apply option_map_Some in H as (y & M & ->); destruct (Hgo _ _ M ltac:(cbn [esize]; lia) S) as [[] Sy];
         split; [split; eauto with cong|exact Sy]).
  all: apply obind_Some in H as (y1 & M1 & H); apply obind_Some in H as (y2 & M2 & [= <-]); apply Forall_app in S as [S1 S2];
    destruct (Hgo _ _ M1 ltac:(cbn [esize]; lia) S1) as [[] ?], (Hgo _ _ M2 ltac:(cbn [esize]; lia) S2) as [[] ?];
    (split; [split; eauto with cong|now apply SV_app]).
Qed.

Theorem map_top_down_equiv : forall fuel e e', SV e -> map_top_down fuel f e = Some e' -> equiv e e' /\ SV e'.
Proof.
  induction fuel as [|n IH]; intros e e' S H; [discriminate|].
  rewrite map_top_down_S in H. apply obind_Some in H as (e1 & F & H). destruct (Hf _ _ S F) as [E1 S1].
  destruct (map_children_equiv _ _ _ (fun x x' M _ S => IH x x' S M) S1 H) as [E2 S2]. split; [eapply equiv_trans; eauto|exact S2].
Qed.

Theorem map_bottom_up_equiv : forall e e', SV e -> map_bottom_up f e = Some e' -> equiv e e' /\ SV e'.
Proof.
  assert (K : forall n e e', esize e < n -> SV e -> map_bottom_up f e = Some e' -> equiv e e' /\ SV e').
  { induction n as [|n IH]; intros e e' L S H; [lia|].
    rewrite map_bottom_up_eq in H. apply obind_Some in H as (e1 & M & F).
    destruct (map_children_equiv _ e e1 (fun x x' Mx Lx Sx => IH x x' ltac:(lia) Sx Mx) S M) as [E1 S1].
    destruct (Hf _ _ S1 F) as [E2 S2]. split; [eapply equiv_trans; eauto|exact S2]. }
  intros e e'. apply (K (S (esize e))). lia.
Qed.

End MapSound.

Lemma map_top_down_total (f : expr -> option expr) :
  (forall x, exists y, f x = Some y /\ esize y <= esize x) ->
  forall fuel e, esize e < fuel -> exists e', map_top_down fuel f e = Some e'.
Proof.
  intros Hf. induction fuel as [|n IH]; intros e Hs; [lia|]. cbn [map_top_down].
  destruct (Hf e) as [e1 [E1 L1]]. rewrite E1. cbn [obind].
  destruct e1; cbn [esize] in L1; try (eexists; reflexivity);
    try (destruct (IH e1 ltac:(lia)) as [y ->]; eexists; reflexivity).
  - destruct (IH e1_1 ltac:(lia)) as [y1 ->]. destruct (IH e1_2 ltac:(lia)) as [y2 ->]. eexists; reflexivity.
  - destruct (IH e1_1 ltac:(lia)) as [y1 ->]. destruct (IH e1_2 ltac:(lia)) as [y2 ->]. eexists; reflexivity.
Qed.

Lemma Forall_True {A} (l : list A) : Forall (fun _ => True) l.
Proof. induction l; constructor; auto. Qed.

Lemma strs_eqb_eq : forall a b, strs_eqb a b = true -> a = b.
Proof.
  induction a as [|x a IH]; intros [|y b]; cbn; try discriminate; auto.
  intros H. apply andb_true_iff in H. destruct H as [H1 H2]. apply str_eqb_eq in H1. f_equal; auto.
Qed.
Lemma expr_eqb_eq : forall a b, expr_eqb a b = true -> a = b.
Proof.
  induction a; intros b; destruct b; cbn [expr_eqb]; try discriminate; intros H;
    repeat (apply andb_true_iff in H; destruct H as [H ?]);
    repeat match goal with
    | E : str_eqb _ _ = true |- _ => apply str_eqb_eq in E
    | E : strs_eqb _ _ = true |- _ => apply strs_eqb_eq in E
    | E : N.eqb _ _ = true |- _ => apply N.eqb_eq in E
    | E : Z.eqb _ _ = true |- _ => apply Z.eqb_eq in E
    | E : expr_eqb _ _ = true |- _ => first [apply IHa in E | apply IHa1 in E | apply IHa2 in E]
    end; subst; try reflexivity.
  destruct j, j0; cbn in *; try discriminate; try reflexivity. apply Z.eqb_eq in H0. now subst.
Qed.

Section MapLits.
Variable Q : str -> Prop.
Variable f : expr -> option expr.
Notation SV := (fun e => Forall Q (estrs e)).
Hypothesis Hf : forall x y, SV x -> f x = Some y -> SV y.

Lemma map_children_lits go e e' :
  (forall x x', go x = Some x' -> esize x < esize e -> SV x -> SV x') -> SV e -> map_children go e = Some e' -> SV e'.
Proof.
  intros Hgo S H. destruct e; cbn [map_children] in H;
    try (injection H as <-; exact S);
    try (apply option_map_Some in H as (y & M & ->); exact (Hgo _ _ M ltac:(cbn [esize]; lia) S)).
  all: apply obind_Some in H as (y1 & M1 & H); apply obind_Some in H as (y2 & M2 & [= <-]); apply Forall_app in S as [S1 S2];
    apply Forall_app; split; [exact (Hgo _ _ M1 ltac:(cbn [esize]; lia) S1)|exact (Hgo _ _ M2 ltac:(cbn [esize]; lia) S2)].
Qed.

Lemma map_bottom_up_lits : forall e e', SV e -> map_bottom_up f e = Some e' -> SV e'.
Proof.
  assert (K : forall n e e', esize e < n -> SV e -> map_bottom_up f e = Some e' -> SV e').
  { induction n as [|n IH]; intros e e' L S H; [lia|].
    rewrite map_bottom_up_eq in H. apply obind_Some in H as (e1 & M & F). refine (Hf _ _ _ F).
    exact (map_children_lits _ e e1 (fun x x' Mx Lx Sx => IH x x' ltac:(lia) Sx Mx) S M). }
  intros e e'. apply (K (S (esize e))). lia.
Qed.

Lemma map_top_down_lits : forall fuel e e', SV e -> map_top_down fuel f e = Some e' -> SV e'.
Proof.
  induction fuel as [|n IH]; intros e e' S H; [discriminate|].
  rewrite map_top_down_S in H. apply obind_Some in H as (e1 & F & H).
  exact (map_children_lits _ _ _ (fun x x' M _ S => IH x x' S M) (Hf _ _ S F) H).
Qed.
End MapLits.
