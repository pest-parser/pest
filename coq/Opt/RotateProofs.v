(* rotate preserves the documented meaning: associativity of sequence (with the implicit skip between all
   adjacent elements) and of ordered choice.                                                              *)
From Coq Require Import List Arith NArith ZArith Bool String Lia.
Import ListNotations.
Require Import PV.Comb.PState PV.Comb.Bytes PV.Iter.Queue PV.Peg.Ast PV.Peg.Spec PV.Opt.Sem PV.Opt.SemProofs PV.Opt.SemCong
  PV.Opt.SemTransfer PV.Opt.SemLaws PV.Opt.MapExpr PV.Opt.MapExprProofs PV.Opt.PassProofs PV.Opt.Rotate.

Lemma rot_seq_size l : forall r, esize (rot_seq l r) = S (esize l + esize r).
Proof. induction l; intros r; cbn [rot_seq esize]; auto. rewrite IHl1. cbn [esize]. lia. Qed.
Lemma rot_cho_size l : forall r, esize (rot_cho l r) = S (esize l + esize r).
Proof. induction l; intros r; cbn [rot_cho esize]; auto. rewrite IHl1. cbn [esize]. lia. Qed.
Lemma rotate_internal_size e : esize (rotate_internal e) = esize e.
Proof. destruct e; cbn [rotate_internal]; auto; [apply rot_seq_size|apply rot_cho_size]. Qed.

Theorem rotate_expr_total e : exists e', rotate_expr e = Some e'.
Proof.
  unfold rotate_expr. apply map_top_down_total; [|lia].
  intros x. eexists; split; [reflexivity|]. rewrite rotate_internal_size. lia.
Qed.

Section RotateSem.
Variable G : grammar.
Variable extras : bool.
Variable uprop : name -> option (N -> bool).
Variable w : list byte.
Variable Inv : state_inv.
Hypothesis HP : preserved G extras uprop w (fun _ => True) Inv.
Notation equiv := (equiv G extras uprop w Inv).

Lemma rot_seq_equiv a l : forall r, equiv a (ESeq l r) (rot_seq l r).
Proof.
  induction l; intros r; cbn [rot_seq]; try apply equiv_refl.
  eapply equiv_trans; [apply seq_assoc|apply IHl1].
Qed.
Lemma rot_cho_equiv a l : forall r, equiv a (EChoice l r) (rot_cho l r).
Proof.
  induction l; intros r; cbn [rot_cho]; try apply equiv_refl.
  eapply equiv_trans; [apply cho_assoc|apply IHl1].
Qed.
Lemma rotate_internal_equiv a e : equiv a e (rotate_internal e).
Proof. destruct e; cbn [rotate_internal]; try apply equiv_refl; [apply rot_seq_equiv|apply rot_cho_equiv]. Qed.

Theorem rotate_expr_equiv a e e' : rotate_expr e = Some e' -> equiv a e e'.
Proof.
  unfold rotate_expr. intros H.
  apply (map_top_down_equiv G extras uprop w (fun _ => True) Inv HP a (fun x => Some (rotate_internal x))) in H.
  - tauto.
  - intros x y _ [= <-]. split; [apply rotate_internal_equiv|apply Forall_True].
  - apply Forall_True.
Qed.
End RotateSem.

Theorem rotate_grammar G G' extras uprop w : map_rules rotate_rule G = Some G' ->
  forall a emit j p sg res, bs G' extras uprop w a emit j p sg res <-> bs G extras uprop w a emit j p sg res.
Proof.
  intros H. apply (pass_iff_plain (fun r => rotate_expr (rexpr r))); [exact H|].
  intros Gx r e' a E _. eapply rotate_expr_equiv; eauto using preserved_True.
Qed.
