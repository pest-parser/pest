(* skip preserves the documented meaning: in an atomic rule, (!(s1 | .. | sn) ~ ANY)* - with rule names among the
   alternatives inlined through the map of the original rules - advances char by char to the first boundary at which
   one of the strings is a prefix, which is what Skip [s1..sn] is defined to do (Comb.Bytes.skip_until_basic; scan_here / scan_end / scan_next below). *)
From Coq Require Import List Arith NArith ZArith Bool String Lia.
Require Import PV.Peg.AstFacts.
Import ListNotations.
Require Import PV.Comb.PState PV.Comb.Bytes PV.Comb.Utf8 PV.Comb.Utf8b PV.Iter.Queue PV.Peg.Ast PV.Peg.Spec
  PV.Opt.Sem PV.Opt.SemProofs PV.Opt.SemCong PV.Opt.SemTransfer PV.Opt.SemLaws PV.Opt.MapExpr PV.Opt.MapExprProofs PV.Opt.PassProofs
  PV.Opt.Boundary PV.Opt.ConcatProofs PV.Opt.Skip PV.Opt.Statement.

(* the shape populate_choices accepts: a right-nested choice of strings and rule names *)
Fixpoint pcs (e : expr) : Prop :=
  match e with
  | EStr _ | EIdent _ => True
  | EChoice (EStr _) r | EChoice (EIdent _) r => pcs r
  | _ => False
  end.

(* what populate_choices computes: the strings of such a choice, rule names replaced by the strings of their bodies in M *)
Inductive inlines (M : grammar) : expr -> list str -> Prop :=
| in_str s : inlines M (EStr s) [s]
| in_call n body ss : map_get M n = Some body -> inlines M body ss -> inlines M (EIdent n) ss
| in_cho_str s r sr : inlines M r sr -> inlines M (EChoice (EStr s) r) (s :: sr)
| in_cho_call n body si r sr : map_get M n = Some body -> inlines M body si -> inlines M r sr ->
    inlines M (EChoice (EIdent n) r) (si ++ sr).

Lemma pc_inlines M : forall fuel e ch ss, populate_choices fuel M e ch = PcSkip ss -> exists ss0, ss = ch ++ ss0 /\ inlines M e ss0.
Proof.
  induction fuel as [|n IH]; intros e ch ss H; [discriminate|]. cbn [populate_choices] in H.
  destruct e; try discriminate.
  - injection H as <-. eexists. split; [reflexivity|constructor].
  - destruct (map_get M n0) as [body|] eqn:Hm; [|discriminate].
    destruct (IH _ _ _ H) as (ss0 & -> & Hb). eauto using inlines.
  - destruct e1; try discriminate.
    + destruct (IH _ _ _ H) as (ss0 & -> & Hb). exists (s :: ss0). split; [now rewrite <- app_assoc|now constructor].
    + destruct (map_get M n0) as [body|] eqn:Hm; [|discriminate].
      destruct (populate_choices n M body []) as [inl| |] eqn:E; try discriminate.
      destruct (IH _ _ _ E) as (si & -> & Hi). destruct (IH _ _ _ H) as (ss0 & -> & Hb).
      exists (si ++ ss0). split; [now rewrite <- app_assoc|eauto using inlines].
Qed.

Lemma inlines_pcs M e ss : inlines M e ss -> pcs e.
Proof. induction 1; cbn [pcs]; auto. Qed.

Lemma pcs_fixed f : (forall e, pcs e -> f e = Some e) -> forall fuel e, esize e < fuel -> pcs e -> map_top_down fuel f e = Some e.
Proof.
  intros Hf. induction fuel as [|n IH]; intros e L P; [lia|]. rewrite map_top_down_S, (Hf e P). cbn [obind].
  destruct e; cbn [pcs] in P; try contradiction; auto.
  destruct e1; try contradiction; cbn [esize] in L; cbn [map_children].
  - rewrite (IH (EStr s)), (IH e2) by (cbn; auto; lia). reflexivity.
  - rewrite (IH (EIdent n0)), (IH e2) by (cbn; auto; lia). reflexivity.
Qed.

Lemma pcs_skip_fixed M : forall fuel e, esize e < fuel -> pcs e -> map_top_down fuel (skip_fn M) e = Some e.
Proof. apply pcs_fixed. intros e P. destruct e; try contradiction; reflexivity. Qed.

Lemma skip_fn_inv M e e' : skip_fn M e = Some e' ->
  e' = e \/ exists c ss, e = ERep (ESeq (ENegPred c) (EIdent (nm "ANY"))) /\ inlines M c ss /\ e' = ESkip ss.
Proof.
  intros H. destruct e; try (injection H as <-; now left). cbn [skip_fn] in H.
  destruct e; try (injection H as <-; now left). destruct e1; try (injection H as <-; now left). destruct e2; try (injection H as <-; now left).
  destruct (str_eqb n (nm "ANY")) eqn:EA; [|injection H as <-; now left]. apply str_eqb_eq in EA. subst n.
  destruct (populate_choices (pc_fuel M e1) M e1 []) as [ss| |] eqn:P; [|injection H as <-; now left|discriminate].
  injection H as <-. right. destruct (pc_inlines _ _ _ _ _ P) as (ss0 & -> & I). eauto.
Qed.

Section SkipLits.
Variable M : grammar.
Hypothesis VM : forall n body, map_get M n = Some body -> Forall valid_utf8 (estrs body).

Lemma inlines_lits e ss : inlines M e ss -> Forall valid_utf8 (estrs e) -> Forall valid_utf8 ss.
Proof.
  induction 1; cbn [estrs app]; intros V; eauto.
  - inversion V; subst. constructor; auto.
  - apply Forall_app; split; eauto.
Qed.

(* literals of a Skip node come from the alternatives and the inlined rules *)
Lemma skip_fn_lits e e' : Forall valid_utf8 (estrs e) -> skip_fn M e = Some e' -> Forall valid_utf8 (estrs e').
Proof.
  intros V H. destruct (skip_fn_inv _ _ _ H) as [->|(c & ss & -> & I & ->)]; [exact V|].
  cbn [estrs] in *. rewrite app_nil_r in V. exact (inlines_lits _ _ I V).
Qed.
End SkipLits.

Section SkipSem.
Variable M : grammar.          (* the HashMap handed to the skipper: the rules before optimization *)
Variable G : grammar.          (* the grammar under which expressions are evaluated *)
Variable extras : bool.
Variable uprop : name -> option (N -> bool).
Variable w : list byte.
Hypothesis Vw : valid_utf8 w.

(* G agrees with M on every rule that populate_choices can inline, and such a name is really a rule call *)
Definition agrees : Prop := forall n body, map_get M n = Some body -> pcs body ->
  exists r, find_rule G n = Some r /\ rexpr r = body /\ builtin_name n = false.
Hypothesis HA : agrees.

Notation bs := (bs G extras uprop w).
Definition hits (ss : list str) (p : nat) : bool := existsb (fun s => prefixb s (skipn p w)) ss.

Lemma hits_app a b p : hits (a ++ b) p = hits a p || hits b p.
Proof. unfold hits. apply existsb_app. Qed.

(* what a choice of strings means under a look-ahead (emit = false) *)
Definition pc_meaning (e : expr) (ss : list str) : Prop :=
  forall a p sg, if hits ss p then exists q sg' f, bs a false (JE e) p sg (SMatch q sg' f) else bs a false (JE e) p sg SFail.

Lemma str_meaning s : pc_meaning (EStr s) [s].
Proof.
  intros a p sg. unfold hits. cbn [existsb]. rewrite orb_false_r.
  pose proof (bs_leaf G extras uprop w a false (EStr s) p sg eq_refl) as B. cbn [Spec.eval] in B. unfold lit in B.
  destruct (prefixb s (skipn p w)); eauto.
Qed.

Lemma call_meaning n body ss : map_get M n = Some body -> pcs body -> pc_meaning body ss -> pc_meaning (EIdent n) ss.
Proof.
  intros Hm P HB a p sg. destruct (HA _ _ Hm P) as (r & F & <- & NB).
  assert (C : calls_rule G n = true) by (unfold calls_rule, has_rule; now rewrite NB, F).
  specialize (HB (snd (rule_mode (is_special n) (rty r) a false)) p sg).
  destruct (hits ss p).
  - destruct HB as (q & sg' & f & HB). pose proof (bs_call G extras uprop w a false n r p sg _ C F HB) as B. cbn in B. eauto.
  - exact (bs_call G extras uprop w a false n r p sg _ C F HB).
Qed.

Lemma cho_meaning l r sl sr : pc_meaning l sl -> pc_meaning r sr -> pc_meaning (EChoice l r) (sl ++ sr).
Proof.
  intros Hl Hr a p sg. rewrite hits_app. specialize (Hl a p sg). specialize (Hr a p sg).
  destruct (hits sl p); cbn [orb].
  - destruct Hl as (q & sg' & f & B). exists q, sg', f. now apply bs_cho_l.
  - destruct (hits sr p).
    + destruct Hr as (q & sg' & f & B). exists q, sg', f. now apply bs_cho_r.
    + now apply bs_cho_r.
Qed.

Lemma inlines_meaning e ss : inlines M e ss -> pc_meaning e ss.
Proof.
  induction 1.
  - apply str_meaning.
  - eapply call_meaning; eauto using inlines_pcs.
  - apply (cho_meaning (EStr s) r [s] sr); [apply str_meaning|assumption].
  - apply cho_meaning; [eapply call_meaning; eauto using inlines_pcs|assumption].
Qed.

Lemma from_skip ss : forall k from count, (forall i, i < k -> hit w ss (from + i) = false) -> k <= count ->
  skip_until_basic_from w ss from count = skip_until_basic_from w ss (from + k) (count - k).
Proof.
  induction k as [|k IH]; intros from count H L.
  - now rewrite Nat.add_0_r, Nat.sub_0_r.
  - destruct count as [|count]; [lia|]. cbn [skip_until_basic_from]. fold (hit w ss from).
    rewrite <- (Nat.add_0_r from) at 1. rewrite (H 0) by lia.
    rewrite (IH (S from) count); [f_equal; lia| |lia]. intros i Hi. replace (S from + i) with (from + S i) by lia. apply H. lia.
Qed.

Lemma inside_char q c l' i : q <= List.length w -> skipn q w = encode c ++ l' -> scalar c -> 0 < i < List.length (encode c) ->
  boundaryb w (q + i) = false.
Proof.
  intros Lq E Hc Hi. rewrite <- (firstn_skipn q w), E. rewrite boundaryb_app_ge; rewrite firstn_length_le by lia; [|lia].
  replace (q + i - q) with i by lia. apply boundaryb_inside; [now apply scalar_lt|exact Hi].
Qed.

(* the scan started on a boundary: stop here on a hit or at the end, otherwise go on behind the char *)
Lemma scan_here ss q : boundaryb w q = true -> hits ss q = true -> skip_until_basic w q ss = q.
Proof.
  intros B H. unfold skip_until_basic. pose proof (boundaryb_le _ _ B) as L.
  destruct (List.length w - q) as [|k] eqn:E; cbn [skip_until_basic_from]; [lia|]. unfold hits in H. now rewrite B, H.
Qed.
Lemma scan_end ss : skip_until_basic w (List.length w) ss = List.length w.
Proof. unfold skip_until_basic. now rewrite Nat.sub_diag. Qed.
Lemma scan_next ss q c l' : boundaryb w q = true -> hits ss q = false -> skipn q w = encode c ++ l' -> scalar c ->
  skip_until_basic w q ss = skip_until_basic w (q + List.length (encode c)) ss.
Proof.
  intros B H E Hc. pose proof (boundaryb_le _ _ B) as L. unfold skip_until_basic.
  assert (Ln : List.length (encode c) <= List.length w - q).
  { assert (X : List.length (skipn q w) = List.length (encode c ++ l')) by now rewrite E. rewrite skipn_length, app_length in X. lia. }
  rewrite (from_skip ss (List.length (encode c)) q (List.length w - q)); [f_equal; lia| |exact Ln].
  intros i Hi. unfold hit. destruct i as [|i].
  - rewrite Nat.add_0_r. unfold hits in H. now rewrite H, andb_false_r.
  - rewrite (inside_char q c l' (S i)); auto; lia.
Qed.

Section Loop.
Variable c : expr.
Variable ss : list str.
Hypothesis Hc : pc_meaning c ss.
Notation ANY := (EIdent (nm "ANY")).
Notation X := (ESeq (ENegPred c) ANY).

Lemma neg_fail emit q sg : hits ss q = true -> bs Atomic emit (JE (ENegPred c)) q sg SFail.
Proof.
  intros H. specialize (Hc Atomic q sg). rewrite H in Hc. destruct Hc as (q' & sg' & f & B).
  exact (bs_neg G extras uprop w Atomic emit c q sg _ B).
Qed.
Lemma neg_ok emit q sg : hits ss q = false -> bs Atomic emit (JE (ENegPred c)) q sg (SMatch q sg []).
Proof. intros H. specialize (Hc Atomic q sg). rewrite H in Hc. exact (bs_neg G extras uprop w Atomic emit c q sg _ Hc). Qed.

Lemma any_at emit q sg : bs Atomic emit (JE ANY) q sg
  (match decode1 (skipn q w) with Some (_, n) => SMatch (q + n) sg [] | None => SFail end).
Proof.
  eapply bs_res; [now apply bs_leaf|]. cbn. unfold one_char, char_here. destruct (decode1 (skipn q w)) as [[ch n]|]; reflexivity.
Qed.

(* one turn from a boundary q: X fails where the scan stops; otherwise it moves to the next boundary, from where the scan goes on *)
Lemma x_turn emit q sg : boundaryb w q = true ->
  (bs Atomic emit (JE X) q sg SFail /\ skip_until_basic w q ss = q) \/
  (exists q', bs Atomic emit (JE X) q sg (SMatch q' sg []) /\ boundaryb w q' = true /\ q < q' /\
              skip_until_basic w q ss = skip_until_basic w q' ss).
Proof.
  intros B. destruct (hits ss q) eqn:H.
  - left. split; [apply bs_seq_l; now apply neg_fail|now apply scan_here].
  - destruct (char_at_valid w q Vw B) as [[E _]|(ch & l' & Hs & E & V' & _ & B')].
    + subst q. left. split; [|apply scan_end].
      eapply bs_seq_r_fail; [now apply neg_ok|now apply bs_skip_atomic|]. eapply bs_res; [apply any_at|]. now rewrite skipn_all.
    + right. exists (q + List.length (encode ch)). split; [|split; [exact B'|split; [pose proof (encode_length ch); lia|now apply (scan_next ss q ch l')]]].
      eapply bs_res; [eapply bs_seq_ok; [now apply neg_ok|now apply bs_skip_atomic|]|reflexivity].
      eapply bs_res; [apply any_at|]. rewrite E, decode1_encode_scalar by assumption. reflexivity.
Qed.

Lemma rep_scan emit sg acc : forall k q, List.length w - q <= k -> boundaryb w q = true ->
  bs Atomic emit (JRep X acc) q sg (SMatch (skip_until_basic w q ss) sg acc).
Proof.
  induction k as [|k IH]; intros q Lk B; (destruct (x_turn emit q sg B) as [[F ->]|(q' & S & B' & L & ->)];
    [eapply bs_rep_stop; [now apply bs_skip_atomic|exact F]|]); pose proof (boundaryb_le _ _ B') as Lq'; [lia|].
  eapply bs_rep_step; [now apply bs_skip_atomic|exact S|]. rewrite app_nil_r. apply IH; [lia|exact B'].
Qed.

Lemma skip_law emit p sg : boundaryb w p = true ->
  bs Atomic emit (JE (ERep X)) p sg (SMatch (skip_until_basic w p ss) sg []).
Proof.
  intros B. destruct (x_turn emit p sg B) as [[F ->]|(q' & S & B' & L & ->)]; [now apply bs_rep_0|].
  eapply bs_rep; [exact S|]. apply (rep_scan emit sg [] (List.length w)); [lia|exact B'].
Qed.

Theorem skip_equiv : equiv G extras uprop w (on_boundary w) Atomic (ERep X) (ESkip ss).
Proof.
  split; intros emit p sg res [B _] H.
  - pose proof (bs_deterministic _ _ _ _ _ _ _ _ _ _ _ H (skip_law emit p sg B)) as ->.
    eapply bs_res; [now apply bs_leaf|reflexivity].
  - apply (leaf_inv G extras uprop w) in H; [|reflexivity]. subst res. now apply skip_law.
Qed.
End Loop.

Hypothesis VG : forall n r, find_rule G n = Some r -> Forall valid_utf8 (estrs (rexpr r)).
Hypothesis VM : forall n body, map_get M n = Some body -> Forall valid_utf8 (estrs body).

Lemma skip_fn_equiv e e' : Forall valid_utf8 (estrs e) -> skip_fn M e = Some e' ->
  equiv G extras uprop w (on_boundary w) Atomic e e' /\ Forall valid_utf8 (estrs e').
Proof.
  intros V H. split; [|exact (skip_fn_lits M VM _ _ V H)].
  destruct (skip_fn_inv _ _ _ H) as [->|(c & ss & -> & I & ->)]; [apply equiv_refl|].
  apply skip_equiv. now apply inlines_meaning.
Qed.

Theorem skip_expr_equiv ty a e e' : body_atom ty a -> Forall valid_utf8 (estrs e) -> skip_expr M ty e = Some e' ->
  equiv G extras uprop w (on_boundary w) a e e' /\ Forall valid_utf8 (estrs e').
Proof.
  intros BA V H. unfold skip_expr in H. destruct (rtype_eqb ty RAtomic) eqn:T.
  - assert (a = Atomic) as -> by (destruct ty; try discriminate; exact BA).
    eapply (map_top_down_equiv G extras uprop w valid_utf8 (on_boundary w) (boundary_preserved G extras uprop w Vw VG) Atomic (skip_fn M)); eauto.
    intros x y Vx Hx. now apply skip_fn_equiv.
  - injection H as <-. split; [apply equiv_refl|exact V].
Qed.

End SkipSem.



Lemma agrees_self G : names_ok G -> agrees G G.
Proof.
  intros N n body Hm _. unfold map_get in Hm. destruct (find_rule G n) as [r|] eqn:F; [|discriminate]. injection Hm as <-.
  exists r. split; [reflexivity|]. split; [reflexivity|]. rewrite <- (proj2 (AstFacts.find_rule_In _ _ _ F)). apply N. eapply proj1, AstFacts.find_rule_In; eauto.
Qed.

Lemma agrees_after M (h : rule -> option expr) G G' :
  (forall r e', h r = Some e' -> pcs (rexpr r) -> e' = rexpr r) ->
  map_rules (fun r => with_expr r (h r)) G = Some G' -> agrees M G -> agrees M G'.
Proof.
  intros Hh H A n body Hm P. destruct (A n body Hm P) as (r & F & E & NB).
  pose proof (F2_find _ (fun r r' => with_expr_sig r _ r') _ _ (map_rules_F2 _ _ _ H) n) as X. rewrite F in X.
  destruct (find_rule G' n) as [r'|]; [|contradiction]. destruct X as [X _]. apply with_expr_inv in X.
  exists r'. split; [reflexivity|]. split; [|exact NB]. rewrite (Hh r _ X); congruence.
Qed.

Lemma agrees_after_skip M G G' : map_rules (skip_rule M) G = Some G' -> agrees M G -> agrees M G'.
Proof.
  apply (agrees_after M (fun r => skip_expr M (rty r) (rexpr r))). intros r e' E P.
  unfold skip_expr in E. destruct (rtype_eqb (rty r) RAtomic); [|congruence]. rewrite pcs_skip_fixed in E by (auto; lia). congruence.
Qed.

Lemma skip_gvalid M G G' : (forall n body, map_get M n = Some body -> Forall valid_utf8 (estrs body)) -> gvalid G ->
  map_rules (skip_rule M) G = Some G' -> gvalid G'.
Proof.
  intros VM V0 H0. refine (map_rules_In _ _ G G' _ V0 H0). intros r r' H V.
  apply with_expr_inv in H. unfold skip_expr in H. destruct (rtype_eqb (rty r) RAtomic); [|now injection H as <-].
  eapply (map_top_down_lits valid_utf8 (skip_fn M)); [|exact V|exact H].
  intros x y. now apply skip_fn_lits.
Qed.

Theorem skip_grammar M G G' extras uprop w : valid_utf8 w ->
  (forall n body, map_get M n = Some body -> Forall valid_utf8 (estrs body)) -> gvalid G -> agrees M G ->
  map_rules (skip_rule M) G = Some G' ->
  forall a emit j p sg res, jvalid valid_utf8 j -> on_boundary w p sg ->
    (bs G' extras uprop w a emit j p sg res <-> bs G extras uprop w a emit j p sg res).
Proof.
  intros Vw VM V A H a emit j p sg res.
  assert (V' := skip_gvalid _ _ _ VM V H). assert (A' := agrees_after_skip _ _ _ H A).
  assert (VGf : forall Gx, gvalid Gx -> forall n r, find_rule Gx n = Some r -> Forall valid_utf8 (estrs (rexpr r)))
    by (intros Gx Vx n r F; apply Vx; eapply proj1, AstFacts.find_rule_In; eauto).
  apply (pass_iff G G' extras uprop w valid_utf8 (on_boundary w) (fun r => skip_expr M (rty r) (rexpr r)) H);
    try (apply boundary_preserved; eauto); auto.
  all: intros r e' a0 Hin E BA; eapply skip_expr_equiv; eauto.
Qed.
