(* Pos/SpanLayoutProofs.v - Error::new_from_span + format shows the line number, the line text and
   a marker under the column (Spec.span_shows), for every string and ordered boundary pair outside
   the known classes K1..K4. *)
From Coq Require Import String.
From Coq Require Import List Arith NArith Bool Lia.
Import ListNotations.
Require Import PV.Pos.Model PV.Pos.ErrorFmt PV.Pos.Spec PV.Pos.BasicProofs PV.Pos.LineColProofs
               PV.Pos.LinesProofs PV.Pos.ErrorProofs PV.Pos.SpanProofs.
Open Scope list_scope.

Arguments Nat.sub : simpl never.
Arguments Nat.leb : simpl never.
Arguments Nat.ltb : simpl never.
Arguments Nat.eqb : simpl never.
Arguments Nat.max : simpl never.
Arguments len_utf8 : simpl never.
Arguments lit : simpl never.
Arguments dec : simpl never.
Arguments pad_left : simpl never.
Arguments display : simpl never.

Lemma no_lf_app x y : no_lf x -> no_lf y -> no_lf (x ++ y).
Proof. unfold no_lf. intros Hx Hy. now rewrite existsb_app, Hx, Hy. Qed.

Lemma no_lf_cons c x : is_lf c = false -> no_lf x -> no_lf (c :: x).
Proof. unfold no_lf. intros H1 H2. cbn [existsb]. now rewrite H1, H2. Qed.

Lemma no_lf_repeat c w : is_lf c = false -> no_lf (repeat c w).
Proof. intros H. induction w as [|w IH]; [reflexivity|]. now apply no_lf_cons. Qed.

Lemma no_lf_map {A} (f : A -> char) (x : list A) : (forall c, is_lf (f c) = false) -> no_lf (map f x).
Proof. intros H. induction x as [|c x IH]; [reflexivity|]. now apply no_lf_cons. Qed.

Lemma no_lf_filter f x : (forall c, f c = true -> is_lf c = false) -> no_lf (filter f x).
Proof.
  intros H. induction x as [|c x IH]; [reflexivity|]. cbn [filter].
  destruct (f c) eqn:E; [apply no_lf_cons; auto|exact IH].
Qed.

Lemma no_lf_dec n : no_lf (dec n).
Proof.
  unfold dec. generalize (S n) at 1. intros fuel. generalize (@nil char) (eq_refl : no_lf []).
  revert n. induction fuel as [|f IH]; intros n acc H; [exact H|]. cbn [dec_aux].
  assert (H' : no_lf ((48 + N.of_nat (Nat.modulo n 10))%N :: acc)).
  { apply no_lf_cons; [|exact H]. apply N.eqb_neq. unfold LF. lia. }
  destruct (Nat.eqb (Nat.div n 10) 0); [exact H'|apply IH; exact H'].
Qed.

Lemma no_lf_visualize x : no_lf (visualize_whitespace x).
Proof. apply no_lf_map. intros c. destruct (ceq c LF) eqn:E; [reflexivity|exact E]. Qed.

Lemma no_lf_strip x : no_lf (strip_crlf x).
Proof. apply no_lf_filter. intros c H. apply negb_true_iff, orb_false_iff in H. apply H. Qed.

Lemma no_lf_display vis x : no_lf (display vis x).
Proof. destruct vis; [apply no_lf_visualize|apply no_lf_strip]. Qed.

Lemma no_lf_tabkeep x : no_lf (map tabkeep x).
Proof. apply no_lf_map. intros c. unfold tabkeep. destruct (ceq c TAB); reflexivity. Qed.

Lemma no_lf_pad_left w t : no_lf t -> no_lf (pad_left w t).
Proof. intros H. apply no_lf_app; [apply no_lf_repeat; reflexivity|exact H]. Qed.

Lemma no_lf_no_crlf x : has_crlf x = false -> no_lf x.
Proof.
  unfold has_crlf, no_lf. induction x as [|c x IH]; [reflexivity|]. cbn [existsb]. intros H.
  apply orb_false_iff in H as [Hc Hx]. apply orb_false_iff in Hc as [Hc _].
  unfold is_lf at 1. now rewrite Hc, IH.
Qed.

(* what a row of the rendering is made of; literals and concrete chars by evaluation *)
Create HintDb nolf discriminated.
#[local] Hint Resolve no_lf_app no_lf_cons no_lf_repeat no_lf_dec no_lf_display no_lf_visualize
  no_lf_tabkeep no_lf_pad_left : nolf.
#[local] Hint Extern 1 (no_lf (lit _)) => reflexivity : nolf.
#[local] Hint Extern 1 (no_lf []) => reflexivity : nolf.
#[local] Hint Extern 1 (is_lf _ = false) => reflexivity : nolf.

Fixpoint join (rows : list str) : str :=
  match rows with
  | [] => []
  | r :: rs => match rs with [] => r | _ => r ++ NL ++ join rs end
  end.

Lemma split_rows_acc_row : forall r cur rest, no_lf r ->
  split_rows_acc cur (r ++ LF :: rest) = (rev cur ++ r) :: split_rows_acc [] rest.
Proof.
  induction r as [|c r IH]; intros cur rest H.
  - cbn [app split_rows_acc]. rewrite is_lf_LF. now rewrite app_nil_r.
  - unfold no_lf in H. cbn [existsb] in H. apply orb_false_iff in H as [Hc Hr].
    cbn [app split_rows_acc]. rewrite Hc. rewrite IH by exact Hr. cbn [rev]. now rewrite <- app_assoc.
Qed.

Lemma split_rows_acc_last : forall r cur, no_lf r -> split_rows_acc cur r = [rev cur ++ r].
Proof.
  induction r as [|c r IH]; intros cur H.
  - cbn [split_rows_acc]. now rewrite app_nil_r.
  - unfold no_lf in H. cbn [existsb] in H. apply orb_false_iff in H as [Hc Hr].
    cbn [split_rows_acc]. rewrite Hc. rewrite IH by exact Hr. cbn [rev]. now rewrite <- app_assoc.
Qed.

Lemma split_rows_join : forall rows, rows <> [] -> Forall no_lf rows -> split_rows (join rows) = rows.
Proof.
  induction rows as [|r rs IH]; intros Hne Hf; [congruence|]. inversion Hf as [|? ? Hr Hrs]; subst.
  cbn [join]. destruct rs as [|r2 rs'].
  - unfold split_rows. now rewrite split_rows_acc_last.
  - unfold split_rows, NL. cbn [app]. rewrite split_rows_acc_row by exact Hr. cbn [rev app].
    f_equal. apply IH; [discriminate|exact Hrs].
Qed.

(* format builds its text as one right-nested chain of pieces x1 ++ x2 ++ .. ++ xn: [pieces] reads
   such a chain as rows of pieces (convertible to it when the rows are given explicitly), and
   [pieces_join] regroups it row by row once, on variables *)
Fixpoint flat (r : list str) : str :=
  match r with [] => [] | x :: r' => match r' with [] => x | _ => x ++ flat r' end end.
Fixpoint flat_then (r : list str) (k : str) : str :=
  match r with [] => k | x :: r' => x ++ flat_then r' k end.
Fixpoint pieces (rows : list (list str)) : str :=
  match rows with
  | [] => []
  | r :: rs => match rs with [] => flat r | _ => flat_then r (NL ++ pieces rs) end
  end.

Lemma flat_then_app r k : flat_then r k = flat r ++ k.
Proof.
  induction r as [|x r IH]; [reflexivity|]. cbn [flat_then flat]. rewrite IH.
  destruct r; [reflexivity|apply app_assoc].
Qed.

Lemma pieces_join rows : pieces rows = join (map flat rows).
Proof.
  induction rows as [|r rs IH]; [reflexivity|]. cbn [pieces map join].
  destruct rs as [|r2 rs']; [reflexivity|]. now rewrite flat_then_app, IH.
Qed.

Lemma eqs_refl x : eqs x x = true.
Proof. induction x as [|c x IH]; [reflexivity|]. cbn [eqs]. now rewrite ceq_refl, IH. Qed.

Lemma eqs_app_prefix x a b : eqs (x ++ a) (x ++ b) = eqs a b.
Proof. induction x as [|c x IH]; [reflexivity|]. cbn [app eqs]. now rewrite ceq_refl, IH. Qed.

Lemma leading_sp_header w x : leading_sp (repeat SP w ++ lit "--> " ++ x) = w.
Proof. induction w as [|w IH]; [reflexivity|]. cbn [repeat app leading_sp]. now rewrite ceq_refl, IH. Qed.

Lemma length_sp_bar w : length (repeat SP w ++ lit " | ") = w + 3.
Proof. rewrite app_length, repeat_length. reflexivity. Qed.

Lemma firstn_prefix {A} (x y : list A) n : n = length x -> firstn n (x ++ y) = x.
Proof. intros ->. rewrite firstn_app, Nat.sub_diag, firstn_all. cbn [firstn]. apply app_nil_r. Qed.

Lemma skipn_prefix {A} (x y : list A) n : n = length x -> skipn n (x ++ y) = y.
Proof. intros ->. rewrite skipn_app, Nat.sub_diag, skipn_all. reflexivity. Qed.

Lemma last_snoc {A} (x : list A) c d : last (x ++ [c]) d = c.
Proof. apply last_last. Qed.

Lemma pad_left_exact t : pad_left (length t) t = t.
Proof. unfold pad_left. now rewrite Nat.sub_diag. Qed.

Lemma last_map {A B} (f : A -> B) l d : last (map f l) (f d) = f (last l d).
Proof. revert d. induction l as [|x l IH]; intros d; [reflexivity|]. cbn [map]. rewrite !last_cons_default. apply IH. Qed.


Lemma ends_lf_snoc m0 c : ends_lf (m0 ++ [c]) = is_lf c.
Proof.
  induction m0 as [|a m0 IH]; [reflexivity|]. cbn [app]. rewrite ends_lf_cons, IH.
  destruct m0; reflexivity.
Qed.

Lemma count_nl_zero x : count_nl x = 0 -> existsb is_lf x = false.
Proof.
  induction x as [|c x IH]; [reflexivity|]. rewrite count_nl_cons. cbn [existsb]. destruct (is_lf c); [lia|]. intros H. now apply IH.
Qed.


Lemma meet_valid p m q : Forall (fun r => slice (p ++ m ++ q) (fst r) (snd r) <> None) (meet_of p m q).
Proof. pose proof (lines_span_correct p m q) as H. unfold lines_span in H. eapply collect_valid. exact H. Qed.

Lemma head_text p r : text_of (p ++ r) (line_start p, line_end p r) = the_line p r.
Proof.
  destruct (the_line_decomp p r) as (p1 & q2 & _ & _ & Es & H1 & H2). unfold text_of. cbn [fst snd].
  rewrite Es, <- H1, <- H2. now rewrite slice_app3.
Qed.

(* a non-empty span text: line of its last char, and that char's column + 1 *)
Lemma end_lc_snoc p m0 c :
  end_lc (p ++ m0 ++ [c]) = (fst (spec_line_col p) + count_nl m0, 2 + length (after_last_nl (p ++ m0))).
Proof.
  rewrite app_assoc. unfold end_lc, spec_line_col. cbn [fst snd]. rewrite removelast_last, !count_nl_app.
  destruct (is_lf c) eqn:E.
  - apply ceq_eq in E. subst c. rewrite after_last_nl_app_lf. cbn [length].
    change (Nat.eqb (1 + 0) 1) with true. cbn iota. f_equal; lia.
  - rewrite after_last_nl_app by (cbn [existsb]; now rewrite E). rewrite app_length. cbn [length].
    rewrite (proj2 (Nat.eqb_neq _ 1)) by lia. rewrite count_nl_cons, E. cbn [count_nl filter length]. f_equal; lia.
Qed.

Lemma end_lc_empty p : fst (end_lc p) <= fst (spec_line_col p) /\ snd (spec_line_col p) <= snd (end_lc p).
Proof.
  unfold end_lc. destruct (Nat.eqb_spec (snd (spec_line_col p)) 1) as [E|E]; cbn [fst snd]; [|lia].
  split; [|lia]. destruct (removelast_decomp p) as (x & Ex). unfold spec_line_col. cbn [fst].
  rewrite Ex at 2. rewrite count_nl_app. lia.
Qed.


(* outside K3 the stored end line is the last line meeting the span; when only one line meets it the
   stored end column is not before the start column *)
Lemma end_lc_meet p m q : (ends_lf m = true -> q = []) ->
  (length (meet_of p m q) <= 1 ->
   fst (end_lc (p ++ m)) <= fst (spec_line_col p) /\ snd (spec_line_col p) <= snd (end_lc (p ++ m))) /\
  (2 <= length (meet_of p m q) ->
   fst (end_lc (p ++ m)) + 1 = fst (spec_line_col p) + length (meet_of p m q)).
Proof.
  intros K3. destruct m as [|c m0 _] using rev_ind.
  - rewrite app_nil_r. split; [intros _; apply end_lc_empty|].
    pose proof (meet_empty_span p q) as Ht. destruct (meet_of p [] q) as [|r0 [|r1 rest]]; cbn [length]; try lia. discriminate.
  - rewrite ends_lf_snoc in K3. rewrite meet_length, ends_lf_snoc, count_nl_app, count_nl_cons, end_lc_snoc
      by (destruct m0; discriminate).
    replace (1 + (count_nl m0 + ((if is_lf c then 1 else 0) + count_nl [])) - (if is_lf c && is_nil q then 1 else 0))
      with (1 + count_nl m0)
      by (destruct (is_lf c); [rewrite (K3 eq_refl)|]; cbn [andb is_nil count_nl filter length]; lia).
    cbn [fst snd]. split; [intros H1|lia].
    assert (H0 : count_nl m0 = 0) by lia.
    rewrite after_last_nl_app, app_length by (apply count_nl_zero; exact H0).
    unfold spec_line_col. cbn [fst snd]. lia.
Qed.

Section Fmt.
Variables (loc : iloc) (L C Le Ce : nat) (line msg : str).
Hypothesis HC : 1 <= C.
Hypothesis HCe : 2 <= Ce.
Hypothesis Hline : C - 1 <= length line.

Definition span_err (cont : option str) : error :=
  {| e_location := loc; e_line_col := LSpan (L, C) (Le, Ce); e_path := None; e_line := line;
     e_continued := cont; e_message := msg |}.

Definition marker_ok (text : str) (multi : bool) (u : str) : bool :=
  eqs (firstn C u) (map tabkeep (firstn (C - 1) text) ++ [CARET])
  || (multi && Nat.eqb (length u) C && ceq (last u SP) CARET).

Lemma underline_span cont : exists u,
  underline (span_err cont) = Ok u /\ no_lf u /\
  (C <= Ce -> marker_ok line false u = true) /\ marker_ok line true u = true.
Proof.
  unfold underline, e_start, span_err. cbn [e_line_col e_line fst snd]. fold tabkeep.
  destruct (Nat.ltb_spec Ce C) as [Hinv|Hni].
  - (* end column before start column: the marker runs from Ce - 1 to C and its last `^` is under C *)
    rewrite rsub_ok by lia. cbn [bind fst snd]. rewrite rsub_ok by lia. cbn [bind]. rewrite rsub_ok by lia. cbn [bind].
    rewrite (proj2 (Nat.ltb_lt 1 _)) by lia.
    eexists. split; [reflexivity|]. split; [auto 6 with nolf|]. split; [lia|].
    unfold marker_ok. cbn [andb]. rewrite app_comm_cons, app_assoc, last_snoc, ceq_refl, andb_true_r.
    rewrite !app_length. cbn [length]. rewrite map_length, firstn_length, repeat_length.
    rewrite (proj2 (Nat.eqb_eq _ C)) by lia. apply orb_true_r.
  - cbn [bind fst snd]. rewrite rsub_ok by lia. cbn [bind]. rewrite rsub_ok by lia. cbn [bind].
    eexists. split; [reflexivity|]. split; [destruct (Nat.ltb 1 (Ce - C)); auto 6 with nolf|].
    assert (Hm : forall multi x, marker_ok line multi (map tabkeep (firstn (C - 1) line) ++ CARET :: x) = true).
    { intros multi x. unfold marker_ok. apply orb_true_iff. left.
      rewrite (app_assoc _ [CARET] x), firstn_prefix; [apply eqs_refl|].
      rewrite app_length, map_length, firstn_length. cbn [length]. lia. }
    split; [intros _|]; apply Hm.
Qed.

Definition sp_of (n : nat) : str := repeat SP (length (dec n)).

Lemma format_single u : underline (span_err None) = Ok u ->
  format (span_err None) =
  Ok (join (map flat [[sp_of (Nat.max L Le); lit "--> "; dec L; lit ":"; dec C];
                      [sp_of (Nat.max L Le); lit " |"];
                      [dec L; lit " | "; line];
                      [sp_of (Nat.max L Le); lit " | "; u];
                      [sp_of (Nat.max L Le); lit " |"];
                      [sp_of (Nat.max L Le); lit " = "; msg]])).
Proof.
  intros Hu. unfold format. cbn [span_err e_line_col e_continued]. rewrite Hu. cbn [bind].
  rewrite <- pieces_join. reflexivity.
Qed.

Lemma format_multi cl u : L <= Le -> underline (span_err (Some cl)) = Ok u ->
  format (span_err (Some cl)) =
  Ok (join (map flat
       ([[sp_of (Nat.max L Le); lit "--> "; dec L; lit ":"; dec C];
         [sp_of (Nat.max L Le); lit " |"];
         [pad_left (length (sp_of (Nat.max L Le))) (dec L); lit " | "; line]] ++
        (if Nat.ltb 1 (Le - L)
         then [[sp_of (Nat.max L Le); lit " | ..."];
               [pad_left (length (sp_of (Nat.max L Le))) (dec Le); lit " | "; cl]]
         else [[pad_left (length (sp_of (Nat.max L Le))) (dec Le); lit " | "; cl]]) ++
        [[sp_of (Nat.max L Le); lit " | "; u];
         [sp_of (Nat.max L Le); lit " |"];
         [sp_of (Nat.max L Le); lit " = "; msg]]))).
Proof.
  intros Hle Hu. unfold span_err in *. unfold format, e_start. cbn [e_line_col e_continued fst snd].
  rewrite rsub_ok by exact Hle. cbn [bind]. rewrite Hu. cbn [bind].
  destruct (Nat.ltb 1 (Le - L)); rewrite <- pieces_join; reflexivity.
Qed.

End Fmt.

Lemma shows_intro vis p m q msg w middle u :
  let L := fst (spec_line_col p) in
  let C := snd (spec_line_col p) in
  let text := display vis (the_line p (m ++ q)) in
  let sp := repeat SP w in
  let meet := meet_of p m q in
  no_lf msg -> no_lf u -> Forall no_lf middle ->
  text_aligned vis p = true ->
  marker_ok C text (Nat.leb 2 (length meet)) u = true ->
  match meet with
  | [] | [_] => match middle with [] => true | _ => false end
  | r0 :: rest =>
    let r2 := last rest r0 in
    let L2 := L + length rest in
    match slice (p ++ m ++ q) (fst r2) (snd r2) with
    | None => false
    | Some line2 =>
      let cont_ok := fun c : str =>
        Nat.leb (length (dec L2)) w &&
        (eqs c (pad_left w (dec L2) ++ lit " | " ++ display false line2) ||
         eqs c (pad_left w (dec L2) ++ lit " | " ++ display true line2)) in
      match middle with
      | [c] => negb (Nat.ltb 1 (length rest)) && cont_ok c
      | [dots; c] => Nat.ltb 1 (length rest) && eqs dots (sp ++ lit " | ...") && cont_ok c
      | _ => false
      end
    end
  end = true ->
  span_shows_as vis p m q msg
    (join ([sp ++ lit "--> " ++ dec L ++ lit ":" ++ dec C; sp ++ lit " |"; pad_left w (dec L) ++ lit " | " ++ text] ++
           middle ++ [sp ++ lit " | " ++ u; sp ++ lit " |"; sp ++ lit " = " ++ msg])) = true.
Proof.
  intros L C text sp meet Hmsg Hu Hmid Hal Hmk Htail.
  unfold span_shows_as. rewrite split_rows_join.
  2:{ discriminate. }
  2:{ repeat apply Forall_cons; [..|apply Forall_app; split; [exact Hmid|repeat constructor]];
      subst sp text; auto 8 with nolf. }
  cbn [app rev]. rewrite rev_app_distr. cbn [rev app]. rewrite !rev_app_distr. cbn [rev app]. rewrite rev_involutive.
  subst L C text sp meet. unfold meet_of in *.
  rewrite leading_sp_header.
  rewrite !eqs_refl. cbn [andb].
  rewrite (app_assoc (repeat SP w) (lit " | ") u).
  rewrite (firstn_prefix (repeat SP w ++ lit " | ") u) by (now rewrite length_sp_bar).
  rewrite (skipn_prefix (repeat SP w ++ lit " | ") u) by (now rewrite length_sp_bar).
  rewrite eqs_refl, Hal. cbn [andb]. unfold marker_ok in Hmk. rewrite Hmk. cbn [andb].
  exact Htail.
Qed.

Lemma known_unpack fx p m q : KnownClass_span fx p m q = false ->
  (negb (span_vis m) && existsb (fun c => ceq c CR) (after_last_nl p) = false) /\
  (fix_continued fx = false -> span_vis m = true ->
   match meet_of p m q with
   | r0 :: r1 :: rest => match slice (p ++ m ++ q) (fst (last rest r1)) (snd (last rest r1)) with
                         | Some l2 => has_crlf l2 | None => false end
   | _ => false end = false) /\
  (ends_lf m = true -> q = []) /\
  (fix_eoi_line fx = false -> m = [] -> q = [] -> after_last_nl p = []).
Proof.
  unfold KnownClass_span. intros H. apply orb_false_iff in H as [H H4]. apply orb_false_iff in H as [H H3].
  apply orb_false_iff in H as [H1 H2]. split; [exact H1|]. split; [|split].
  - intros Hf Hv. rewrite Hf, Hv in H2. exact H2.
  - intros He. rewrite He in H3. destruct q; [reflexivity|discriminate].
  - intros Hf -> ->. rewrite Hf in H4. destruct (after_last_nl p); [reflexivity|discriminate].
Qed.

Lemma strip_no_crlf x : has_crlf x = false -> strip_crlf x = x.
Proof.
  unfold has_crlf, strip_crlf. induction x as [|c x IH]; [reflexivity|]. cbn [existsb filter]. intros H.
  apply orb_false_iff in H as [Hc Hx]. unfold is_crlf in Hc. rewrite orb_comm in Hc. rewrite Hc. cbn [negb]. now rewrite IH.
Qed.

Theorem render_span_shows fx p m q msg : KnownClass_span fx p m q = false -> no_lf msg ->
  exists out, render_span fx (p ++ m ++ q) (blen p, blen p + blen m) msg = Ok out /\
              span_shows_as (span_vis m) p m q msg out = true.
Proof.
  intros HK Hmsg. destruct (known_unpack _ _ _ _ HK) as (K1 & K2 & K3 & K4).
  unfold render_span. rewrite new_from_span_correct. cbn [bind].
  assert (Hsl : first_line fx p m q = the_line p (m ++ q)).
  { unfold first_line, texts_of. destruct (m ++ q) as [|c0 r0] eqn:E.
    - apply app_eq_nil in E as [-> ->]. rewrite meet_nil. cbn [map app].
      destruct (fix_eoi_line fx) eqn:Ef; [reflexivity|]. unfold the_line. now rewrite K4.
    - rewrite <- E. rewrite meet_cons by (rewrite E; discriminate). cbn [map]. apply head_text. }
  rewrite Hsl.
  destruct (aligned_prefix (span_vis m) p K1) as [Hlen Htab].
  destruct (end_lc_meet p m q K3) as [Hone Hmany].
  set (line := display (span_vis m) (the_line p (m ++ q))).
  set (L := fst (spec_line_col p)) in *. set (C := snd (spec_line_col p)) in *.
  set (Le := fst (end_lc (p ++ m))) in *. set (Ce := snd (end_lc (p ++ m))) in *.
  assert (Hline : C - 1 <= length line).
  { subst line C. unfold the_line. rewrite display_app, app_length, Hlen. unfold spec_line_col. cbn [snd]. lia. }
  assert (Hal : text_aligned (span_vis m) p = true) by (unfold text_aligned; now apply Nat.eqb_eq).
  assert (HCe : 2 <= Ce) by apply end_lc_col_ge2.
  assert (HC : 1 <= C) by apply spec_col_ge1.
  set (cont := if fix_continued fx then _ else _).
  match goal with |- exists out, format ?e = _ /\ _ =>
    replace e with (span_err (ISpan (blen p, blen p + blen m)) L C Le Ce line msg cont)
      by (unfold span_err; subst L C Le Ce; now rewrite <- !surjective_pairing) end.
  set (w := length (dec (Nat.max L Le))).
  assert (Hsp : sp_of (Nat.max L Le) = repeat SP w) by reflexivity.
  destruct (underline_span (ISpan (blen p, blen p + blen m)) L C Le Ce line msg HC HCe Hline cont) as (u & Hu & Hunl & Hm1 & Hm2).
  pose proof (meet_valid p m q) as Hvalid.
  destruct (le_lt_dec (length (meet_of p m q)) 1) as [Hfew|Hseveral].
  { (* at most one line meets the span: no continued line, columns in order *)
    destruct (Hone Hfew) as [HLe HCle].
    assert (Htl : tl (meet_of p m q) = [])
      by (destruct (meet_of p m q) as [|? [|? ?]]; [reflexivity..|cbn in Hfew; lia]).
    assert (Hcont : cont = None).
    { subst cont. unfold texts_of. rewrite (last_text_none_of_tl _ _ Htl). now destruct (fix_continued fx), (span_vis m). }
    rewrite Hcont in *.
    rewrite (format_single _ _ _ _ _ _ _ _ Hu). cbn [map flat]. eexists. split; [reflexivity|].
    rewrite Hsp. replace (dec L ++ lit " | " ++ line) with (pad_left w (dec L) ++ lit " | " ++ line)
      by (subst w; rewrite Nat.max_l by lia; now rewrite pad_left_exact).
    apply (shows_intro (span_vis m) p m q msg w [] u); try assumption; try constructor.
    - rewrite (proj2 (Nat.leb_gt 2 _)) by lia. apply Hm1, HCle.
    - destruct (meet_of p m q) as [|? [|? ?]]; [reflexivity..|discriminate]. }
  (* several lines: a continued line is shown *)
  destruct (meet_of p m q) as [|r0 [|r1 rest]] eqn:Emeet; cbn [length] in Hseveral, Hmany; try lia.
  set (r2 := last rest r1).
  assert (Hv2 : slice (p ++ m ++ q) (fst r2) (snd r2) <> None).
  { rewrite Forall_forall in Hvalid. apply Hvalid. right. subst r2. clear. revert r1.
    induction rest as [|x rest IH]; intros r1; [now left|]. rewrite last_cons_default. right. apply IH. }
  destruct (slice (p ++ m ++ q) (fst r2) (snd r2)) as [line2|] eqn:Es2; [|congruence].
  assert (Hll : last_text (texts_of p m q) = Some line2).
  { unfold texts_of. rewrite Emeet. cbn [map last_text tl]. rewrite last_map. fold r2. unfold text_of. now rewrite Es2. }
  assert (HLe : Le = L + S (length rest)) by lia.
  set (cl := if fix_continued fx then visualize_whitespace line2 else if span_vis m then line2 else visualize_whitespace line2).
  assert (Hcont : cont = Some cl) by (subst cont cl; rewrite Hll; now destruct (fix_continued fx), (span_vis m)).
  rewrite Hcont in *.
  assert (Hcl : no_lf cl /\ (eqs cl (display false line2) || eqs cl (display true line2) = true)).
  { subst cl. assert (Hvz : no_lf (visualize_whitespace line2) /\
                        (eqs (visualize_whitespace line2) (display false line2) || eqs (visualize_whitespace line2) (display true line2) = true)).
    { split; [apply no_lf_visualize|]. unfold display. now rewrite eqs_refl, orb_true_r. }
    destruct (fix_continued fx) eqn:Efc; [exact Hvz|]. destruct (span_vis m) eqn:Ev; [|exact Hvz].
    (* shipped code, visualised start line: the continued line is emitted raw; outside K2 it has no CR/LF *)
    specialize (K2 eq_refl eq_refl). fold r2 in K2. rewrite Es2 in K2.
    split; [now apply no_lf_no_crlf|]. unfold display. rewrite strip_no_crlf by exact K2. now rewrite eqs_refl. }
  destruct Hcl as [Hcl1 Hcl2].
  assert (HLle : L <= Le) by lia.
  rewrite (format_multi _ _ _ _ _ _ _ _ _ HLle Hu). eexists. split; [reflexivity|].
  rewrite Hsp. unfold sp_of. rewrite repeat_length. fold w. rewrite !map_app.
  apply (shows_intro (span_vis m) p m q msg w _ u); try assumption.
  + destruct (Nat.ltb 1 (Le - L)); cbn [map flat]; repeat constructor; auto 6 with nolf.
  + rewrite Emeet. apply Hm2.
  + rewrite Emeet. cbn zeta. rewrite last_cons_default. fold r2. rewrite Es2. fold L. cbn [length].
    rewrite <- HLe. replace (Le - L) with (S (length rest)) by lia.
    assert (Hw : Nat.leb (length (dec Le)) w = true)
      by (subst w; rewrite Nat.max_r by lia; apply Nat.leb_refl).
    destruct (Nat.ltb 1 (S (length rest))); cbn [map flat negb andb];
      rewrite ?eqs_refl; cbn [andb]; rewrite Hw; cbn [andb];
      rewrite !(app_assoc (pad_left w (dec Le)) (lit " | ")), !eqs_app_prefix; exact Hcl2.
Qed.

Theorem span_render_correct fx p m q : KnownClass_span fx p m q = false -> span_render_ok fx p m q.
Proof.
  intros HK msg Hmsg. destruct (render_span_shows fx p m q msg HK Hmsg) as (out & E & S).
  exists out. split; [exact E|]. unfold span_shows. destruct (span_vis m); rewrite S; [reflexivity|apply orb_true_r].
Qed.
