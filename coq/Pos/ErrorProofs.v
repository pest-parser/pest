(* Pos/ErrorProofs.v - Error::new_from_pos + format: never panics and produces exactly the expected
   layout (line number, line text, marker under the column), outside the known class K1. *)
From Coq Require Import String.
From Coq Require Import List Arith NArith Bool Lia.
Import ListNotations.
Require Import PV.Pos.Model PV.Pos.ErrorFmt PV.Pos.Spec PV.Pos.BasicProofs PV.Pos.LineColProofs.
Open Scope list_scope.

Arguments Nat.sub : simpl never.
Arguments Nat.leb : simpl never.
Arguments Nat.ltb : simpl never.
Arguments Nat.eqb : simpl never.
Arguments len_utf8 : simpl never.
Arguments lit : simpl never.
Arguments dec : simpl never.

Lemma match_char_app p q c :
  match_char (p ++ q) (blen p) c = Ok (match q with c' :: _ => ceq c c' | [] => false end).
Proof. unfold match_char. now rewrite split_at_app. Qed.

Lemma pos_vis_match q :
  (match q with c' :: _ => ceq LF c' | [] => false end) || (match q with c' :: _ => ceq CR c' | [] => false end) = pos_vis q.
Proof. destruct q as [|c q]; [reflexivity|]. cbn [pos_vis]. unfold is_crlf. now rewrite (ceq_sym LF), (ceq_sym CR). Qed.

Lemma display_app vis x y : display vis (x ++ y) = display vis x ++ display vis y.
Proof. destruct vis; cbn [display]; unfold visualize_whitespace, strip_crlf; [now rewrite !map_app|apply filter_app]. Qed.

Lemma visualize_length x : length (visualize_whitespace x) = length x.
Proof. unfold visualize_whitespace. now rewrite !map_length. Qed.

Lemma tabkeep_visualize x : map tabkeep (visualize_whitespace x) = map tabkeep x.
Proof.
  unfold visualize_whitespace. rewrite !map_map. apply map_ext. intros c. unfold tabkeep.
  destruct (ceq c CR) eqn:E1.
  - apply ceq_eq in E1. subst c. reflexivity.
  - destruct (ceq c LF) eqn:E2; [|reflexivity]. apply ceq_eq in E2. subst c. reflexivity.
Qed.

Lemma strip_id x : existsb (fun c => ceq c CR) x = false -> existsb is_lf x = false -> strip_crlf x = x.
Proof.
  induction x as [|c x IH]; [reflexivity|]. cbn [existsb]. intros H1 H2.
  apply orb_false_iff in H1 as [H1 H1']. apply orb_false_iff in H2 as [H2 H2']. unfold is_lf in H2.
  unfold strip_crlf. cbn [filter]. rewrite H1, H2. cbn [orb negb]. f_equal. now apply IH.
Qed.

(* outside K1 the shown prefix of the line is the prefix itself, char for char *)
Lemma aligned_prefix vis p :
  negb vis && existsb (fun c => ceq c CR) (after_last_nl p) = false ->
  length (display vis (after_last_nl p)) = length (after_last_nl p) /\
  map tabkeep (display vis (after_last_nl p)) = map tabkeep (after_last_nl p).
Proof.
  intros H. destruct vis; cbn [display].
  - split; [apply visualize_length|apply tabkeep_visualize].
  - cbn [negb andb] in H. rewrite strip_id; [auto|exact H|apply after_last_nl_has_no_lf].
Qed.

Lemma new_from_pos_correct p q msg :
  new_from_pos (p ++ q) (blen p) msg =
  Ok {| e_location := IPos (blen p); e_line_col := LPos (spec_line_col p); e_path := None;
        e_line := display (pos_vis q) (the_line p q); e_continued := None; e_message := msg |}.
Proof.
  unfold new_from_pos. rewrite !match_char_app. cbn [bind]. rewrite pos_vis_match.
  rewrite line_of_correct. cbn [bind]. rewrite line_col_correct. cbn [bind]. reflexivity.
Qed.

Lemma format_pos loc path L pre rest msg :
  format {| e_location := loc; e_line_col := LPos (L, 1 + length pre); e_path := path;
            e_line := pre ++ rest; e_continued := None; e_message := msg |} =
  Ok (let sp := repeat SP (length (dec L)) in
      let pa := match path with Some x => x ++ lit ":" | None => [] end in
      sp ++ lit "--> " ++ pa ++ dec L ++ lit ":" ++ dec (1 + length pre) ++ NL ++
      sp ++ lit " |" ++ NL ++
      dec L ++ lit " | " ++ (pre ++ rest) ++ NL ++
      sp ++ lit " | " ++ map tabkeep pre ++ lit "^---" ++ NL ++
      sp ++ lit " |" ++ NL ++
      sp ++ lit " = " ++ msg).
Proof.
  unfold format, underline, e_start, spacing. cbn [e_line_col e_continued e_path e_line e_message fst snd bind].
  rewrite rsub_ok by lia. cbn [bind]. replace (1 + length pre - 1) with (length pre) by lia.
  rewrite firstn_app, Nat.sub_diag, firstn_all. cbn [firstn]. rewrite app_nil_r.
  cbn [bind]. rewrite <- (app_assoc (map _ pre)). reflexivity.
Qed.

Theorem render_pos_path_correct path p q msg : KnownClass_pos p q = false ->
  (e <- new_from_pos (p ++ q) (blen p) msg ;;
   format (match path with Some x => with_path e x | None => e end)) = Ok (spec_pos_layout (pos_vis q) path p q msg)
  /\ text_aligned (pos_vis q) p = true.
Proof.
  intros HK. unfold KnownClass_pos in HK. destruct (aligned_prefix _ _ HK) as [Hlen Htab].
  split; [|unfold text_aligned; now apply Nat.eqb_eq].
  rewrite new_from_pos_correct. cbn [bind].
  assert (E : forall pa, format {| e_location := IPos (blen p); e_line_col := LPos (spec_line_col p); e_path := pa;
        e_line := display (pos_vis q) (the_line p q); e_continued := None; e_message := msg |}
        = Ok (spec_pos_layout (pos_vis q) pa p q msg)).
  { intros pa. unfold the_line. rewrite display_app. unfold spec_line_col. rewrite <- Hlen.
    rewrite format_pos. unfold spec_pos_layout, spec_line_col, the_line. cbn [fst snd]. rewrite Htab, display_app, Hlen.
    reflexivity. }
  destruct path as [x|]; [unfold with_path; cbn [e_location e_line_col e_line e_continued e_message]|]; apply E.
Qed.

Theorem render_pos_correct p q msg : KnownClass_pos p q = false ->
  render_pos (p ++ q) (blen p) msg = Ok (spec_pos_layout (pos_vis q) None p q msg) /\ text_aligned (pos_vis q) p = true.
Proof. intros H. exact (render_pos_path_correct None p q msg H). Qed.

Theorem render_pos_no_panic p q msg : exists out, render_pos (p ++ q) (blen p) msg = Ok out.
Proof.
  unfold render_pos. rewrite new_from_pos_correct. cbn [bind].
  unfold format, underline, e_start, spacing. cbn [e_line_col e_continued e_path e_line e_message fst snd bind spec_line_col].
  rewrite rsub_ok by lia. cbn [bind]. eexists. reflexivity.
Qed.
