(* Pos/LineColProofs.v - Position::line_col, LineIndex::line_col, find_line_start/end, line_of and
   Span::new refine the counting specification, for every string (induction over the string). *)
From Coq Require Import List Arith NArith Bool Lia Sorted.
Import ListNotations.
Require Import PV.Pos.Model PV.Pos.ErrorFmt PV.Pos.Spec PV.Pos.BasicProofs.
Open Scope list_scope.

Arguments Nat.sub : simpl never.
Arguments Nat.leb : simpl never.
Arguments Nat.ltb : simpl never.
Arguments Nat.eqb : simpl never.
Arguments len_utf8 : simpl never.

Definition scan_result (pre : str) (line col : nat) : nat * nat :=
  (line + count_nl pre,
   if existsb is_lf pre then 1 + length (after_last_nl pre) else col + length pre).

Lemma ceq_eq a b : ceq a b = true -> a = b.
Proof. unfold ceq. apply N.eqb_eq. Qed.
Lemma ceq_refl a : ceq a a = true.
Proof. unfold ceq. apply N.eqb_refl. Qed.
Lemma ceq_sym a b : ceq a b = ceq b a.
Proof. unfold ceq. apply N.eqb_sym. Qed.

Lemma len_LF : len_utf8 LF = 1. Proof. reflexivity. Qed.

Lemma scan_result_lf pre line col :
  scan_result (LF :: pre) line col = scan_result pre (line + 1) 1.
Proof.
  unfold scan_result. rewrite count_nl_cons, is_lf_LF. f_equal; [lia|].
  rewrite after_last_nl_cons. cbn [existsb]. rewrite is_lf_LF. cbn [orb].
  destruct (existsb is_lf pre) eqn:E; [reflexivity|]. now rewrite after_last_nl_nolf.
Qed.

Lemma scan_result_other c pre line col : is_lf c = false ->
  scan_result (c :: pre) line col = scan_result pre line (col + 1).
Proof.
  intros H. unfold scan_result. rewrite count_nl_cons, H. f_equal.
  rewrite after_last_nl_cons. cbn [existsb]. rewrite H. cbn [orb length].
  destruct (existsb is_lf pre); [reflexivity|lia].
Qed.

Lemma scan_result_nil line col : scan_result [] line col = (line, col).
Proof. unfold scan_result, count_nl. cbn [filter length existsb]. f_equal; lia. Qed.

Lemma rsub_add k n : rsub (k + n) k = Ok n.
Proof. rewrite rsub_ok by lia. f_equal. lia. Qed.

(* induction on a bound of the length: after CR LF the scan continues two chars further on *)
Lemma lc_scan_spec : forall n pre line col, length pre <= n ->
  lc_scan pre (blen pre) line col = Ok (scan_result pre line col).
Proof.
  induction n as [|n IH]; intros [|c rest] line col Hn; try (now rewrite scan_result_nil); [cbn in Hn; lia|].
  cbn [length] in Hn. pose proof (len_utf8_pos c) as Hc. cbn [lc_scan blen].
  rewrite (proj2 (Nat.eqb_neq _ 0)) by lia.
  destruct (ceq c CR) eqn:Ecr; [apply ceq_eq in Ecr; subst c|destruct (ceq c LF) eqn:Elf].
  - assert (Hcr : forall l k, scan_result (CR :: rest) l k = scan_result rest l (k + 1))
      by (intros; now apply scan_result_other).
    destruct rest as [|c2 rest']; [|destruct (ceq c2 LF) eqn:Elf].
    + rewrite (rsub_add 1). cbn [bind]. now rewrite IH, Hcr by (cbn; lia).
    + (* the CR before the LF bumps the column, the LF resets it *)
      apply ceq_eq in Elf. subst c2. cbn [blen length] in *.
      change (len_utf8 CR + (len_utf8 LF + blen rest')) with (2 + blen rest').
      change (Nat.eqb (2 + blen rest') 1) with false. cbn iota. rewrite rsub_add. cbn [bind]. rewrite IH, Hcr, scan_result_lf by lia. reflexivity.
    + rewrite (rsub_add 1). cbn [bind]. now rewrite IH, Hcr by lia.
  - apply ceq_eq in Elf. subst c. rewrite (rsub_add 1). cbn [bind]. now rewrite IH, scan_result_lf by lia.
  - rewrite rsub_add. cbn [bind]. now rewrite IH, scan_result_other by (lia || exact Elf).
Qed.

Lemma scan_result_start pre : scan_result pre 1 1 = spec_line_col pre.
Proof.
  unfold scan_result, spec_line_col. f_equal.
  destruct (existsb is_lf pre) eqn:E; [reflexivity|]. now rewrite after_last_nl_nolf.
Qed.

Theorem line_col_correct p q : line_col (p ++ q) (blen p) = Ok (spec_line_col p).
Proof.
  unfold line_col. rewrite blen_app.
  replace (Nat.ltb (blen p + blen q) (blen p)) with false by (symmetry; apply Nat.ltb_ge; lia).
  rewrite split_at_app. rewrite (lc_scan_spec (length p)) by lia. now rewrite scan_result_start.
Qed.

(* offsets just after each LF of cs, cs starting at byte `off` *)
Fixpoint nl_ends (off : nat) (cs : str) : list nat :=
  match cs with
  | [] => []
  | c :: r => let off' := off + len_utf8 c in if is_lf c then off' :: nl_ends off' r else nl_ends off' r
  end.

Lemma li_scan_spec : forall cs off acc, li_scan cs off acc = acc ++ nl_ends off cs.
Proof.
  induction cs as [|c r IH]; intros off acc; cbn [li_scan nl_ends].
  - now rewrite app_nil_r.
  - fold (is_lf c). destruct (is_lf c); rewrite IH; [now rewrite <- app_assoc|reflexivity].
Qed.

Lemma line_index_new_spec s : line_index_new s = 0 :: nl_ends 0 s.
Proof. unfold line_index_new. now rewrite li_scan_spec. Qed.

Lemma nl_ends_app : forall p off m, nl_ends off (p ++ m) = nl_ends off p ++ nl_ends (off + blen p) m.
Proof.
  induction p as [|c p IH]; intros off m; cbn [app nl_ends blen].
  - now rewrite Nat.add_0_r.
  - replace (off + (len_utf8 c + blen p)) with (off + len_utf8 c + blen p) by lia.
    destruct (is_lf c); rewrite IH; reflexivity.
Qed.

Lemma nl_ends_length : forall p off, length (nl_ends off p) = count_nl p.
Proof.
  induction p as [|c p IH]; intros off; [reflexivity|]. cbn [nl_ends]. rewrite count_nl_cons.
  destruct (is_lf c); cbn [length]; rewrite IH; lia.
Qed.

Lemma nl_ends_bounds : forall p off, Forall (fun x => off < x <= off + blen p) (nl_ends off p).
Proof.
  induction p as [|c p IH]; intros off; [constructor|]. cbn [nl_ends blen].
  pose proof (len_utf8_pos c). specialize (IH (off + len_utf8 c)).
  assert (Forall (fun x => off < x <= off + (len_utf8 c + blen p)) (nl_ends (off + len_utf8 c) p))
    by (eapply Forall_impl; [|exact IH]; cbn; intros; lia).
  destruct (is_lf c); [constructor; [lia|assumption]|assumption].
Qed.

(* the offsets are strictly increasing: the slice is partitioned by `it <= pos` for every pos,
   which is the precondition of slice::partition_point *)
Lemma nl_ends_sorted : forall p off, StronglySorted lt (nl_ends off p).
Proof.
  induction p as [|c p IH]; intros off; [constructor|]. cbn [nl_ends].
  destruct (is_lf c); [|apply IH]. constructor; [apply IH|].
  eapply Forall_impl; [|apply nl_ends_bounds]. cbn. intros; lia.
Qed.

Theorem line_offsets_sorted s : StronglySorted lt (line_index_new s).
Proof.
  rewrite line_index_new_spec. constructor; [apply nl_ends_sorted|].
  eapply Forall_impl; [|apply nl_ends_bounds]. cbn. intros; lia.
Qed.

Definition partitioned {A} (f : A -> bool) (l : list A) : Prop :=
  exists l1 l2, l = l1 ++ l2 /\ forallb f l1 = true /\ forallb (fun x => negb (f x)) l2 = true.

Lemma sorted_partitioned pos : forall l, StronglySorted lt l -> partitioned (fun it => Nat.leb it pos) l.
Proof.
  induction l as [|x l IH]; intros H.
  - exists [], []. auto.
  - inversion H as [|? ? Hs Hf]; subst. destruct (Nat.leb_spec x pos) as [Hle|Hgt].
    + destruct (IH Hs) as (l1 & l2 & -> & H1 & H2). exists (x :: l1), l2. split; [reflexivity|].
      split; [|exact H2]. cbn [forallb]. rewrite H1, andb_true_r. now apply Nat.leb_le.
    + exists [], (x :: l). split; [reflexivity|]. split; [reflexivity|].
      apply forallb_forall. intros y Hy. apply negb_true_iff, Nat.leb_gt.
      destruct Hy as [<-|Hy]; [lia|]. rewrite Forall_forall in Hf. specialize (Hf y Hy). lia.
Qed.

Theorem line_offsets_partitioned s pos : partitioned (fun it => Nat.leb it pos) (line_index_new s).
Proof. apply sorted_partitioned, line_offsets_sorted. Qed.

Lemma partition_point_app_all {A} (f : A -> bool) l1 l2 :
  forallb f l1 = true -> partition_point f (l1 ++ l2) = length l1 + partition_point f l2.
Proof.
  induction l1 as [|x l1 IH]; [reflexivity|]. cbn [forallb app partition_point length].
  intros H. apply andb_true_iff in H as [Hx Hl]. rewrite Hx, IH by exact Hl. lia.
Qed.

Lemma partition_point_none {A} (f : A -> bool) l :
  Forall (fun x => f x = false) l -> partition_point f l = 0.
Proof. destruct l as [|x l]; [reflexivity|]. intros H. inversion H; subst. cbn. now rewrite H2. Qed.

Lemma line_start_cases p : (if existsb is_lf p then blen p - blen (after_last_nl p) else 0) = line_start p.
Proof.
  unfold line_start. destruct (existsb is_lf p) eqn:E; [reflexivity|]. rewrite after_last_nl_nolf by exact E. lia.
Qed.

(* the entry of the index at position count_nl p is the start of the line containing blen p *)
Lemma nth_line_start : forall p o off tl,
  nth_error (o :: nl_ends off p ++ tl) (count_nl p) =
  Some (if existsb is_lf p then off + blen p - blen (after_last_nl p) else o).
Proof.
  induction p as [|c p IH]; intros o off tl; [reflexivity|].
  cbn [nl_ends]. rewrite count_nl_cons, after_last_nl_cons. cbn [existsb blen].
  destruct (is_lf c) eqn:E; cbn [orb].
  - cbn [app plus nth_error]. rewrite IH. f_equal.
    destruct (existsb is_lf p) eqn:E2; [lia|]. rewrite after_last_nl_nolf by exact E2. lia.
  - cbn [plus]. rewrite IH. f_equal. destruct (existsb is_lf p); [lia|reflexivity].
Qed.

(* LineIndex built over p ++ m (any extension of the text before the offset), input p ++ m ++ q *)
Theorem li_line_col_correct p m q :
  li_line_col (line_index_new (p ++ m)) (p ++ m ++ q) (blen p) = Ok (spec_line_col p).
Proof.
  unfold li_line_col. rewrite line_index_new_spec, nl_ends_app. cbn [plus].
  assert (Hpp : partition_point (fun it => Nat.leb it (blen p)) (0 :: nl_ends 0 p ++ nl_ends (blen p) m)
                = S (count_nl p)).
  { cbn [partition_point]. replace (Nat.leb 0 (blen p)) with true by (symmetry; apply Nat.leb_le; lia).
    f_equal. rewrite partition_point_app_all.
    - rewrite nl_ends_length, partition_point_none; [lia|].
      eapply Forall_impl; [|apply nl_ends_bounds]. cbn. intros x Hx. apply Nat.leb_gt. lia.
    - apply forallb_forall. intros x Hx. apply Nat.leb_le.
      pose proof (nl_ends_bounds p 0) as Hb. rewrite Forall_forall in Hb. specialize (Hb x Hx). lia. }
  rewrite Hpp. rewrite rsub_ok by lia. cbn [bind]. replace (S (count_nl p) - 1) with (count_nl p) by lia.
  rewrite nth_line_start. cbn [plus].
  rewrite line_start_cases. destruct (line_start_decomp p) as (p1 & Ep & Hp1).
  unfold rslice. rewrite <- Hp1.
  assert (Hs : slice (p ++ m ++ q) (blen p1) (blen p) = Some (after_last_nl p)).
  { rewrite Ep at 1. rewrite <- app_assoc.
    replace (blen p) with (blen p1 + blen (after_last_nl p)) by (rewrite <- blen_app, <- Ep; reflexivity).
    apply slice_app3. }
  rewrite Hs. cbn [bind]. unfold spec_line_col. f_equal. f_equal; lia.
Qed.

Theorem pair_line_col_correct p q : pair_line_col (p ++ q) (blen p) = Ok (spec_line_col p).
Proof.
  unfold pair_line_col. pose proof (li_line_col_correct p q []) as H. now rewrite app_nil_r in H.
Qed.

Theorem pair_line_col_upto_correct p m q :
  pair_line_col_upto (p ++ m ++ q) (blen p + blen m) (blen p) = Ok (spec_line_col p).
Proof.
  unfold pair_line_col_upto, rslice.
  pose proof (slice_app3 [] (p ++ m) q) as H. cbn [app blen plus] in H. rewrite blen_app, <- app_assoc in H.
  rewrite H. cbn [bind]. apply li_line_col_correct.
Qed.

Lemma char_indices_from_app : forall p o q,
  char_indices_from o (p ++ q) = char_indices_from o p ++ char_indices_from (o + blen p) q.
Proof.
  induction p as [|c p IH]; intros o q; cbn [app char_indices_from blen].
  - now rewrite Nat.add_0_r.
  - replace (o + (len_utf8 c + blen p)) with (o + len_utf8 c + blen p) by lia.
    rewrite IH. reflexivity.
Qed.

Lemma char_indices_from_bounds : forall p o, Forall (fun ic => o <= fst ic < o + blen p) (char_indices_from o p).
Proof.
  induction p as [|c p IH]; intros o; [constructor|]. cbn [char_indices_from blen].
  pose proof (len_utf8_pos c). constructor; [cbn; lia|].
  eapply Forall_impl; [|apply IH]. cbn. intros; lia.
Qed.

Lemma skip_while_app_all {A} (f : A -> bool) l1 l2 : forallb f l1 = true -> skip_while f (l1 ++ l2) = skip_while f l2.
Proof.
  induction l1 as [|x l1 IH]; [reflexivity|]. cbn [forallb app skip_while]. intros H.
  apply andb_true_iff in H as [Hx Hl]. rewrite Hx. now apply IH.
Qed.

Lemma skip_while_none {A} (f : A -> bool) l : Forall (fun x => f x = false) l -> skip_while f l = l.
Proof. destruct l as [|x l]; [reflexivity|]. intros H. inversion H; subst. cbn. now rewrite H2. Qed.

Lemma find_rev_lf : forall p o,
  find is_lf_at (rev (char_indices_from o p)) =
  if existsb is_lf p then Some (o + blen p - blen (after_last_nl p) - 1, LF) else None.
Proof.
  induction p as [|c p IH] using rev_ind; intros o; [reflexivity|].
  rewrite char_indices_from_app. cbn [char_indices_from]. rewrite rev_app_distr. cbn [rev app find].
  unfold is_lf_at at 1. cbn [snd]. rewrite existsb_app. cbn [existsb]. rewrite orb_false_r. fold (is_lf c).
  rewrite blen_app. cbn [blen]. destruct (is_lf c) eqn:E.
  - rewrite orb_true_r. unfold is_lf in E. apply ceq_eq in E. subst c.
    rewrite after_last_nl_app_lf. cbn [blen]. rewrite len_LF. f_equal. f_equal. lia.
  - rewrite orb_false_r. rewrite IH. destruct (existsb is_lf p) eqn:E2; [|reflexivity].
    rewrite after_last_nl_app by (cbn; now rewrite E). rewrite blen_app. cbn [blen].
    pose proof (blen_after_le p). f_equal. f_equal. lia.
Qed.

Lemma has_lf_after_nonempty p : existsb is_lf p = true -> blen (after_last_nl p) < blen p.
Proof.
  intros H. destruct (after_last_nl_suffix p) as (p1 & E & Hy & _). destruct (Hy H) as (p0 & ->).
  apply (f_equal blen) in E. rewrite !blen_app in E. cbn [blen] in E. rewrite len_LF in E. lia.
Qed.

Theorem find_line_start_correct p q : find_line_start (p ++ q) (blen p) = line_start p.
Proof.
  unfold find_line_start. destruct (p ++ q) as [|c0 s0] eqn:Es.
  - apply app_eq_nil in Es as [-> _]. reflexivity.
  - rewrite <- Es. clear c0 s0 Es. unfold char_indices. rewrite char_indices_from_app, rev_app_distr.
    rewrite skip_while_app_all.
    + rewrite skip_while_none.
      * rewrite find_rev_lf. unfold line_start. destruct (existsb is_lf p) eqn:E.
        -- pose proof (has_lf_after_nonempty p E). cbn [plus]. lia.
        -- rewrite after_last_nl_nolf by exact E. lia.
      * apply Forall_rev. eapply Forall_impl; [|apply char_indices_from_bounds]. cbn.
        intros ic H. apply Nat.leb_gt. lia.
    + apply forallb_forall. intros ic H. apply in_rev in H.
      pose proof (char_indices_from_bounds q (0 + blen p)) as Hb. rewrite Forall_forall in Hb.
      specialize (Hb ic H). apply Nat.leb_le. lia.
Qed.

Lemma find_lf_fwd : forall q o,
  find is_lf_at (char_indices_from o q) =
  if existsb is_lf q then Some (o + blen (upto_nl q) - 1, LF) else None.
Proof.
  induction q as [|c q IH]; intros o; [reflexivity|]. cbn [char_indices_from find upto_nl existsb].
  unfold is_lf_at at 1. cbn [snd]. fold (is_lf c). destruct (is_lf c) eqn:E.
  - unfold is_lf in E. apply ceq_eq in E. subst c. cbn [blen orb]. rewrite len_LF. f_equal. f_equal. lia.
  - cbn [orb]. rewrite IH. destruct (existsb is_lf q); [|reflexivity]. cbn [blen].
    pose proof (len_utf8_pos c). f_equal. f_equal. lia.
Qed.

Lemma upto_nl_nolf q : existsb is_lf q = false -> upto_nl q = q.
Proof.
  induction q as [|c q IH]; [reflexivity|]. cbn [existsb upto_nl]. intros H.
  apply orb_false_iff in H as [Hc Hq]. rewrite Hc. now rewrite IH.
Qed.

Lemma upto_nl_blen_pos q : q <> [] -> 1 <= blen (upto_nl q).
Proof.
  destruct q as [|c q]; [congruence|]. intros _. cbn [upto_nl]. pose proof (len_utf8_pos c).
  destruct (is_lf c); cbn [blen]; lia.
Qed.

Theorem find_line_end_correct p q : find_line_end (p ++ q) (blen p) = Ok (line_end p q).
Proof.
  unfold find_line_end, line_end. destruct (p ++ q) as [|c0 s0] eqn:Es.
  - apply app_eq_nil in Es as [-> ->]. reflexivity.
  - assert (Hne : 1 <= blen (p ++ q)) by (rewrite Es; cbn [blen]; pose proof (len_utf8_pos c0); lia).
    rewrite <- Es. clear c0 s0 Es. rewrite rsub_ok by exact Hne. cbn [bind]. rewrite blen_app in *.
    destruct (Nat.eqb_spec (blen p) (blen p + blen q - 1)) as [Heq|Hneq].
    + (* the special case: exactly one (one-byte) char follows *)
      assert (Hq : blen q = 1) by lia. destruct q as [|c [|c2 q']].
      * cbn in Hq. lia.
      * cbn [upto_nl]. destruct (is_lf c); reflexivity.
      * cbn [blen] in Hq. pose proof (len_utf8_pos c). pose proof (len_utf8_pos c2). lia.
    + unfold char_indices. rewrite char_indices_from_app. rewrite skip_while_app_all.
      * rewrite skip_while_none.
        -- rewrite find_lf_fwd. cbn [plus]. destruct (existsb is_lf q) eqn:E.
           ++ assert (1 <= blen (upto_nl q)) by (apply upto_nl_blen_pos; intros ->; discriminate). f_equal. lia.
           ++ now rewrite upto_nl_nolf.
        -- eapply Forall_impl; [|apply char_indices_from_bounds]. cbn. intros ic H. apply Nat.ltb_ge. lia.
      * apply forallb_forall. intros ic H.
        pose proof (char_indices_from_bounds p 0) as Hb. rewrite Forall_forall in Hb.
        specialize (Hb ic H). apply Nat.ltb_lt. lia.
Qed.

Lemma the_line_decomp p q : exists p1 q2,
  p = p1 ++ after_last_nl p /\ q = upto_nl q ++ q2 /\
  p ++ q = p1 ++ the_line p q ++ q2 /\ blen p1 = line_start p /\
  blen p1 + blen (the_line p q) = line_end p q.
Proof.
  destruct (line_start_decomp p) as (p1 & Ep & Hp1). destruct (upto_nl_prefix q) as (q2 & Eq).
  exists p1, q2. split; [exact Ep|]. split; [exact Eq|]. split.
  - unfold the_line. rewrite Ep at 1. rewrite Eq at 1. now rewrite <- !app_assoc.
  - split; [exact Hp1|]. unfold the_line, line_end. rewrite blen_app.
    apply (f_equal blen) in Ep. rewrite blen_app in Ep. lia.
Qed.

Theorem line_of_correct p q : line_of (p ++ q) (blen p) = Ok (the_line p q).
Proof.
  unfold line_of. rewrite blen_app.
  replace (Nat.ltb (blen p + blen q) (blen p)) with false by (symmetry; apply Nat.ltb_ge; lia).
  rewrite find_line_end_correct. cbn [bind]. rewrite find_line_start_correct.
  destruct (the_line_decomp p q) as (p1 & q2 & _ & _ & Es & H1 & H2).
  unfold rslice. rewrite Es, <- H1, <- H2. now rewrite slice_app3.
Qed.

Theorem span_new_iff s a b : span_new s a b <> None <-> a <= b /\ boundary s a /\ boundary s b.
Proof.
  unfold span_new. rewrite <- slice_iff. destruct (slice s a b); split; congruence.
Qed.

Lemma span_new_ok p m q : span_new (p ++ m ++ q) (blen p) (blen p + blen m) = Some (blen p, blen p + blen m).
Proof. unfold span_new. now rewrite slice_app3. Qed.

Theorem position_new_iff s a : position_new s a <> None <-> boundary s a.
Proof. unfold position_new. rewrite boundary_iff. destruct (split_at s a); split; congruence. Qed.

(* Span::get on the span (blen p, blen p + blen m): succeeds iff x..y are ordered boundaries of the
   span's text, and then yields the span shifted by the start *)
Theorem span_get_correct p m q x y :
  span_get (p ++ m ++ q) (blen p, blen p + blen m) x y =
  Ok (if ordered_boundaries m x y then Some (blen p + x, blen p + y) else None).
Proof.
  unfold span_get, span_as_str, rslice. cbn [fst snd]. rewrite slice_app3. cbn [bind]. f_equal.
  unfold ordered_boundaries.
  destruct (slice m x y) as [t|] eqn:E.
  - destruct (slice_some _ _ _ _ E) as (p' & q' & -> & -> & ->).
    replace (Nat.leb (blen p') (blen p' + blen t)) with true by (symmetry; apply Nat.leb_le; lia).
    rewrite split_at_app. rewrite <- (blen_app p' t), (app_assoc p' t q'), split_at_app. reflexivity.
  - destruct (Nat.leb_spec x y) as [L|L]; [|reflexivity]. cbn [andb].
    destruct (split_at m x) as [[p1 q1]|] eqn:E1; [|reflexivity].
    destruct (split_at m y) as [[p2 q2]|] eqn:E2; [|reflexivity]. exfalso.
    assert (H : slice m x y <> None).
    { apply slice_iff. split; [exact L|]. split; apply boundary_iff; congruence. }
    congruence.
Qed.

Theorem merge_spans_correct s a b c d :
  span_new s a b <> None -> span_new s c d <> None ->
  merge_spans s (a, b) (c, d) =
  if Nat.leb c b && Nat.leb a d then Some (Nat.min a c, Nat.max b d) else None.
Proof.
  intros H1 H2. unfold merge_spans. cbn [fst snd]. destruct (Nat.leb c b && Nat.leb a d) eqn:E; [|reflexivity].
  apply span_new_iff in H1 as (L1 & Ba & Bb). apply span_new_iff in H2 as (L2 & Bc & Bd).
  assert (H : span_new s (Nat.min a c) (Nat.max b d) <> None).
  { apply span_new_iff. split; [lia|]. split.
    - destruct (Nat.min_spec a c) as [[_ ->]|[_ ->]]; assumption.
    - destruct (Nat.max_spec b d) as [[_ ->]|[_ ->]]; assumption. }
  unfold span_new in *. destruct (slice s (Nat.min a c) (Nat.max b d)); congruence.
Qed.
