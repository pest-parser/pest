(* Pos/BasicProofs.v - byte offsets, boundaries, slicing; facts on the counting specification. *)
From Coq Require Import List Arith NArith Bool Lia.
Import ListNotations.
Require Import PV.Pos.Model PV.Pos.ErrorFmt PV.Pos.Spec.
Open Scope list_scope.

Arguments Nat.sub : simpl never.
Arguments Nat.leb : simpl never.
Arguments Nat.ltb : simpl never.
Arguments Nat.eqb : simpl never.
Arguments len_utf8 : simpl never.

Lemma len_utf8_pos c : 1 <= len_utf8 c.
Proof. unfold len_utf8. repeat destruct (_ <? _)%N; lia. Qed.

Lemma blen_app p q : blen (p ++ q) = blen p + blen q.
Proof. induction p as [|c p IH]; cbn [blen app]; lia. Qed.

Lemma blen_ge_length p : length p <= blen p.
Proof. induction p as [|c p IH]; cbn [blen length]; [lia|]. pose proof (len_utf8_pos c). lia. Qed.

Lemma blen_zero p : blen p = 0 -> p = [].
Proof. destruct p as [|c p]; [reflexivity|]. cbn [blen]. pose proof (len_utf8_pos c). lia. Qed.

Lemma csub_some a b : b <= a -> csub a b = Some (a - b).
Proof. intros H. unfold csub. destruct (Nat.leb_spec b a); [reflexivity|lia]. Qed.
Lemma csub_none a b : a < b -> csub a b = None.
Proof. intros H. unfold csub. destruct (Nat.leb_spec b a); [lia|reflexivity]. Qed.
Lemma rsub_ok a b : b <= a -> rsub a b = Ok (a - b).
Proof. intros H. unfold rsub. now rewrite csub_some. Qed.

Lemma split_at_zero s : split_at s 0 = Some ([], s).
Proof. destruct s; reflexivity. Qed.

Lemma split_at_cons c r off : off <> 0 ->
  split_at (c :: r) off =
  match csub off (len_utf8 c) with
  | None => None
  | Some off' => match split_at r off' with Some (p, q) => Some (c :: p, q) | None => None end
  end.
Proof. destruct off; [congruence|reflexivity]. Qed.

Lemma split_at_app p q : split_at (p ++ q) (blen p) = Some (p, q).
Proof.
  induction p as [|c p IH]; cbn [blen app].
  - apply split_at_zero.
  - pose proof (len_utf8_pos c). rewrite split_at_cons by lia.
    rewrite csub_some by lia. replace (len_utf8 c + blen p - len_utf8 c) with (blen p) by lia.
    now rewrite IH.
Qed.

Lemma split_at_some s : forall off p q, split_at s off = Some (p, q) -> s = p ++ q /\ blen p = off.
Proof.
  induction s as [|c r IH]; intros off p q H.
  - destruct off; cbn in H; [|discriminate]. inversion H; subst. auto.
  - destruct (Nat.eq_dec off 0) as [->|Hne].
    + rewrite split_at_zero in H. inversion H; subst. auto.
    + rewrite split_at_cons in H by exact Hne. unfold csub in H.
      destruct (Nat.leb_spec (len_utf8 c) off) as [Hle|]; [|discriminate].
      destruct (split_at r (off - len_utf8 c)) as [[p' q']|] eqn:E; [|discriminate].
      inversion H; subst. destruct (IH _ _ _ E) as [-> Hb]. cbn [blen app]. split; [reflexivity|lia].
Qed.

Lemma boundary_iff s off : boundary s off <-> split_at s off <> None.
Proof.
  split.
  - intros (p & q & -> & <-). rewrite split_at_app. discriminate.
  - destruct (split_at s off) as [[p q]|] eqn:E; [|congruence]. intros _.
    destruct (split_at_some _ _ _ _ E) as [-> <-]. now exists p, q.
Qed.

Lemma boundary_le s off : boundary s off -> off <= blen s.
Proof. intros (p & q & -> & <-). rewrite blen_app. lia. Qed.

Lemma before_app p q : before (p ++ q) (blen p) = p.
Proof. unfold before. now rewrite split_at_app. Qed.
Lemma after_app p q : after (p ++ q) (blen p) = q.
Proof. unfold after. now rewrite split_at_app. Qed.

Lemma app_eq_blen_le : forall p1 q1 p2 q2, p1 ++ q1 = p2 ++ q2 -> blen p1 <= blen p2 ->
  exists m, p2 = p1 ++ m /\ q1 = m ++ q2.
Proof.
  induction p1 as [|c p1 IH]; intros q1 p2 q2 E L.
  - exists p2. auto.
  - destruct p2 as [|c2 p2].
    + cbn [blen] in L. pose proof (len_utf8_pos c). lia.
    + cbn [app] in E. inversion E; subst. cbn [blen] in L.
      destruct (IH q1 p2 q2 H1) as (m & -> & ->); [lia|]. exists m. auto.
Qed.

Lemma app_eq_blen_eq p1 q1 p2 q2 : p1 ++ q1 = p2 ++ q2 -> blen p1 = blen p2 -> p1 = p2 /\ q1 = q2.
Proof.
  intros E L. destruct (app_eq_blen_le p1 q1 p2 q2 E) as (m & -> & ->); [lia|].
  rewrite blen_app in L. assert (m = []) by (apply blen_zero; lia). subst. rewrite app_nil_r. auto.
Qed.

Lemma slice_app3 p m q : slice (p ++ m ++ q) (blen p) (blen p + blen m) = Some m.
Proof.
  unfold slice. rewrite split_at_app. rewrite csub_some by lia.
  replace (blen p + blen m - blen p) with (blen m) by lia. now rewrite split_at_app.
Qed.

Lemma slice_some s a b m : slice s a b = Some m ->
  exists p q, s = p ++ m ++ q /\ a = blen p /\ b = blen p + blen m.
Proof.
  unfold slice. destruct (split_at s a) as [[p r]|] eqn:E1; [|discriminate].
  unfold csub. destruct (Nat.leb_spec a b) as [Hle|]; [|discriminate].
  destruct (split_at r (b - a)) as [[m' q]|] eqn:E2; [|discriminate].
  intros H; inversion H; subst m'.
  destruct (split_at_some _ _ _ _ E1) as [-> <-]. destruct (split_at_some _ _ _ _ E2) as [-> Hb].
  exists p, q. repeat split; lia.
Qed.

Lemma slice_iff s a b : slice s a b <> None <-> a <= b /\ boundary s a /\ boundary s b.
Proof.
  split.
  - destruct (slice s a b) as [m|] eqn:E; [|congruence]. intros _.
    destruct (slice_some _ _ _ _ E) as (p & q & -> & -> & ->). split; [lia|]. split.
    + now exists p, (m ++ q).
    + exists (p ++ m), q. rewrite blen_app, <- app_assoc. auto.
  - intros (L & (p1 & q1 & -> & <-) & (p2 & q2 & E & <-)).
    destruct (app_eq_blen_le _ _ _ _ E L) as (m & -> & ->).
    rewrite blen_app, slice_app3. discriminate.
Qed.

Lemma is_lf_LF : is_lf LF = true. Proof. reflexivity. Qed.

Lemma count_nl_cons c p : count_nl (c :: p) = (if is_lf c then 1 else 0) + count_nl p.
Proof. unfold count_nl. cbn [filter]. destruct (is_lf c); reflexivity. Qed.
Lemma count_nl_app p q : count_nl (p ++ q) = count_nl p + count_nl q.
Proof. unfold count_nl. now rewrite filter_app, app_length. Qed.

Lemma after_last_nl_nolf p : existsb is_lf p = false -> after_last_nl p = p.
Proof. destruct p as [|c p]; [reflexivity|]. intros H. cbn [after_last_nl]. now rewrite H. Qed.

Lemma after_last_nl_cons c p :
  after_last_nl (c :: p) = if existsb is_lf (c :: p) then after_last_nl p else c :: p.
Proof. reflexivity. Qed.

Lemma after_last_nl_has_no_lf p : existsb is_lf (after_last_nl p) = false.
Proof.
  induction p as [|c p IH]; [reflexivity|]. rewrite after_last_nl_cons.
  destruct (existsb is_lf (c :: p)) eqn:E; [exact IH|exact E].
Qed.

Lemma after_last_nl_suffix p : exists p1, p = p1 ++ after_last_nl p /\
  (existsb is_lf p = true -> exists p0, p1 = p0 ++ [LF]) /\ (existsb is_lf p = false -> p1 = []).
Proof.
  induction p as [|c p IH].
  - exists []. split; [reflexivity|]. split; [discriminate|reflexivity].
  - rewrite after_last_nl_cons. destruct (existsb is_lf (c :: p)) eqn:E.
    + destruct IH as (p1 & Hp & Hy & Hn). exists (c :: p1). split; [cbn [app]; congruence|]. split; [|discriminate].
      intros _. destruct (existsb is_lf p) eqn:E2.
      * destruct (Hy eq_refl) as (p0 & ->). now exists (c :: p0).
      * rewrite (Hn eq_refl). cbn [existsb] in E. rewrite E2, orb_false_r in E.
        exists []. cbn [app]. f_equal. unfold is_lf, ceq in E. now apply N.eqb_eq in E.
    + exists []. split; [reflexivity|]. split; [discriminate|reflexivity].
Qed.

Lemma after_last_nl_app_lf p : after_last_nl (p ++ [LF]) = [].
Proof.
  induction p as [|c p IH]; [reflexivity|]. cbn [app]. rewrite after_last_nl_cons.
  replace (existsb is_lf (c :: p ++ [LF])) with true; [exact IH|].
  symmetry. cbn [existsb]. rewrite existsb_app. cbn. now rewrite !orb_true_r.
Qed.

Lemma after_last_nl_app p x : existsb is_lf x = false -> after_last_nl (p ++ x) = after_last_nl p ++ x.
Proof.
  intros Hx. induction p as [|c p IH]; cbn [app].
  - now rewrite after_last_nl_nolf.
  - rewrite !after_last_nl_cons. cbn [existsb]. rewrite existsb_app, Hx, orb_false_r.
    destruct (is_lf c || existsb is_lf p); [exact IH|reflexivity].
Qed.

Lemma after_last_nl_app_has p x : existsb is_lf x = true -> after_last_nl (p ++ x) = after_last_nl x.
Proof.
  intros Hx. induction p as [|c p IH]; cbn [app]; [reflexivity|].
  rewrite after_last_nl_cons. cbn [existsb]. rewrite existsb_app, Hx, !orb_true_r. exact IH.
Qed.

Lemma line_start_le p : line_start p <= blen p.
Proof. unfold line_start. lia. Qed.

Lemma blen_after_le p : blen (after_last_nl p) <= blen p.
Proof. destruct (after_last_nl_suffix p) as (p1 & E & _). apply (f_equal blen) in E. rewrite blen_app in E. lia. Qed.

Lemma line_start_decomp p : exists p1, p = p1 ++ after_last_nl p /\ blen p1 = line_start p.
Proof.
  destruct (after_last_nl_suffix p) as (p1 & E & _). exists p1. split; [exact E|].
  unfold line_start. apply (f_equal blen) in E. rewrite blen_app in E. lia.
Qed.

Lemma upto_nl_prefix q : exists q2, q = upto_nl q ++ q2.
Proof.
  induction q as [|c q IH]; [now exists []|]. cbn [upto_nl]. destruct (is_lf c).
  - now exists q.
  - destruct IH as (q2 & E). exists q2. cbn [app]. congruence.
Qed.

Lemma upto_nl_nonempty q : q <> [] -> upto_nl q <> [].
Proof. destruct q as [|c q]; [congruence|]. intros _. cbn [upto_nl]. destruct (is_lf c); discriminate. Qed.
