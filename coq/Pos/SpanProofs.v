(* Pos/SpanProofs.v - Error::new_from_span + format:
   (1) what new_from_span builds, in terms of the counting specification;
   (2) rendering never panics, for EVERY string and ordered boundary pair (known classes included). *)
From Coq Require Import String.
From Coq Require Import List Arith NArith Bool Lia.
Import ListNotations.
Require Import PV.Pos.Model PV.Pos.ErrorFmt PV.Pos.Spec PV.Pos.BasicProofs PV.Pos.LineColProofs
               PV.Pos.LinesProofs PV.Pos.ErrorProofs.
Open Scope list_scope.

Arguments Nat.sub : simpl never.
Arguments Nat.leb : simpl never.
Arguments Nat.ltb : simpl never.
Arguments Nat.eqb : simpl never.
Arguments len_utf8 : simpl never.
Arguments lit : simpl never.
Arguments dec : simpl never.

(* the end line/column stored in the error: the end offset's, or - when the end offset is at the
   start of a line - those of the char before it, column + 1 *)
Definition end_lc (pm : str) : nat * nat :=
  if Nat.eqb (snd (spec_line_col pm)) 1
  then (fst (spec_line_col (removelast pm)), snd (spec_line_col (removelast pm)) + 1)
  else spec_line_col pm.

Definition meet_of (p m q : str) : list (nat * nat) :=
  lines_meeting (p ++ m ++ q) (blen p) (blen p + blen m).
Definition texts_of (p m q : str) : list str := map (text_of (p ++ m ++ q)) (meet_of p m q).
Definition first_line (fx : fixes) (p m q : str) : str :=
  match texts_of p m q with
  | x :: _ => x
  | [] => if fix_eoi_line fx then the_line p (m ++ q) else []
  end.
Definition last_text (l : list str) : option str :=
  match tl l with [] => None | x :: r => Some (last r x) end.

Lemma meet_cons p m q : m ++ q <> [] ->
  meet_of p m q =
  (line_start p, line_end p (m ++ q)) ::
  filter (meets (blen p) (blen p + blen m))
         (line_ranges_from (line_end p (m ++ q)) (line_end p (m ++ q)) (drop_line (m ++ q))).
Proof.
  intros Hne. unfold meet_of. rewrite lines_meeting_from by lia.
  rewrite ranges_step by (try exact Hne; apply line_start_le). cbn [filter]. unfold meets at 1. cbn [fst snd].
  pose proof (line_start_le p). pose proof (upto_nl_blen_pos (m ++ q) Hne).
  replace (Nat.leb (line_start p) (blen p + blen m)) with true by (symmetry; apply Nat.leb_le; lia).
  replace (Nat.ltb (blen p) (blen p + blen (upto_nl (m ++ q)))) with true by (symmetry; apply Nat.ltb_lt; lia).
  reflexivity.
Qed.

Lemma meet_nil p : meet_of p [] [] = [].
Proof.
  unfold meet_of. cbn [app blen]. rewrite Nat.add_0_r, lines_meeting_from by lia. cbn [line_ranges_from].
  destruct (Nat.eqb (blen p) (line_start p)); [reflexivity|]. cbn [filter]. unfold meets. cbn [fst snd].
  replace (Nat.ltb (blen p) (blen p)) with false by (symmetry; apply Nat.ltb_ge; lia). now rewrite andb_false_r.
Qed.

Lemma meet_length p m q : m ++ q <> [] ->
  length (meet_of p m q) = 1 + count_nl m - (if ends_lf m && is_nil q then 1 else 0).
Proof.
  intros Hne. unfold meet_of. rewrite lines_meeting_from by lia.
  apply meet_count; [lia|apply line_start_le|exact Hne].
Qed.

Lemma skip_back_one pm q :
  skip_back (pm ++ q) (blen pm) 1 = Ok (match pm with [] => false | _ => true end, blen (removelast pm)).
Proof.
  unfold skip_back. rewrite split_at_app. induction pm as [|c0 pm0 _] using rev_ind; [reflexivity|].
  rewrite rev_app_distr. cbn [rev app take_len]. rewrite removelast_last.
  rewrite blen_app. cbn [blen]. rewrite rsub_ok by lia. cbn [bind].
  replace (blen pm0 + (len_utf8 c0 + 0) - (len_utf8 c0 + 0)) with (blen pm0) by lia.
  destruct (pm0 ++ [c0]) eqn:E; [now apply app_eq_nil in E as [_ E]|reflexivity].
Qed.

Lemma removelast_decomp (pm : str) : exists x, pm = removelast pm ++ x.
Proof.
  induction pm as [|c0 pm0 _] using rev_ind; [now exists []|]. rewrite removelast_last. now exists [c0].
Qed.

Lemma span_vis_model m :
  match m with
  | [] => false
  | c :: r => is_crlf c || match r with [] => false | _ => is_crlf (last r c) end
  end = span_vis m.
Proof.
  destruct m as [|c r]; [reflexivity|]. cbn [span_vis]. destruct r as [|c2 r']; [|reflexivity].
  cbn [last]. now rewrite orb_false_r, orb_diag.
Qed.

Lemma new_from_span_correct fx p m q msg :
  new_from_span fx (p ++ m ++ q) (blen p, blen p + blen m) msg =
  Ok {| e_location := ISpan (blen p, blen p + blen m);
        e_line_col := LSpan (spec_line_col p) (end_lc (p ++ m));
        e_path := None;
        e_line := display (span_vis m) (first_line fx p m q);
        e_continued := if fix_continued fx then option_map visualize_whitespace (last_text (texts_of p m q))
                       else if span_vis m then last_text (texts_of p m q)
                       else option_map visualize_whitespace (last_text (texts_of p m q));
        e_message := msg |}.
Proof.
  unfold new_from_span. cbn [fst snd].
  (* the end offset is the boundary after p ++ m *)
  rewrite <- blen_app, (app_assoc p m q), line_col_correct. cbn [bind].
  assert (Eend : (if Nat.eqb (snd (spec_line_col (p ++ m))) 1
           then vb <- skip_back ((p ++ m) ++ q) (blen (p ++ m)) 1;;
                lc <- line_col ((p ++ m) ++ q) (snd vb);; Ok (fst lc, snd lc + 1)
           else Ok (spec_line_col (p ++ m))) = Ok (end_lc (p ++ m))).
  { unfold end_lc. destruct (Nat.eqb (snd (spec_line_col (p ++ m))) 1); [|reflexivity].
    rewrite skip_back_one. cbn [bind snd].
    destruct (removelast_decomp (p ++ m)) as (x & Ex).
    replace ((p ++ m) ++ q) with (removelast (p ++ m) ++ x ++ q) by (now rewrite app_assoc, <- Ex).
    now rewrite line_col_correct. }
  rewrite Eend. cbn [bind]. rewrite <- (app_assoc p m q), blen_app, lines_correct. cbn [bind].
  assert (Hfl : match texts_of p m q with
                | x :: _ => Ok x
                | [] => if fix_eoi_line fx then line_of (p ++ m ++ q) (blen p) else Ok []
                end = Ok (first_line fx p m q)).
  { unfold first_line. destruct (texts_of p m q); [|reflexivity].
    destruct (fix_eoi_line fx); [apply line_of_correct|reflexivity]. }
  unfold texts_of, meet_of in Hfl. rewrite Hfl. cbn [bind].
  unfold span_as_str, rslice. cbn [fst snd]. rewrite slice_app3. cbn [bind].
  rewrite span_vis_model. rewrite line_col_correct. cbn [bind]. reflexivity.
Qed.

Lemma spec_col_ge1 p : 1 <= snd (spec_line_col p).
Proof. unfold spec_line_col. cbn [snd]. lia. Qed.

Lemma end_lc_col_ge2 pm : 2 <= snd (end_lc pm).
Proof.
  unfold end_lc. destruct (Nat.eqb_spec (snd (spec_line_col pm)) 1) as [E|E]; cbn [snd].
  - pose proof (spec_col_ge1 (removelast pm)). lia.
  - pose proof (spec_col_ge1 pm). lia.
Qed.

Lemma underline_span_ok loc path slc elc line cont msg :
  1 <= snd slc -> 2 <= snd elc ->
  exists u, underline {| e_location := loc; e_line_col := LSpan slc elc; e_path := path; e_line := line;
                         e_continued := cont; e_message := msg |} = Ok u.
Proof.
  intros H1 H2. unfold underline, e_start. cbn [e_line_col e_line snd]. destruct elc as [el ec]. cbn [snd] in *.
  destruct (Nat.ltb_spec ec (snd slc)) as [Hinv|Hni].
  - rewrite rsub_ok by lia. cbn [bind fst snd]. rewrite rsub_ok by lia. cbn [bind].
    rewrite rsub_ok by lia. cbn [bind]. eexists. reflexivity.
  - cbn [bind fst snd]. rewrite rsub_ok by lia. cbn [bind]. rewrite rsub_ok by lia. cbn [bind]. eexists. reflexivity.
Qed.

Lemma meet_empty_span p q : tl (meet_of p [] q) = [].
Proof.
  destruct q as [|c q]; [now rewrite meet_nil|].
  pose proof (meet_length p [] (c :: q)) as H. destruct (meet_of p [] (c :: q)) as [|? [|? ?]]; [reflexivity..|].
  discriminate H. discriminate.
Qed.

Lemma last_text_none_of_tl {A} (f : A -> str) l : tl l = [] -> last_text (map f l) = None.
Proof. destruct l as [|x [|y l']]; cbn; congruence. Qed.

Lemma end_line_ge p m : m <> [] -> fst (spec_line_col p) <= fst (end_lc (p ++ m)).
Proof.
  intros Hm. unfold end_lc. destruct (Nat.eqb (snd (spec_line_col (p ++ m))) 1); unfold spec_line_col; cbn [fst].
  - induction m as [|c0 m0 _] using rev_ind; [congruence|]. rewrite app_assoc, removelast_last, count_nl_app. lia.
  - rewrite count_nl_app. lia.
Qed.

Theorem render_span_no_panic fx p m q msg :
  exists out, render_span fx (p ++ m ++ q) (blen p, blen p + blen m) msg = Ok out.
Proof.
  unfold render_span. rewrite new_from_span_correct. cbn [bind].
  set (cont := if fix_continued fx then _ else _).
  destruct (underline_span_ok (ISpan (blen p, blen p + blen m)) None (spec_line_col p) (end_lc (p ++ m))
              (display (span_vis m) (first_line fx p m q)) cont msg (spec_col_ge1 p) (end_lc_col_ge2 (p ++ m))) as (u & Hu).
  unfold format. cbn [e_line_col e_continued]. destruct cont as [cl|] eqn:Ec.
  - (* a continued line exists: the span text is not empty, so the end line is not before the start line *)
    assert (Hm : m <> []).
    { intros ->. subst cont. unfold texts_of in Ec. rewrite (last_text_none_of_tl _ _ (meet_empty_span p q)) in Ec.
      destruct (fix_continued fx); [|destruct (span_vis [])]; discriminate. }
    unfold e_start. cbn [e_line_col fst]. rewrite rsub_ok by (apply end_line_ge; exact Hm). cbn [bind].
    rewrite Hu. cbn [bind]. destruct (Nat.ltb 1 _); eexists; reflexivity.
  - rewrite Hu. cbn [bind]. eexists. reflexivity.
Qed.
