(* Pos/LinesProofs.v - LinesSpan / Lines iteration yields exactly the consecutive lines of the
   input that meet the span (DESIGN.md section 2), for every string and ordered boundary pair. *)
From Coq Require Import List Arith NArith Bool Lia.
Import ListNotations.
Require Import PV.Pos.Model PV.Pos.ErrorFmt PV.Pos.Spec PV.Pos.BasicProofs PV.Pos.LineColProofs.
Open Scope list_scope.

Arguments Nat.sub : simpl never.
Arguments Nat.leb : simpl never.
Arguments Nat.ltb : simpl never.
Arguments Nat.eqb : simpl never.
Arguments len_utf8 : simpl never.

(* what follows the first line of q *)
Fixpoint drop_line (q : str) : str :=
  match q with [] => [] | c :: r => if is_lf c then r else drop_line r end.

Lemma upto_drop q : q = upto_nl q ++ drop_line q.
Proof. induction q as [|c q IH]; [reflexivity|]. cbn [upto_nl drop_line]. destruct (is_lf c); cbn [app]; congruence. Qed.

Lemma drop_line_length q : q <> [] -> length (drop_line q) < length q.
Proof.
  intros H. pose proof (upto_nl_nonempty q H) as Hu. pose proof (f_equal (@length _) (upto_drop q)) as E.
  rewrite app_length in E. destruct (upto_nl q); [congruence|]. cbn [length] in E. lia.
Qed.

Lemma drop_line_nolf q : existsb is_lf q = false -> drop_line q = [].
Proof.
  induction q as [|c q IH]; [reflexivity|]. cbn [existsb drop_line]. intros H.
  apply orb_false_iff in H as [Hc Hq]. rewrite Hc. now apply IH.
Qed.

Lemma upto_nl_ends_lf q : existsb is_lf q = true -> exists u0, upto_nl q = u0 ++ [LF].
Proof.
  induction q as [|c q IH]; [discriminate|]. cbn [existsb upto_nl]. destruct (is_lf c) eqn:E.
  - intros _. exists []. unfold is_lf in E. apply ceq_eq in E. now subst.
  - cbn [orb]. intros H. destruct (IH H) as (u0 & ->). now exists (c :: u0).
Qed.

Lemma ranges_nil x : line_ranges_from x x [] = [].
Proof. cbn. now rewrite Nat.eqb_refl. Qed.

Lemma ranges_step : forall q st cur, q <> [] -> st <= cur ->
  line_ranges_from st cur q =
  (st, cur + blen (upto_nl q)) ::
  line_ranges_from (cur + blen (upto_nl q)) (cur + blen (upto_nl q)) (drop_line q).
Proof.
  induction q as [|c q IH]; intros st cur Hne Hle; [congruence|].
  cbn [line_ranges_from upto_nl drop_line]. pose proof (len_utf8_pos c) as Hc.
  destruct (is_lf c) eqn:E.
  - cbn [blen]. now rewrite Nat.add_0_r.
  - destruct q as [|c2 q'].
    + cbn [upto_nl drop_line blen]. rewrite ranges_nil. cbn [line_ranges_from]. rewrite Nat.add_0_r.
      replace (Nat.eqb (cur + len_utf8 c) st) with false by (symmetry; apply Nat.eqb_neq; lia).
      reflexivity.
    + rewrite IH by (try discriminate; lia). cbn [blen].
      replace (cur + len_utf8 c + blen (upto_nl (c2 :: q'))) with (cur + (len_utf8 c + blen (upto_nl (c2 :: q')))) by lia.
      reflexivity.
Qed.

Lemma ranges_fst_ge : forall q st cur, st <= cur -> Forall (fun r => st <= fst r) (line_ranges_from st cur q).
Proof.
  induction q as [|c q IH]; intros st cur H; cbn [line_ranges_from].
  - destruct (Nat.eqb cur st); repeat constructor.
  - pose proof (len_utf8_pos c). destruct (is_lf c).
    + constructor; [cbn; lia|]. eapply Forall_impl; [|apply IH; lia]. cbn. intros; lia.
    + apply IH. lia.
Qed.

Lemma ranges_app : forall x st cur y, exists R,
  line_ranges_from st cur (x ++ y) =
  R ++ line_ranges_from (if existsb is_lf x then cur + blen x - blen (after_last_nl x) else st) (cur + blen x) y
  /\ Forall (fun r => snd r <= cur + blen x) R.
Proof.
  induction x as [|c x IH]; intros st cur y.
  - exists []. cbn [app existsb blen]. rewrite Nat.add_0_r. auto.
  - cbn [app line_ranges_from]. rewrite after_last_nl_cons. cbn [existsb blen].
    pose proof (len_utf8_pos c) as Hc. pose proof (blen_after_le x) as Ha.
    destruct (is_lf c) eqn:E; cbn [orb].
    + destruct (IH (cur + len_utf8 c) (cur + len_utf8 c) y) as (R & ER & HR).
      exists ((st, cur + len_utf8 c) :: R). split.
      * rewrite ER. cbn [app]. f_equal. f_equal.
        replace (cur + len_utf8 c + blen x) with (cur + (len_utf8 c + blen x)) by lia.
        f_equal. destruct (existsb is_lf x) eqn:E2; [lia|]. rewrite after_last_nl_nolf by exact E2. lia.
      * constructor; [cbn; lia|]. eapply Forall_impl; [|exact HR]. cbn. intros; lia.
    + destruct (IH st (cur + len_utf8 c) y) as (R & ER & HR). exists R. split.
      * rewrite ER. f_equal.
        replace (cur + len_utf8 c + blen x) with (cur + (len_utf8 c + blen x)) by lia.
        f_equal. destruct (existsb is_lf x); [lia|reflexivity].
      * eapply Forall_impl; [|exact HR]. cbn. intros; lia.
Qed.

Lemma filter_none {A} (f : A -> bool) l : Forall (fun x => f x = false) l -> filter f l = [].
Proof. induction 1 as [|x l Hx _ IH]; [reflexivity|]. cbn. now rewrite Hx. Qed.

(* the lines meeting [a,b], a = blen p: nothing before the line containing a *)
Lemma lines_meeting_from p r b : blen p <= b ->
  lines_meeting (p ++ r) (blen p) b = filter (meets (blen p) b) (line_ranges_from (line_start p) (blen p) r).
Proof.
  intros Hb. unfold lines_meeting, line_ranges. destruct (ranges_app p 0 0 r) as (R & -> & HR).
  rewrite filter_app, filter_none.
  - cbn [app plus]. now rewrite line_start_cases.
  - eapply Forall_impl; [|exact HR]. cbn [plus]. intros x Hx. unfold meets.
    replace (Nat.ltb (blen p) (snd x)) with false by (symmetry; apply Nat.ltb_ge; lia). apply andb_false_r.
Qed.

Lemma last_cons_default {A} (c : A) r d : last (c :: r) d = last r c.
Proof. revert c. induction r as [|c2 r IH]; intros c; [reflexivity|]. cbn [last]. cbn [last] in IH. destruct r; [reflexivity|]. apply IH. Qed.

Lemma ends_lf_cons c x : ends_lf (c :: x) = match x with [] => is_lf c | _ => ends_lf x end.
Proof. destruct x as [|c2 x]; [reflexivity|]. unfold ends_lf. now rewrite last_cons_default. Qed.


Definition is_nil (y : str) : bool := match y with [] => true | _ => false end.

(* reading x ++ y from offset cur, the current line having started at st: the lines that start at or
   before the end of x (none of them ends before a <= cur) are one per LF of x and one more, unless x
   ends the text with a LF *)
Lemma meet_count : forall x y st cur a, a <= cur -> st <= cur -> x ++ y <> [] ->
  length (filter (meets a (cur + blen x)) (line_ranges_from st cur (x ++ y))) =
  1 + count_nl x - (if ends_lf x && is_nil y then 1 else 0).
Proof.
  induction x as [|c x IH]; intros y st cur a Ha Hst Hne.
  - cbn [app blen] in *. rewrite Nat.add_0_r, ranges_step by assumption.
    pose proof (upto_nl_blen_pos y Hne) as Hu. cbn [filter]. unfold meets at 1. cbn [fst snd].
    rewrite (proj2 (Nat.leb_le st cur) Hst), (proj2 (Nat.ltb_lt a _)) by lia. cbn [andb length].
    rewrite filter_none; [reflexivity|].
    eapply Forall_impl; [|apply ranges_fst_ge; lia]. cbn beta. intros r Hr. unfold meets.
    now rewrite (proj2 (Nat.leb_gt _ _)) by lia.
  - pose proof (len_utf8_pos c) as Hc. cbn [app line_ranges_from blen].
    rewrite Nat.add_assoc, count_nl_cons, ends_lf_cons.
    assert (Hm : meets a (cur + len_utf8 c + blen x) (st, cur + len_utf8 c) = true).
    { unfold meets. cbn [fst snd]. apply andb_true_iff. split; [apply Nat.leb_le|apply Nat.ltb_lt]; lia. }
    destruct (x ++ y) as [|c2 r] eqn:E.
    + (* c is the last char of the text *)
      apply app_eq_nil in E as [-> ->]. cbn [line_ranges_from]. rewrite Nat.eqb_refl.
      rewrite (proj2 (Nat.eqb_neq (cur + len_utf8 c) st)) by lia.
      destruct (is_lf c); cbn [filter]; rewrite Hm; reflexivity.
    + rewrite <- E. assert (Hne' : x ++ y <> []) by (rewrite E; discriminate).
      destruct (is_lf c).
      * cbn [filter]. rewrite Hm. cbn [length]. rewrite IH by (auto; lia).
        destruct x; [destruct y; [now elim Hne'|reflexivity]|].
        destruct (ends_lf _ && is_nil y); lia.
      * rewrite IH by (auto; lia). destruct x; reflexivity.
Qed.

Lemma lines_span_next_spec p' q' sp :
  lines_span_next (p' ++ q') sp (blen p') =
  if Nat.ltb (snd sp) (blen p') then Ok (None, blen p')
  else match q' with
       | [] => Ok (None, blen p')
       | _ => Ok (Some (line_start p', line_end p' q'), line_end p' q')
       end.
Proof.
  unfold lines_span_next. destruct (Nat.ltb (snd sp) (blen p')); [reflexivity|].
  unfold position_new. rewrite split_at_app. unfold at_end. rewrite blen_app.
  destruct q' as [|c q''].
  - cbn [blen]. rewrite Nat.add_0_r, Nat.eqb_refl. reflexivity.
  - set (q' := c :: q''). assert (Hq : 1 <= blen q') by (subst q'; cbn [blen]; pose proof (len_utf8_pos c); lia).
    replace (Nat.eqb (blen p') (blen p' + blen q')) with false by (symmetry; apply Nat.eqb_neq; lia).
    rewrite find_line_end_correct. cbn [bind]. rewrite find_line_start_correct.
    destruct (the_line_decomp p' q') as (p1 & q2 & _ & _ & Es & H1 & H2).
    unfold span_new. rewrite Es, <- H1, <- H2. now rewrite slice_app3.
Qed.

Lemma line_start_app_upto p' q' : existsb is_lf q' = true ->
  line_start (p' ++ upto_nl q') = blen (p' ++ upto_nl q').
Proof.
  intros H. destruct (upto_nl_ends_lf q' H) as (u0 & ->). unfold line_start.
  rewrite app_assoc, after_last_nl_app_lf. cbn [blen]. lia.
Qed.

(* The iterator stands at offset blen p' >= a; the specification's scan stands there too, its current
   line begun at st.  While text remains, st is the start of the line containing the offset.  At the
   end of the text the scan's unfinished line (st, blen p') must not count: it is empty (st = blen p')
   or it ends at a, and a line ending at a does not meet [a, b]. *)
Lemma collect_spec a b : a <= b -> forall fuel q' p' st,
  length q' < fuel -> a <= blen p' -> st <= blen p' ->
  (q' <> [] -> st = line_start p') ->
  (blen p' = a \/ st = blen p') ->
  lines_span_collect fuel (p' ++ q') (a, b) (blen p') =
  Ok (filter (meets a b) (line_ranges_from st (blen p') q')).
Proof.
  intros Hab. induction fuel as [|f IH]; intros q' p' st Hf Ha Hst Hls Hinv; [lia|].
  cbn [lines_span_collect]. rewrite lines_span_next_spec. cbn [snd].
  destruct (Nat.ltb_spec b (blen p')) as [Hlt|Hge].
  - cbn [bind fst]. f_equal. symmetry. apply filter_none.
    eapply Forall_impl; [|apply ranges_fst_ge; exact Hst]. cbn. intros r Hr. unfold meets.
    replace (Nat.leb (fst r) b) with false by (symmetry; apply Nat.leb_gt; lia). reflexivity.
  - destruct q' as [|c q''].
    + cbn [bind fst line_ranges_from]. f_equal.
      destruct (Nat.eqb_spec (blen p') st) as [_|Hne]; [reflexivity|]. cbn [filter]. unfold meets. cbn [fst snd].
      replace (Nat.ltb a (blen p')) with false by (symmetry; apply Nat.ltb_ge; lia). now rewrite andb_false_r.
    + set (q' := c :: q'') in *. assert (Hne : q' <> []) by (subst q'; discriminate).
      cbn [bind fst snd]. rewrite ranges_step by assumption.
      pose proof (upto_nl_blen_pos q' Hne) as Hu.
      cbn [filter]. unfold meets at 1. cbn [fst snd].
      replace (Nat.leb st b) with true by (symmetry; apply Nat.leb_le; lia).
      replace (Nat.ltb a (blen p' + blen (upto_nl q'))) with true by (symmetry; apply Nat.ltb_lt; lia).
      cbn [andb]. rewrite (Hls Hne). unfold line_end.
      pose proof (upto_drop q') as Eq.
      assert (Es : p' ++ q' = (p' ++ upto_nl q') ++ drop_line q') by (rewrite <- app_assoc; now rewrite <- Eq).
      rewrite Es. rewrite <- blen_app.
      rewrite (IH (drop_line q') (p' ++ upto_nl q') (blen (p' ++ upto_nl q'))).
      * cbn [bind]. reflexivity.
      * pose proof (drop_line_length q' Hne). lia.
      * rewrite blen_app. lia.
      * lia.
      * intros Hd. symmetry. apply line_start_app_upto.
        destruct (existsb is_lf q') eqn:E; [reflexivity|]. now rewrite drop_line_nolf in Hd.
      * right. reflexivity.
Qed.

Theorem lines_span_correct p m q :
  lines_span (p ++ m ++ q) (blen p, blen p + blen m) =
  Ok (lines_meeting (p ++ m ++ q) (blen p) (blen p + blen m)).
Proof.
  unfold lines_span. cbn [fst]. rewrite lines_meeting_from by lia.
  apply collect_spec; try lia.
  all: try (pose proof (blen_ge_length (m ++ q)); rewrite blen_app; lia).
  all: try apply line_start_le.
  all: try reflexivity.
Qed.

(* every yielded range is a valid span of the input (it came out of Span::new) *)
Lemma collect_valid s sp : forall fuel pos L, lines_span_collect fuel s sp pos = Ok L ->
  Forall (fun r => slice s (fst r) (snd r) <> None) L.
Proof.
  induction fuel as [|f IH]; intros pos L H; [discriminate|]. cbn [lines_span_collect] in H.
  destruct (lines_span_next s sp pos) as [[o pos']| |] eqn:En; cbn [bind fst snd] in H; try discriminate.
  destruct o as [l|]; [|inversion H; constructor].
  destruct (lines_span_collect f s sp pos') as [rest| |] eqn:Er; cbn [bind] in H; try discriminate.
  inversion H; subst. constructor; [|eapply IH; exact Er].
  unfold lines_span_next in En. destruct (Nat.ltb (snd sp) pos); [discriminate|].
  destruct (position_new s pos); [|discriminate]. destruct (at_end s n); [discriminate|].
  destruct (find_line_end s n); cbn [bind] in En; try discriminate. inversion En as [[E1 E2]].
  unfold span_new in E1. destruct (slice s (find_line_start s n) a) eqn:Es; [|discriminate].
  inversion E1; subst. cbn [fst snd]. congruence.
Qed.

Definition text_of (s : str) (r : nat * nat) : str :=
  match slice s (fst r) (snd r) with Some t => t | None => [] end.

Lemma rmap_valid s : forall L, Forall (fun r => slice s (fst r) (snd r) <> None) L ->
  rmap (span_as_str s) L = Ok (map (text_of s) L).
Proof.
  induction 1 as [|r L Hr _ IH]; [reflexivity|]. cbn [rmap map]. unfold span_as_str at 1, rslice, text_of at 1.
  destruct (slice s (fst r) (snd r)); [|congruence]. cbn [bind]. now rewrite IH.
Qed.

Theorem lines_correct p m q :
  lines (p ++ m ++ q) (blen p, blen p + blen m) =
  Ok (map (text_of (p ++ m ++ q)) (lines_meeting (p ++ m ++ q) (blen p) (blen p + blen m))).
Proof.
  unfold lines. pose proof (lines_span_correct p m q) as H. rewrite H. cbn [bind].
  apply rmap_valid. unfold lines_span in H. eapply collect_valid. exact H.
Qed.
