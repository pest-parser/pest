(* C17 - the invariants behind "a re-run terminates the previous run" (repaired code, disciplined controller):
   channel accounting, the flag and the kick, and what still fits into the channel during run(); the theorem is in Rerun.v. *)
From Coq Require Import List Arith Bool Lia.
Import ListNotations.
Require Import PV.Debugger.Proto PV.Debugger.Spec PV.Debugger.Tactics PV.Debugger.Struct PV.Debugger.Quiet.

Definition is_recv (a : act) : bool := match a with ARecv _ => true | _ => false end.
Definition is_bp (ev : event) : bool := match ev with EvBp _ _ => true | _ => false end.
Definition nbp (ch : list event) : nat := length (filter (fun ev => negb (is_bp ev)) ch).

Lemma nbp_snoc : forall ch ev, nbp (ch ++ [ev]) = nbp ch + (if is_bp ev then 0 else 1).
Proof. intros. unfold nbp. rewrite filter_app, app_length. cbn. destruct (is_bp ev); reflexivity. Qed.

(* how many more events the parsing thread can still put into the channel before it needs a
   further cont(): the quantity that must fit into the channel when the controller sits in join *)
Definition pot (done : bool) (p : ppc) (tk : bool) : nat :=
  if done then
    match p with PLock _ _ _ | PHeld _ _ _ | PSend _ _ _ | PFinalSend _ => 1 | _ => 0 end
  else
    match p with
    | PStart _ _ | PLoad _ _ | PLock _ _ _ | PHeld _ _ _ | PSend _ _ _ => 1 + Nat.b2n tk
    | PPark _ _ => Nat.b2n tk
    | PFinal _ | PFinalSend _ => 1
    | _ => 0
    end.

Lemma nbp_cons : forall ch ev, nbp (ev :: ch) = (if is_bp ev then 0 else 1) + nbp ch.
Proof. intros. unfold nbp. cbn. destruct (is_bp ev); reflexivity. Qed.
Lemma nbp_nil : nbp [] = 0. Proof. reflexivity. Qed.
Arguments nbp : simpl never.

Definition p_over (p : ppc) : Prop := p = PExit \/ p = PDone \/ p = PDead.
Definition kicks (s : state) : nat := count is_kick (log s).

Definition acct_inv (s : state) : Prop :=
  count is_send (log s) = count is_recv (log s) + length (chan s) /\
  count is_send (log s) + count is_bp_recv (log s) = count is_recv (log s) + count is_bp_send (log s) + nbp (chan s) /\
  (undisc s = false -> count is_cont (log s) <= count is_bp_recv (log s)).

Lemma acct_init : forall cs b, acct_inv (init cs b).
Proof. intros. unfold acct_inv. cbn. rewrite nbp_nil. lia. Qed.

Lemma acct_step : forall cf s t s', acct_inv s -> step cf s t = Some s' -> acct_inv s'.
Proof.
  intros cf s t s' Hi T. apply step_trans in T. unfold acct_inv in *.
  destruct t; destruct T; fields; try assumption.
  all: try match goal with E : chan _ = _ |- _ => rewrite E in Hi end.
  all: rewrite ?app_length, ?nbp_snoc, ?nbp_cons, ?nbp_nil in *.
  all: try match goal with ev : event |- _ => destruct ev end.
  all: unfold count in *; cbn [filter length is_send is_recv is_bp_recv is_bp_send is_cont is_bp negb] in *.
  all: destruct Hi as (A1 & A2 & A3); repeat split; try lia.
  all: intros Hu; try (specialize (A3 Hu); lia).
  (* k_unpark: the flag stays down only if this cont answers a received, unanswered breakpoint event *)
  apply orb_false_iff in Hu as [Hu Hv]. apply negb_false_iff, Nat.ltb_lt in Hv. lia.
Qed.

Definition kick_ok (c : cpc) (k : nat) (done : bool) (p : ppc) : Prop :=
  match c with
  | RLoad _ _ _ | RStore _ _ _ => k = 0
  | RUnpark _ _ _ => k = 0 /\ done = true
  | RJoin _ _ _ => (k >= 1 /\ done = true) \/ (k = 0 /\ p_over p)
  | RSpawn _ _ => done = false
  | _ => True
  end.
Definition c_waits (c : cpc) : Prop := match c with RUnpark _ _ _ | RJoin _ _ _ => True | _ => False end.

Definition flag_inv (s : state) : Prop :=
  (handle s = true -> kicks s = 0) /\
  kick_ok (c_pc s) (kicks s) (is_done s) (p_pc s) /\
  (is_done s = true -> p_over (p_pc s) \/ c_waits (c_pc s)) /\
  (forall o, p_pc s <> PLoad [] o).

Lemma flag_init : forall cs b, flag_inv (init cs b).
Proof. intros. unfold flag_inv, kicks, p_over. cbn. intuition discriminate. Qed.

Lemma p_trans_over : forall cf s s', p_trans cf s s' ->
  kicks s' = kicks s /\ (is_done s = true -> is_done s' = true) /\ (p_over (p_pc s) -> p_over (p_pc s')) /\
  (is_done s' = true -> is_done s = true \/ p_over (p_pc s')).
Proof.
  unfold p_over. intros cf s s' T.
  destruct T; fields; rewrite H; (split; [reflexivity|split; [auto|split]]; [intros [|[|]]; try discriminate; auto|auto]).
Qed.

Lemma flag_step : forall cf s t s', struct_inv s -> flag_inv s -> step cf s t = Some s' -> flag_inv s'.
Proof.
  intros cf s t s' (S1 & _) (F1 & F2 & F3 & F4) T. apply step_trans in T.
  unfold flag_inv in *. destruct t.
  - unfold kicks in *. refine (conj _ (conj _ (conj _ _))).
    + clear F2 F3 F4. destruct T; fields; try assumption; at_pc S1; cbn [handle_ok] in S1;
        intuition (try reflexivity; congruence).
    + clear F4. destruct T; fields; try assumption; at_pc F2; at_pc F3; cbn [kick_ok c_waits] in *;
        try solve [intuition (try reflexivity; congruence)].
      left. split; [unfold count; cbn; lia | apply F2].
    + clear F1 F4. destruct T; fields; try assumption; at_pc F2; at_pc F3; cbn [kick_ok c_waits] in *;
        try solve [intuition (try reflexivity; congruence)].
      (* r_join, r_join_panic: the thread is over *)
      all: intros _; left; rewrite H0; unfold p_over; auto.
    + clear F1 F2 F3. destruct T; fields; try assumption. discriminate.
  - destruct (p_trans_live _ _ _ T) as (Ec & Eh & Hl & _), (p_trans_over _ _ _ T) as (Ek & Hd & Ho & Hd').
    rewrite Ec, Eh, Ek. refine (conj F1 (conj _ (conj _ _))).
    + clear F1 F4 T Ec Eh Ek. destruct (c_pc s); cbn [kick_ok handle_ok] in *; tauto.
    + tauto.
    + clear - T F4. destruct T; fields; try assumption; intros o'; try discriminate;
        destruct es; discriminate.
Qed.

Definition in_run (c : cpc) : option bool :=   (* Some d inside run() before the join returns *)
  match c with RLoad d _ _ | RStore d _ _ | RUnpark d _ _ | RJoin d _ _ => Some d | _ => None end.
Definition c_joins (c : cpc) : bool := match c with RJoin _ _ _ => true | _ => false end.
Definition to_park (p : ppc) : bool :=
  match p with PLock _ _ _ | PHeld _ _ _ | PSend _ _ _ | PPark _ _ => true | _ => false end.

Definition fit_inv (s : state) : Prop :=
  (in_run (c_pc s) = Some true -> undisc s = false -> length (chan s) + pot (is_done s) (p_pc s) (token s) <= 1) /\
  (* the kick's token is still there when the thread reaches its park *)
  (c_joins (c_pc s) = true -> to_park (p_pc s) = true -> kicks s >= 1 -> token s = true).

Lemma fit_init : forall cs b, fit_inv (init cs b).
Proof. intros. split; discriminate. Qed.

Lemma pot_flag_up : forall d p tk tk', pot true p tk <= pot d p tk'.
Proof. intros [|] p tk tk'; destruct p; cbn; lia. Qed.

Lemma pot_bound : forall s, pot (is_done s) (p_pc s) (token s) + parked s <= 1 + Nat.b2n (token s).
Proof. intros s. unfold parked. destruct (is_done s), (p_pc s), (token s); cbn; lia. Qed.

(* no step of the parsing thread raises what it has put and can still put into the channel *)
Lemma pot_p_step : forall k s s', p_trans (repaired k) s s' ->
  length (chan s') + pot (is_done s') (p_pc s') (token s') <= length (chan s) + pot (is_done s) (p_pc s) (token s).
Proof.
  intros k s s' T. destruct T; fields; rewrite H;
    try destruct es; cbn [next_pc];
    rewrite ?app_length; cbn [length];
    destruct (is_done s); try discriminate; destruct (token s); try discriminate; cbn; lia.
Qed.

Lemma fit_step : forall k s t s',
  quiet_inv s -> acct_inv s -> flag_inv s -> fit_inv s ->
  step (repaired k) s t = Some s' -> fit_inv s'.
Proof.
  intros k s t s' ((Q1 & Q2 & _) & _) (A1 & A2 & A3) (F1 & F2 & _) (I1 & I2) T. apply step_trans in T.
  unfold fit_inv, kicks in *. destruct t.
  - split.
    + clear I2. destruct T; fields; rewrite ?H; at_pc I1; cbn [in_run] in *; try assumption;
        try (intros E; discriminate E); intros E U.
      * (* c_rerun with every event received: all wake-ups are answered continues, so no token is left *)
        destruct (chan s); [|discriminate E]. rewrite nbp_nil in A2. specialize (F1 H1). specialize (A3 U).
        pose proof (pot_bound s). cbn [length] in *. lia.
      * specialize (I1 E U). pose proof (pot_flag_up (is_done s) (p_pc s) (token s) (token s)). lia.
      * (* r_unpark: the flag is up *) specialize (I1 E U). at_pc F2. destruct F2 as [_ D]. rewrite D in *.
        pose proof (pot_flag_up true (p_pc s) true (token s)). lia.
    + clear I1. destruct T; fields; rewrite ?H; cbn [c_joins]; intros E; try discriminate E.
      * (* r_load_done: not kicked *) at_pc F2. cbn [kick_ok] in F2. lia.
      * reflexivity.
  - destruct (p_trans_live _ _ _ T) as (Ec & _). rewrite Ec. split.
    + intros E U. assert (undisc s' = undisc s) as Eu by (destruct T; reflexivity). rewrite Eu in U.
      specialize (I1 E U). pose proof (pot_p_step _ _ _ T). lia.
    + intros E. assert (D : count is_kick (log s) >= 1 -> is_done s = true).
      { destruct (c_pc s); try discriminate E. cbn [kick_ok] in F2. intuition lia. }
      clear - I2 E D T. destruct T; fields; cbn [to_park]; try discriminate;
        try (destruct es; discriminate); intros _ K; at_pc I2.
      (* p_load needs the flag down; the other steps towards the park keep the token *)
      all: first [exact (I2 E eq_refl K) | specialize (D K); congruence].
Qed.
