(* C17 - a re-run terminates the previous run: the theorem, termination of all schedules, and the Mutex
   of the breakpoint set never blocking for good. *)
From Coq Require Import List Arith Bool Lia.
Import ListNotations.
Require Import PV.Debugger.Proto PV.Debugger.Spec PV.Debugger.Tactics PV.Debugger.Struct PV.Debugger.Quiet PV.Debugger.Progress
               PV.Debugger.Count.

(* THE PROGRESS THEOREM (repaired code): whenever the controller waits in the join of a re-run that
   it started after having received every delivered event, and it has only ever answered received
   breakpoint events with cont(), the parsing thread has finished or is able to take a step. *)
Theorem join_never_stuck : forall k cs b s,
  k >= 1 -> reachable (repaired k) cs b s -> disciplined s = true -> join_progress (repaired k) s.
Proof.
  intros k cs b s Hk Hr Hd Hj.
  destruct (all_reachable _ _ _ _ Hr) as ((S1 & _ & _ & _ & Hmx & _) & _ & _ & (_ & F2 & _ & F4) & (I1 & I2) & _).
  unfold disciplined in Hd. apply negb_true_iff in Hd.
  unfold in_join_drained in Hj. destruct (c_pc s) as [|? ? ?|? ? ?|? ? ?|[|] es o|? ?|? ?| | |?|?] eqn:Ec; try discriminate.
  cbn [handle_ok kick_ok in_run c_joins c_held] in *. specialize (I1 eq_refl Hd). rewrite orb_false_r in Hmx.
  (* `enabled` asks whether step returns Some, which p_trans / c_trans only say in the other direction: here
     and in mutex_never_blocks step_c / step_p are unfolded at the control point at hand *)
  unfold enabled, step, step_c, step_p, send. rewrite Ec. cbn [fixed repaired spur cap].
  destruct (p_pc s) as [|? ?|[|? ?] ?|? ? ?|? ? ?|? ? ?|? ?|?|?| | | |] eqn:Ep; cbn [pot to_park p_held] in *; auto.
  - destruct S1 as [_ []]. reflexivity.
  - destruct (F4 _ eq_refl).
  - destruct (is_done s); auto.
  - rewrite Hmx. auto.
  - (* PSend: the channel has room *)
    assert (E0 : length (chan s) = 0) by (destruct (is_done s); cbn in I1; lia).
    rewrite E0, (proj2 (Nat.ltb_lt 0 k)) by lia. auto.
  - (* PPark: the kick's token is there *)
    destruct F2 as [[K _]|[_ [|[|]]]]; try discriminate. rewrite (I2 eq_refl eq_refl K). auto.
  - destruct (is_done s); auto.
  - assert (E0 : length (chan s) = 0) by (destruct (is_done s); cbn in I1; lia).
    rewrite E0, (proj2 (Nat.ltb_lt 0 k)) by lia. auto.
Qed.

Corollary rerun_no_deadlock : forall k cs b s,
  k >= 1 -> reachable (repaired k) cs b s -> disciplined s = true -> in_join_drained s = true ->
  deadlocked (repaired k) s = false.
Proof.
  intros k cs b s Hk Hr Hd Hj. unfold deadlocked.
  destruct (join_never_stuck k cs b s Hk Hr Hd Hj) as [H|H]; rewrite H; cbn; auto.
  destruct (enabled (repaired k) s C); reflexivity.
Qed.

(* termination: every step decreases `measure`, so every schedule is finite.
   A thread's rank counts the steps it has left at most: one per control point, and five per entry still to
   be parsed (PLoad, PLock, PHeld, PSend, PPark), hence the 5 * length es.  The two steps that raise a rank are
   paid for in advance: taking a command off the list costs its cmd_weight, which exceeds the controller rank
   it leads to (CRun: 20 + 5n > 7 + pw es), and RSpawn's rank 2 + pw es exceeds the p_rank 5n + 7 of the
   thread it starts; so pw es is the price of one parsing thread. *)
Definition pw (es : list entry) : nat := 5 * length es + 8.
Definition cmd_weight (c : cmd) : nat := match c with CRun es _ => 20 + 5 * length es | _ => 3 end.
Definition c_rank (c : cpc) : nat :=
  match c with
  | CIdle => 0 | KLoad => 2 | KUnpark => 1 | EAdd _ | EDel _ => 1
  | RLoad _ es _ => 7 + pw es | RStore _ es _ => 6 + pw es | RUnpark _ es _ => 5 + pw es
  | RJoin _ es _ => 4 + pw es | RReset es _ => 3 + pw es | RSpawn es _ => 2 + pw es
  end.
Definition p_rank (p : ppc) : nat :=
  match p with
  | PNone | PDead => 0 | PDone => 1 | PExit => 2 | PStore => 3 | PFinalSend _ => 4 | PFinal _ => 5
  | PStart es _ => 5 * length es + 7 | PLoad es _ => 5 * length es + 6
  | PLock _ es _ => 5 * length es + 10 | PHeld _ es _ => 5 * length es + 9
  | PSend _ es _ => 5 * length es + 8 | PPark es _ => 5 * length es + 7
  end.
Definition measure (s : state) : nat :=
  list_sum (map cmd_weight (cmds s)) + c_rank (c_pc s) + p_rank (p_pc s).

Lemma step_decreases : forall cf s t s', step cf s t = Some s' -> measure s' < measure s.
Proof.
  (* per transition both sides are sums of the constants above and of length es: one lia each *)
  intros cf s t s' T. apply step_trans in T. unfold measure.
  destruct t; destruct T; fields; rewrite H, ?H0;
    try destruct es;
    unfold list_sum; cbn [next_pc map fold_right cmd_weight c_rank p_rank length]; unfold pw; cbn [length]; lia.
Qed.

Theorem all_schedules_finite : forall cf sch s s',
  exec cf s sch = Some s' -> length sch + measure s' <= measure s.
Proof.
  induction sch as [|t sch IH]; intros s s' H; cbn [exec] in H.
  - injection H as <-. cbn. lia.
  - destruct (step cf s t) eqn:E; [|discriminate].
    apply step_decreases in E. apply IH in H. cbn [length]. lia.
Qed.

(* the controller is about to call add_breakpoint / delete_breakpoint *)
Definition edit_pending (s : state) : bool :=
  match c_pc s, cmds s with
  | CIdle, CAdd _ :: _ | CIdle, CDel _ :: _ => true
  | _, _ => false
  end.
(* the listener is about to lock the breakpoint set *)
Definition lookup_pending (s : state) : bool := match p_pc s with PLock _ _ _ => true | _ => false end.

(* Whoever wants the guard either gets it at once, or the other thread holds it, can always take its
   next step, and that step drops the guard: in particular an edit issued while the parse is stopped
   at a breakpoint (parked, or blocked in send) goes through immediately. *)
Definition edits_never_block (cf : config) (s : state) : Prop :=
  (edit_pending s = true ->
     enabled cf s C = true \/
     (enabled cf s P = true /\ forall s', step cf s P = Some s' -> enabled cf s' C = true)) /\
  (lookup_pending s = true ->
     enabled cf s P = true \/
     (enabled cf s C = true /\ forall s', step cf s C = Some s' -> enabled cf s' P = true)) /\
  (* while parked or blocked in send the parsing thread does not hold the guard *)
  (match p_pc s with PSend _ _ _ | PPark _ _ | PFinal _ | PFinalSend _ => edit_pending s = true -> enabled cf s C = true | _ => True end).

Theorem mutex_never_blocks : forall cf cs b s, reachable cf cs b s -> edits_never_block cf s.
Proof.
  intros cf cs b s Hr. pose proof (struct_reachable _ _ _ _ Hr) as Hst.
  destruct Hst as (_ & _ & _ & _ & Hmx & Hex).
  destruct s as [cm cp pp hd tk dn bp mx ch lg ud ou ce co].
  unfold p_held, c_held, edits_never_block, edit_pending, lookup_pending, enabled, step, step_c, step_p in *. cbn in *.
  repeat split.
  - intros He. destruct cp; try discriminate. destruct cm as [|c cm]; try discriminate.
    destruct c; try discriminate; cbn in *; rewrite orb_false_r in Hmx; subst mx;
      (destruct pp; cbn; auto; right; split; [reflexivity|]; intros s' E; injection E as <-; reflexivity).
  - intros He. destruct pp; try discriminate. cbn in *. subst mx.
    destruct cp; cbn; auto; right; (split; [reflexivity|]); intros s' E; injection E as <-; reflexivity.
  - destruct pp; auto; intros He; destruct cp; try discriminate; destruct cm as [|c cm]; try discriminate;
      destruct c; try discriminate; cbn in *; subst mx; reflexivity.
Qed.
