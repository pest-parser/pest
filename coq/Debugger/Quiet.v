(* C17 - quiet while parked; at most one delivery per unpark (both versions of the code). *)
From Coq Require Import List Arith Bool Lia.
Import ListNotations.
Require Import PV.Debugger.Proto PV.Debugger.Spec PV.Debugger.Tactics.

(* final event sent => the thread is past its send *)
Definition past_final (s : state) : Prop :=
  count is_send (log s) = count is_bp_send (log s) \/
  (count is_send (log s) = count is_bp_send (log s) + 1 /\
   match p_pc s with PStore | PExit | PDone => True | _ => False end).

Definition final_ev_ok (s : state) : Prop :=
  match p_pc s with PFinal (EvBp _ _) | PFinalSend (EvBp _ _) => False | _ => True end.

Definition quiet_inv (s : state) : Prop := quiet_ok s /\ past_final s /\ final_ev_ok s.

Lemma quiet_init : forall cs b, quiet_inv (init cs b).
Proof. intros. unfold quiet_inv, quiet_ok, past_final, final_ev_ok. cbn. intuition lia. Qed.

Lemma quiet_step : forall cf s t s', spur cf = false ->
  quiet_inv s -> step cf s t = Some s' -> quiet_inv s'.
Proof.
  intros cf s t s' Hsp Hi T. apply step_trans in T.
  unfold quiet_inv, quiet_ok, past_final, final_ev_ok, parked in *.
  destruct t; destruct T; fields; try assumption; try at_pc Hi.
  all: try match goal with |- context [next_pc ?es ?o] => destruct es; [destruct o|]; cbn [next_pc ev_of] end.
  all: try match goal with ev : event |- _ => destruct ev end.
  all: try match goal with E : _ || _ = true |- _ => rewrite Hsp, orb_false_r in E; rewrite E in Hi end.
  (* what is left are linear facts about the counters of the log: a step adds at most one act, which moves
     each count by 0 or 1, and the clauses of quiet_inv relate those counts *)
  all: unfold count in *; cbn [filter length is_bp_send is_send is_wake is_cont is_kick Nat.b2n] in *.
  all: try destruct (token s); cbn [Nat.b2n] in *.
  all: intuition lia.
Qed.

Lemma quiet_reachable : forall cf cs b s, spur cf = false -> reachable cf cs b s -> quiet_inv s.
Proof.
  intros cf cs b s Hsp. apply reachable_ind; [apply quiet_init|].
  intros; eapply quiet_step; eauto.
Qed.

Theorem quiet_while_parked : forall cf cs b s, spur cf = false -> reachable cf cs b s -> quiet_ok s.
Proof. intros. eapply quiet_reachable; eauto. Qed.

Theorem deliveries_le_unparks : forall cf cs b s, spur cf = false -> reachable cf cs b s -> count_weak_ok s.
Proof.
  intros cf cs b s Hsp Hr. destruct (quiet_reachable _ _ _ _ Hsp Hr) as [(Q1 & Q2 & Q3) [P _]].
  unfold count_weak_ok, past_final, parked in *.
  destruct P as [P|[P Hpc]]; destruct (p_pc s); try contradiction; lia.
Qed.
