(* C17 - the transitions of the protocol as two relations (p_trans for the parsing thread, c_trans for the
   controller: one constructor per control point and branch), the lemmas that read `step` as these relations,
   the four tactics used on their cases, and the induction principle over reachable states. *)
From Coq Require Import List Arith Bool Lia.
Import ListNotations.
Require Import PV.Debugger.Proto.

Arguments Nat.ltb : simpl never.
Arguments Nat.leb : simpl never.

Definition sent (s : state) (ev : event) : state := add_log (set_chan s (chan s ++ [ev])) (ASend ev).

(* `step cf s t = Some s'` read as a relation: the guards of each branch are premises, the successor
   is the explicit update of s.  The invariants' step lemmas go by cases on this relation; only the two enabledness lemmas of Rerun.v unfold `step` itself. *)
Inductive p_trans (cf : config) (s : state) : state -> Prop :=
| p_start es o : p_pc s = PStart es o -> p_trans cf s (set_p s (next_pc es o))
| p_abort e es o : p_pc s = PLoad (e :: es) o -> is_done s = true -> e_panic e = false ->
    p_trans cf s (add_log (set_p s (PFinal EvAbort)) AAbort)
| p_abort_panic e es o : p_pc s = PLoad (e :: es) o -> is_done s = true -> e_panic e = true ->
    p_trans cf s (add_log (set_p s PDead) AAbort)
| p_load e es o : p_pc s = PLoad (e :: es) o -> is_done s = false -> p_trans cf s (set_p s (PLock e es o))
| p_lock e es o : p_pc s = PLock e es o -> mtx s = false -> p_trans cf s (set_mtx (set_p s (PHeld e es o)) true)
| p_hit e es o : p_pc s = PHeld e es o -> mem (e_rule e) (bps s) = true ->
    p_trans cf s (add_log (set_mtx (set_p s (PSend e es o)) false) (ALook e (bps s)))
| p_miss e es o : p_pc s = PHeld e es o -> mem (e_rule e) (bps s) = false ->
    p_trans cf s (add_log (set_mtx (set_p s (next_pc es o)) false) (ALook e (bps s)))
| p_send e es o : p_pc s = PSend e es o -> length (chan s) < cap cf ->
    p_trans cf s (set_p (sent s (EvBp (e_rule e) (e_pos e))) (PPark es o))
| p_wake es o : p_pc s = PPark es o -> token s || spur cf = true ->
    p_trans cf s (add_log (set_token (set_p s (next_pc es o)) false) AWake)
| p_final_skip ev : p_pc s = PFinal ev -> fixed cf = true -> is_done s = true -> p_trans cf s (set_p s PStore)
| p_final_check ev : p_pc s = PFinal ev -> fixed cf = true -> is_done s = false ->
    p_trans cf s (set_p s (PFinalSend ev))
| p_final_literal ev : p_pc s = PFinal ev -> fixed cf = false -> length (chan s) < cap cf ->
    p_trans cf s (set_p (sent s ev) PStore)
| p_final_send ev : p_pc s = PFinalSend ev -> length (chan s) < cap cf -> p_trans cf s (set_p (sent s ev) PStore)
| p_store : p_pc s = PStore -> p_trans cf s (set_done (set_p s PExit) true)
| p_exit : p_pc s = PExit -> p_trans cf s (set_p s PDone).

Inductive c_trans (cf : config) (s : state) : state -> Prop :=
| c_rerun es o cs : c_pc s = CIdle -> cmds s = CRun es o :: cs -> handle s = true ->
    c_trans cf s (set_c (set_handle (pop_cmd s cs) false) (RLoad (isnil (chan s)) es o))
| c_run es o cs : c_pc s = CIdle -> cmds s = CRun es o :: cs -> handle s = false ->
    c_trans cf s (set_c (pop_cmd s cs) (RReset es o))
| c_cont cs : c_pc s = CIdle -> cmds s = CCont :: cs -> c_trans cf s (set_c (pop_cmd s cs) KLoad)
| c_add rs cs : c_pc s = CIdle -> cmds s = CAdd rs :: cs -> mtx s = false ->
    c_trans cf s (set_mtx (set_c (pop_cmd s cs) (EAdd rs)) true)
| c_del r cs : c_pc s = CIdle -> cmds s = CDel r :: cs -> mtx s = false ->
    c_trans cf s (set_mtx (set_c (pop_cmd s cs) (EDel r)) true)
| c_recv_norx cs : c_pc s = CIdle -> cmds s = CRecv :: cs -> p_pc s = PNone ->
    c_trans cf s (add_out (pop_cmd s cs) ONoRx)
| c_recv ev ch cs : c_pc s = CIdle -> cmds s = CRecv :: cs -> p_pc s <> PNone -> chan s = ev :: ch ->
    c_trans cf s (add_log (add_out (set_chan (pop_cmd s cs) ch) (ORecv ev)) (ARecv ev))
| c_recv_disc cs : c_pc s = CIdle -> cmds s = CRecv :: cs -> p_pc s = PDone \/ p_pc s = PDead -> chan s = [] ->
    c_trans cf s (add_out (pop_cmd s cs) ODisc)
| r_load_done d es o : c_pc s = RLoad d es o -> is_done s = true -> c_trans cf s (set_c s (RJoin d es o))
| r_load d es o : c_pc s = RLoad d es o -> is_done s = false -> c_trans cf s (set_c s (RStore d es o))
| r_store d es o : c_pc s = RStore d es o -> c_trans cf s (set_done (set_c s (RUnpark d es o)) true)
| r_unpark d es o : c_pc s = RUnpark d es o -> c_trans cf s (add_log (set_token (set_c s (RJoin d es o)) true) AKick)
| r_join d es o : c_pc s = RJoin d es o -> p_pc s = PDone -> c_trans cf s (set_c s (RReset es o))
| r_join_panic d es o : c_pc s = RJoin d es o -> p_pc s = PDead -> c_trans cf s (add_out (set_c s CIdle) ORunPanic)
| r_reset es o : c_pc s = RReset es o -> c_trans cf s (set_done (set_c s (RSpawn es o)) false)
| r_spawn es o : c_pc s = RSpawn es o -> c_trans cf s (spawn s es o)
| k_eof : c_pc s = KLoad -> is_done s = true -> c_trans cf s (add_out (set_c s CIdle) OContEof)
| k_load : c_pc s = KLoad -> is_done s = false -> handle s = true -> c_trans cf s (set_c s KUnpark)
| k_norun : c_pc s = KLoad -> is_done s = false -> handle s = false ->
    c_trans cf s (add_out (set_c s CIdle) OContNoRun)
| k_unpark : c_pc s = KUnpark ->
    c_trans cf s (add_out (add_log (set_undisc (set_token (set_c s CIdle) true)
                    (undisc s || negb (count is_cont (log s) <? count is_bp_recv (log s)))) ACont) OContOk)
| e_add rs : c_pc s = EAdd rs -> c_trans cf s (set_mtx (set_bps (set_c s CIdle) (add_rules rs (bps s))) false)
| e_del r : c_pc s = EDel r -> c_trans cf s (set_mtx (set_bps (set_c s CIdle) (remove_rule r (bps s))) false).

(* H : Some x = Some s' is a branch of step_c / step_p in which every guard has been decided.  by_trans
   finds the one constructor of c_trans / p_trans whose successor is x (that of the control point and guards
   at hand: each successor has its own shape) and takes its premises from the case equations Ec, Ep, Ed ...
   in the context; `p_pc s <> PNone` is left to congruence.  A call reads "this leaf is that transition". *)
Ltac by_trans H := injection H as <-; econstructor; eauto; congruence.

Lemma step_c_trans : forall cf s s', step_c cf s = Some s' -> c_trans cf s s'.
Proof.
  intros cf s s' H. unfold step_c in H. destruct (c_pc s) eqn:Ec.
  - destruct (cmds s) as [|[] cs] eqn:Em; [discriminate|..].
    + cbn [handle chan pop_cmd] in H. destruct (handle s) eqn:Eh; by_trans H.
    + by_trans H.
    + destruct (mtx s) eqn:Ex; [discriminate | by_trans H].
    + destruct (mtx s) eqn:Ex; [discriminate | by_trans H].
    + destruct (chan s) eqn:Eh, (p_pc s) eqn:Ep; try discriminate H; by_trans H.
  - destruct (is_done s) eqn:Ed; by_trans H.
  - by_trans H.
  - by_trans H.
  - destruct (p_pc s) eqn:Ep; try discriminate H; by_trans H.
  - by_trans H.
  - by_trans H.
  - destruct (is_done s) eqn:Ed; [|destruct (handle s) eqn:Eh]; by_trans H.
  - by_trans H.
  - by_trans H.
  - by_trans H.
Qed.

(* decides the guard `length (chan s) <? cap cf` of a blocking send in H: room, or the step is not enabled *)
Ltac room H := destruct (_ <? _) eqn:El; [apply Nat.ltb_lt in El | discriminate H].

Lemma step_p_trans : forall cf s s', step_p cf s = Some s' -> p_trans cf s s'.
Proof.
  intros cf s s' H. unfold step_p, send in H.
  destruct (p_pc s) as [| |[|e es] o| | | | | | | | | |] eqn:Ep; try discriminate H.
  - by_trans H.
  - destruct (is_done s) eqn:Ed; [destruct (e_panic e) eqn:Ee|]; by_trans H.
  - destruct (mtx s) eqn:Ex; [discriminate | by_trans H].
  - destruct (mem (e_rule e) (bps s)) eqn:Em; by_trans H.
  - room H. by_trans H.
  - destruct (token s || spur cf) eqn:Et; [by_trans H | discriminate].
  - destruct (fixed cf) eqn:Ef; [destruct (is_done s) eqn:Ed | room H]; by_trans H.
  - room H. by_trans H.
  - by_trans H.
  - by_trans H.
Qed.

Lemma step_trans : forall cf s t s', step cf s t = Some s' ->
  match t with C => c_trans cf s s' | P => p_trans cf s s' end.
Proof. intros cf s [|] s'; [apply step_c_trans | apply step_p_trans]. Qed.

(* computes the projections of the explicit successors (c_pc (set_c s pc) to pc, log (set_c s pc) to log s ...)
   and nothing else, so that the state stays a variable and a clause whose fields a transition does not
   touch comes out convertible to its hypothesis *)
Ltac fields :=
  cbn [cmds c_pc p_pc handle token is_done bps mtx chan log undisc out cur_es cur_o
       set_c set_p add_log add_out set_token set_done set_chan set_mtx set_bps pop_cmd set_handle set_undisc
       spawn sent] in *.

(* after `destruct T` on a transition: rewrites hypothesis H with the premise that says at which control
   point the moving thread stands (c_pc s = ... for the controller, p_pc s = ... for the parsing thread) *)
Ltac at_pc H := match goal with E : c_pc _ = _ |- _ => rewrite E in H | E : p_pc _ = _ |- _ => rewrite E in H end.

Lemma exec_app : forall cf sch1 sch2 s,
  exec cf s (sch1 ++ sch2) = match exec cf s sch1 with Some s' => exec cf s' sch2 | None => None end.
Proof.
  induction sch1 as [|t sch1 IH]; intros sch2 s; cbn [exec app]; [reflexivity|].
  destruct (step cf s t); [apply IH|reflexivity].
Qed.

Lemma reachable_ind : forall cf (I : state -> Prop),
  (forall cs b, I (init cs b)) ->
  (forall s t s', I s -> step cf s t = Some s' -> I s') ->
  forall cs b s, reachable cf cs b s -> I s.
Proof.
  intros cf I Hinit Hstep cs b s [sch Hs].
  assert (G : forall sch s0 s1, I s0 -> exec cf s0 sch = Some s1 -> I s1).
  { induction sch0 as [|t sch0 IH]; intros s0 s1 H0 He; cbn [exec] in He.
    - injection He as <-. exact H0.
    - destruct (step cf s0 t) eqn:Es; [|discriminate]. eapply IH; [|exact He]. eapply Hstep; eauto. }
  eapply G; [apply Hinit | exact Hs].
Qed.
