(* C17 - structural invariant: which thread states go with which controller states. *)
From Coq Require Import List Arith Bool Lia.
Import ListNotations.
Require Import PV.Debugger.Proto PV.Debugger.Spec PV.Debugger.Tactics.

Definition p_gone (p : ppc) : Prop := p = PNone \/ p = PDone \/ p = PDead.

(* who holds the guard of the breakpoint set *)
Definition p_held (p : ppc) : bool := match p with PHeld _ _ _ => true | _ => false end.
Definition c_held (c : cpc) : bool := match c with EAdd _ | EDel _ => true | _ => false end.

(* what the controller's control point says about the handle h and the thread behind it *)
Definition handle_ok (c : cpc) (h : bool) (p : ppc) : Prop :=
  match c with
  | CIdle | KLoad | EAdd _ | EDel _ => h = false -> p = PNone \/ p = PDead
  | KUnpark => h = true
  | RLoad _ _ _ | RStore _ _ _ | RUnpark _ _ _ | RJoin _ _ _ => h = false /\ p <> PNone
  | RReset _ _ | RSpawn _ _ => h = false /\ p_gone p
  end.

Definition struct_inv (s : state) : Prop :=
  handle_ok (c_pc s) (handle s) (p_pc s) /\
  (handle s = true -> p_pc s <> PNone) /\
  (* an abort is only ever caused by the flag, and the flag stays up while the thread lives *)
  (aborted (log s) = true -> p_pc s <> PDone -> p_pc s <> PDead -> is_done s = true) /\
  (p_pc s = PNone -> log s = []) /\
  (* the mutex is held by exactly the thread whose control point says so *)
  mtx s = (p_held (p_pc s) || c_held (c_pc s)) /\ (p_held (p_pc s) && c_held (c_pc s) = false).

Lemma struct_init : forall cs b, struct_inv (init cs b).
Proof. intros. unfold struct_inv. cbn. intuition congruence. Qed.

Lemma p_trans_live : forall cf s s', p_trans cf s s' ->
  c_pc s' = c_pc s /\ handle s' = handle s /\ ~ p_gone (p_pc s) /\ p_pc s' <> PNone.
Proof.
  intros cf s s' T. repeat apply conj; destruct T; try reflexivity; fields;
    try destruct es;
    try discriminate; rewrite H; intros [|[|]]; discriminate.
Qed.

Lemma handle_ok_live : forall c h p p', ~ p_gone p -> p' <> PNone -> handle_ok c h p -> handle_ok c h p'.
Proof. unfold p_gone. destruct c; cbn; tauto. Qed.

Lemma gone_not_held : forall p, p_gone p -> p_held p = false.
Proof. intros p [->|[->| ->]]; reflexivity. Qed.

Lemma next_not_held : forall es o, p_held (next_pc es o) = false.
Proof. intros [|e es] o; reflexivity. Qed.

Lemma struct_step : forall cf s t s', struct_inv s -> step cf s t = Some s' -> struct_inv s'.
Proof.
  intros cf s t s' (H1 & H2 & H3 & H4 & H56) T. apply step_trans in T.
  unfold struct_inv, aborted in *. destruct t.
  - refine (conj _ (conj _ (conj _ (conj _ _)))).
    + clear H3 H4 H56. destruct T; fields; try assumption; at_pc H1; cbn [handle_ok] in *; unfold p_gone;
        intuition congruence.
    + clear H3 H4 H56. destruct T; fields; try assumption; intuition congruence.
    + clear H2 H56. destruct T; fields; try assumption; cbn [existsb orb]; try solve [intuition congruence].
      (* r_reset takes the flag down: the previous thread is gone, and PNone has an empty log *)
      at_pc H1. destruct H1 as [_ [E|[E|E]]]; [rewrite (H4 E)|..]; intuition congruence.
    + clear H3 H56. destruct T; fields; try assumption; at_pc H1; cbn [handle_ok] in H1; intuition congruence.
    + clear H2 H3 H4. destruct T; fields; try assumption; at_pc H56; cbn [c_held p_held] in *;
        try (at_pc H1; pose proof (gone_not_held _ (proj2 H1)));   (* r_spawn: the thread it replaces is gone *)
        destruct (p_held (p_pc s)); cbn [orb andb] in *; intuition congruence.
  - destruct (p_trans_live _ _ _ T) as (Ec & Eh & Hl & Hn). rewrite Ec, Eh.
    refine (conj _ (conj _ (conj _ (conj _ _)))).
    + exact (handle_ok_live _ _ _ _ Hl Hn H1).
    + intros _. exact Hn.
    + clear H1 H2 H4 H56. destruct T; fields; try assumption; cbn [existsb orb]; intuition congruence.
    + intros E. destruct (Hn E).
    + clear H1 H2 H3 H4 Hl Hn Ec Eh. destruct T; fields; try assumption; at_pc H56;
        rewrite ?next_not_held; cbn [p_held] in *; destruct (c_held (c_pc s)); cbn [orb andb] in *; intuition congruence.
Qed.

Lemma struct_reachable : forall cf cs b s, reachable cf cs b s -> struct_inv s.
Proof.
  intros cf cs b s. apply reachable_ind; [apply struct_init|]. intros; eapply struct_step; eauto.
Qed.
