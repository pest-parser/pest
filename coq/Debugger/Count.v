(* C17 - at most one delivery per continue (repaired code). *)
From Coq Require Import List Arith Bool Lia.
Import ListNotations.
Require Import PV.Debugger.Proto PV.Debugger.Spec PV.Debugger.Tactics PV.Debugger.Struct PV.Debugger.Quiet PV.Debugger.Progress.

(* after the kick the flag is up, so the only deliveries still possible are those already under way *)
Definition under_way (p : ppc) : nat :=
  match p with PLock _ _ _ | PHeld _ _ _ | PSend _ _ _ | PFinalSend _ => 1 | _ => 0 end.

Definition cnt_inv (s : state) : Prop :=
  kicks s >= 1 ->
  (is_done s = true \/ p_pc s = PDone \/ p_pc s = PDead) /\
  count is_send (log s) + under_way (p_pc s) <= 1 + count is_cont (log s).

Lemma cnt_init : forall cs b, cnt_inv (init cs b).
Proof. intros. unfold cnt_inv, kicks. cbn. lia. Qed.

Lemma under_way_p_step : forall k s s', p_trans (repaired k) s s' -> is_done s = true ->
  count is_cont (log s') = count is_cont (log s) /\
  count is_send (log s') + under_way (p_pc s') <= count is_send (log s) + under_way (p_pc s).
Proof.
  intros k s s' T D. split; [destruct T; reflexivity|].
  destruct T; fields; rewrite H; try congruence; try discriminate;
    try destruct es; unfold count; cbn; lia.
Qed.

(* before the kick: quiet_inv alone bounds the deliveries, those under way included *)
Lemma under_way_unkicked : forall s, quiet_inv s -> kicks s = 0 ->
  count is_send (log s) + under_way (p_pc s) <= 1 + count is_cont (log s).
Proof.
  unfold quiet_inv, quiet_ok, past_final, parked, kicks. intros s ((Q1 & Q2 & Q3) & [P|[P Hpc]] & _) K;
    destruct (p_pc s); try contradiction; cbn [under_way]; lia.
Qed.

Lemma cnt_step : forall k s t s',
  struct_inv s -> quiet_inv s -> flag_inv s -> cnt_inv s ->
  step (repaired k) s t = Some s' -> cnt_inv s'.
Proof.
  intros k s t s' (S1 & _ & _ & S4 & _) Q (_ & F2 & _) Hi T. apply step_trans in T.
  unfold cnt_inv in *. destruct t.
  - unfold kicks in Hi |- *. destruct T; fields; try assumption.
    + tauto.
    + (* r_unpark: the first kick *) intros _. at_pc F2. destruct F2 as [K D].
      split; [auto | exact (under_way_unkicked s Q K)].
    + (* r_reset: the previous thread is gone, and one that never ran was never kicked *)
      at_pc S1. destruct S1 as [_ [E|E]]; [rewrite (S4 E); cbn; lia | tauto].
    + cbn. lia.
    + intros K. destruct (Hi K) as [D L]. split; [exact D | unfold count in *; cbn; lia].
  - destruct (p_trans_live _ _ _ T) as (_ & _ & Hl & _), (p_trans_over _ _ _ T) as (-> & Hd & _).
    intros K. destruct (Hi K) as [[D|D] L]; [|destruct Hl; right; exact D].
    destruct (under_way_p_step _ _ _ T D) as [-> U]. split; [auto | lia].
Qed.

Definition all_inv (s : state) : Prop :=
  struct_inv s /\ quiet_inv s /\ acct_inv s /\ flag_inv s /\ fit_inv s /\ cnt_inv s.

Lemma all_reachable : forall k cs b s, reachable (repaired k) cs b s -> all_inv s.
Proof.
  intros k cs b s. apply reachable_ind.
  - intros cs0 b0. exact (conj (struct_init _ _) (conj (quiet_init _ _) (conj (acct_init _ _)
      (conj (flag_init _ _) (conj (fit_init _ _) (cnt_init _ _)))))).
  - intros s0 t s1 (H1 & H2 & H3 & H4 & H5 & H6) Hs. unfold all_inv.
    pose proof (struct_step _ _ _ _ H1 Hs). pose proof (quiet_step (repaired k) _ _ _ eq_refl H2 Hs).
    pose proof (acct_step _ _ _ _ H3 Hs). pose proof (flag_step _ _ _ _ H1 H4 Hs).
    pose proof (fit_step _ _ _ _ H2 H3 H4 H5 Hs). pose proof (cnt_step _ _ _ _ H1 H2 H4 H6 Hs). tauto.
Qed.

(* clause 3 of C17 for the repaired code: besides the first, the controller is delivered one event per cont() *)
Theorem one_delivery_per_cont : forall k cs b s, reachable (repaired k) cs b s -> count_ok s.
Proof.
  intros k cs b s Hr. destruct (all_reachable _ _ _ _ Hr) as (_ & Hq & _ & _ & _ & Hc). unfold count_ok.
  destruct (kicks s) eqn:Ek.
  - pose proof (under_way_unkicked s Hq Ek). lia.
  - unfold cnt_inv in Hc. rewrite Ek in Hc. destruct Hc; lia.
Qed.
