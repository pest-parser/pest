(* C17 - the delivered events are exactly the breakpoint hits of the parse, then the outcome. *)
From Coq Require Import List Arith Bool Lia.
Import ListNotations.
Require Import PV.Debugger.Proto PV.Debugger.Spec PV.Debugger.Tactics PV.Debugger.Struct.

Lemma hits_snoc : forall lk x, hits (lk ++ [x]) = hits lk ++ (if hit x then [bp_event x] else []).
Proof.
  intros. unfold hits. rewrite filter_app, map_app. cbn [filter]. destruct (hit x); reflexivity.
Qed.

Arguments hits : simpl never.
Arguments mem : simpl never.
Lemma hits_nil : hits [] = []. Proof. reflexivity. Qed.

(* the run is over: a prefix of the parse was looked up, its hits were delivered, then at most one final event *)
Definition ended (cf : config) (l : list act) (ce : list entry) (co : outcome) : Prop :=
  (exists rest, map fst (looks l) ++ rest = ce) /\
  (sends l = hits (looks l) \/
   (sends l = hits (looks l) ++ [ev_of co] /\ map fst (looks l) = ce /\ aborted l = false) \/
   (sends l = hits (looks l) ++ [EvAbort] /\ fixed cf = false /\ aborted l = true)).

(* what is known at control point p of the parsing thread, of the log l of a run of entries ce with outcome co *)
Definition safe_at (cf : config) (p : ppc) (l : list act) (ce : list entry) (co : outcome) : Prop :=
  let lk := looks l in
  let sd := sends l in
  let ab := aborted l in
  match p with
  | PNone => True
  | PStart es o | PLoad es o | PPark es o =>
      o = co /\ map fst lk ++ es = ce /\ sd = hits lk /\ ab = false
  | PLock e es o | PHeld e es o =>
      o = co /\ map fst lk ++ e :: es = ce /\ sd = hits lk /\ ab = false
  | PSend e es o =>
      o = co /\ map fst lk ++ es = ce /\ ab = false /\
      exists lk0 bs, lk = lk0 ++ [(e, bs)] /\ hit (e, bs) = true /\ sd = hits lk0
  | PFinal ev =>
      sd = hits lk /\
      ((ev = ev_of co /\ map fst lk = ce /\ ab = false) \/
       (ev = EvAbort /\ ab = true /\ exists rest, map fst lk ++ rest = ce))
  | PFinalSend ev =>     (* only reached in the repaired code, with the flag down: not after an abort *)
      sd = hits lk /\ ev = ev_of co /\ map fst lk = ce /\ ab = false
  | PStore | PExit | PDone => ended cf l ce co
  | PDead => (exists rest, map fst lk ++ rest = ce) /\ sd = hits lk /\ ab = true
  end.

Definition safe_inv (cf : config) (s : state) : Prop := safe_at cf (p_pc s) (log s) (cur_es s) (cur_o s).

Lemma safe_init : forall cf cs b, safe_inv cf (init cs b).
Proof. intros. exact I. Qed.

Lemma pre_intro : forall (l : list (entry * list rule)) es ce, map fst l ++ es = ce -> exists rest, map fst l ++ rest = ce.
Proof. intros. eauto. Qed.

(* between two entries: the next entry is up, or the parse returns its outcome *)
Lemma safe_next : forall cf es o l ce co,
  o = co -> map fst (looks l) ++ es = ce -> sends l = hits (looks l) -> aborted l = false ->
  safe_at cf (next_pc es o) l ce co.
Proof.
  intros cf [|e es] o l ce co -> E S A; cbn [next_pc safe_at]; [|auto].
  rewrite app_nil_r in E. auto.
Qed.

Lemma safe_step : forall cf s t s',
  struct_inv s -> safe_inv cf s -> step cf s t = Some s' -> safe_inv cf s'.
Proof.
  intros cf s t s' (_ & _ & S3 & _) Hi T. apply step_trans in T.
  unfold safe_inv in *. destruct t.
  - (* controller steps never touch the parsing thread's facts, except spawn *)
    destruct T; fields; try assumption. repeat split.
  - destruct T; fields; at_pc Hi; at_pc S3; cbn [safe_at] in *; unfold ended;
      cbn [looks sends aborted existsb orb] in *.
    + destruct Hi as (? & ? & ? & ?). apply safe_next; assumption.
    + destruct Hi as (_ & E & S & _). eauto 6 using pre_intro.
    + destruct Hi as (_ & E & S & _). eauto using pre_intro.
    + assumption.
    + assumption.
    + destruct Hi as (-> & E & S & A). rewrite map_app, <- app_assoc. repeat split; auto.
      exists (looks (log s)), (bps s). auto.
    + destruct Hi as (-> & E & S & A). apply safe_next; auto.
      * cbn [looks]. rewrite map_app, <- app_assoc. exact E.
      * cbn [looks sends]. rewrite hits_snoc. unfold hit. cbn [fst snd]. rewrite H0, app_nil_r. exact S.
    + destruct Hi as (-> & E & A & lk0 & bs & L & Hh & S). repeat split; auto.
      rewrite S, L, hits_snoc, Hh. reflexivity.
    + destruct Hi as (? & ? & ? & ?). apply safe_next; assumption.
    + destruct Hi as (S & [(_ & E & _)|(_ & _ & Hp)]); split; auto.
      exists []. rewrite app_nil_r. exact E.
    + (* p_final_check: the flag is down, so the parse was not aborted *)
      destruct Hi as (S & [?|(_ & A & _)]); [tauto|].
      rewrite S3 in H1 by (auto; discriminate). discriminate H1.
    + destruct Hi as (S & [(-> & E & A)|(-> & A & Hp)]); rewrite S.
      * split; [exists []; rewrite app_nil_r; exact E | auto].
      * auto 6.
    + destruct Hi as (S & -> & E & A). rewrite S.
      split; [exists []; rewrite app_nil_r; exact E | auto].
    + assumption.
    + assumption.
Qed.

Lemma safe_reachable : forall cf cs b s, reachable cf cs b s -> safe_inv cf s /\ struct_inv s.
Proof.
  intros cf cs b s Hr. split; [|eapply struct_reachable; eauto].
  revert cs b s Hr.
  apply (reachable_ind cf (fun s => safe_inv cf s /\ struct_inv s)).
  - intros. split; [apply safe_init | apply struct_init].
  - intros s t s' [H1 H2] Hs. split; [eapply safe_step | eapply struct_step]; eauto.
Qed.


Lemma firstn_app_exact : forall (A : Type) (l r : list A), firstn (length l) (l ++ r) = l.
Proof. intros. rewrite firstn_app, Nat.sub_diag, firstn_all. cbn. apply app_nil_r. Qed.

Lemma delivery_intro : forall ab s rest tail,
  map fst (looks (log s)) ++ rest = cur_es s -> sends (log s) = hits (looks (log s)) ++ tail ->
  tail = [] \/
  (tail = [ev_of (cur_o s)] /\ rest = [] /\ aborted (log s) = false) \/
  (tail = [EvAbort] /\ ab = true /\ aborted (log s) = true) ->
  delivery_ok ab s.
Proof.
  intros ab s rest tail E S Ht. exists (looks (log s)), [], tail, (length (map fst (looks (log s)))).
  rewrite app_nil_r, <- E, firstn_app_exact. repeat split; auto.
  destruct Ht as [?|[(? & -> & ?)|?]]; rewrite ?app_nil_r; auto 7.
Qed.

(* THE SAFETY THEOREM: in every reachable state (any grammar's entry list, breakpoint set, command
   history, schedule; any channel capacity; with or without the repair) the delivered events are
   exactly the breakpoint hits of a prefix of the parse, followed at most by the outcome. *)
Theorem delivery_exact : forall cf cs b s,
  reachable cf cs b s -> delivery_ok (negb (fixed cf)) s.
Proof.
  intros cf cs b s Hr. destruct (safe_reachable _ _ _ _ Hr) as [Hs (_ & _ & _ & Hnone & _)].
  unfold safe_inv in Hs.
  assert (Hend : ended cf (log s) (cur_es s) (cur_o s) -> delivery_ok (negb (fixed cf)) s).
  { intros ([rest E] & [S|[(S & E' & A)|(S & F & A)]]).
    - apply (delivery_intro _ s rest []); rewrite ?app_nil_r; auto.
    - apply (delivery_intro _ s [] [ev_of (cur_o s)]); rewrite ?app_nil_r; auto.
    - apply (delivery_intro _ s rest [EvAbort]); auto. rewrite F. auto. }
  destruct (p_pc s) eqn:Epc; cbn [safe_at] in Hs; try exact (Hend Hs).
  (* between lookups everything looked up so far has been answered *)
  all: try (destruct Hs as (_ & E & S & _); apply (delivery_intro _ s _ [] E); rewrite ?app_nil_r; now auto).
  - apply (delivery_intro _ s (cur_es s) []); rewrite (Hnone eq_refl); auto.
  - (* PSend: the newest lookup is a hit whose event is about to be sent *)
    destruct Hs as (_ & E & _ & lk0 & bs & L & Hh & S).
    exists lk0, [(e, bs)], [], (length (map fst (looks (log s)))).
    rewrite app_nil_r, <- E, firstn_app_exact. repeat split; eauto.
  - destruct Hs as (S & [(_ & E & _)|(_ & _ & Hp)]); apply Hend; split; auto.
    exists []. rewrite app_nil_r. exact E.
  - destruct Hs as (S & _ & E & _). apply (delivery_intro _ s [] []); rewrite ?app_nil_r; auto.
  - destruct Hs as (Hp & S & _). apply Hend. split; auto.
Qed.
