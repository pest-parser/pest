(* C08: what state() reports after a failed parse, against the forest of rule attempts that
   Attempts.exec_log returns beside the result of Exec.exec (exec_log_erasure: nothing else differs).
   The induction needs more than the top-level claim: after ANY run from ANY state the three
   attempt fields are a function `Tr` of the fields before and of the run's forest, and look-ahead
   mode and atomicity are back where they were.  At top level that function is the report;
   sort_dedup (Vec::sort + Vec::dedup in state()) makes the two lists strictly increasing.      *)
From Coq Require Import List Arith NArith ZArith Bool Lia.
Import ListNotations.
Require Import PV.Stack.Model PV.Comb.PState PV.Comb.Bytes PV.Comb.Prog PV.Comb.Exec PV.Comb.Detail PV.Comb.ExecInd PV.Comb.Frame PV.Comb.Contracts PV.Comb.Attempts.

Arguments Nat.max : simpl never.

Definition lt_all (x : nat) (l : list nat) : Prop := forall y, In y l -> x < y.

Lemma strictly_increasing_cons x l : strictly_increasing (x :: l) <-> (lt_all x l /\ strictly_increasing l).
Proof.
  revert x. induction l as [|y l IH]; intros x.
  - cbn. split; [intros _; split; [intros y []|exact I]|tauto].
  - change (strictly_increasing (x :: y :: l)) with (x < y /\ strictly_increasing (y :: l)).
    split.
    + intros [H1 H2]. split; [|exact H2]. intros z [<-|Hz]; [exact H1|].
      apply IH in H2. destruct H2 as [H2 _]. specialize (H2 z Hz). lia.
    + intros [H1 H2]. split; [apply H1; left; reflexivity|exact H2].
Qed.

Lemma insert_sorted_in x l y : In y (insert_sorted x l) <-> y = x \/ In y l.
Proof.
  assert (C : forall a t, In y (a :: t) <-> y = a \/ In y t) by (intros a t; cbn; split; intros [->|H]; auto).
  induction l as [|z l IH]; cbn [insert_sorted]; [apply C|].
  destruct (Nat.ltb x z); [apply C|]. destruct (Nat.eqb_spec x z) as [->|_].
  - rewrite C. split; [auto|intros [H|H]; auto].
  - rewrite !C, IH. split; intros [H|[H|H]]; auto.
Qed.

Lemma insert_sorted_inc x l : strictly_increasing l -> strictly_increasing (insert_sorted x l).
Proof.
  induction l as [|z l IH]; intros H; cbn [insert_sorted].
  - cbn. auto.
  - destruct (Nat.ltb x z) eqn:L.
    + apply Nat.ltb_lt in L. apply strictly_increasing_cons. split; [|exact H].
      apply strictly_increasing_cons in H. destruct H as [H1 H2].
      intros y [<-|Hy]; [exact L|]. specialize (H1 y Hy). lia.
    + destruct (Nat.eqb x z) eqn:Q; [exact H|].
      apply Nat.ltb_ge in L. apply Nat.eqb_neq in Q.
      apply strictly_increasing_cons in H. destruct H as [H1 H2].
      apply strictly_increasing_cons. split; [|now apply IH].
      intros y Hy. apply insert_sorted_in in Hy. destruct Hy as [->|Hy]; [lia|now apply H1].
Qed.

Theorem sort_dedup_sorted l : strictly_increasing (sort_dedup l).
Proof. induction l as [|x l IH]; cbn; [exact I|]. now apply insert_sorted_inc. Qed.

Theorem sort_dedup_in l x : In x (sort_dedup l) <-> In x l.
Proof.
  induction l as [|y l IH]; cbn; [tauto|].
  rewrite insert_sorted_in, IH. split; intros [->|H]; auto.
Qed.

Lemma strictly_increasing_nodup l : strictly_increasing l -> NoDup l.
Proof.
  induction l as [|x l IH]; intros H; [constructor|].
  apply strictly_increasing_cons in H. destruct H as [H1 H2].
  constructor; [|now apply IH]. intros Hx. specialize (H1 x Hx). lia.
Qed.

Lemma strictly_increasing_unique l1 : forall l2, strictly_increasing l1 -> strictly_increasing l2 ->
  (forall x, In x l1 <-> In x l2) -> l1 = l2.
Proof.
  induction l1 as [|a l1 IH]; intros [|b l2] H1 H2 E.
  - reflexivity.
  - exfalso. apply (E b). left; reflexivity.
  - exfalso. apply (E a). left; reflexivity.
  - apply strictly_increasing_cons in H1. apply strictly_increasing_cons in H2.
    destruct H1 as [A1 S1]. destruct H2 as [A2 S2].
    assert (a = b).
    { destruct (proj1 (E a) (or_introl eq_refl)) as [->|Ha]; [reflexivity|].
      destruct (proj2 (E b) (or_introl eq_refl)) as [->|Hb]; [reflexivity|].
      specialize (A1 b Hb). specialize (A2 a Ha). lia. }
    subst b. f_equal. apply IH; auto.
    intros x. split; intros Hx.
    + destruct (proj1 (E x) (or_intror Hx)) as [->|]; [|assumption]. specialize (A1 x Hx). lia.
    + destruct (proj2 (E x) (or_intror Hx)) as [->|]; [|assumption]. specialize (A2 x Hx). lia.
Qed.

Lemma sort_dedup_ext l1 l2 : (forall x, In x l1 <-> In x l2) -> sort_dedup l1 = sort_dedup l2.
Proof.
  intros E. apply strictly_increasing_unique; try apply sort_dedup_sorted.
  intros x. rewrite !sort_dedup_in. apply E.
Qed.

Lemma sort_dedup_rev l : sort_dedup (rev l) = sort_dedup l.
Proof. apply sort_dedup_ext. intros x. symmetry. apply in_rev. Qed.

(* The run of a body inside an induction over exec_log: the induction hypothesis at that run, then
   cases on its result (what holds trivially of a panic or of exhausted fuel is discharged). *)
Ltac body IH q x H :=
  pose proof (IH q x) as H; destruct (exec_log _ _ _ q x) as [[?s'|?s'|?k|] ?l]; cbn [fst snd] in *; try exact I.

Section Erasure.
Variable cfg : config.
Variable E : env.

Theorem exec_log_erasure : forall fuel p s, fst (exec_log cfg E fuel p s) = exec cfg E fuel p s.
Proof.
  induction fuel as [|fuel IH]; intros p s; [reflexivity|].
  destruct p; cbn [exec_log exec]; try (destruct (inc_call s) as [s1|]; [|reflexivity]).
  - reflexivity.
  - destruct (rule_enter s1) as [fr s2]. body IH p s2 H; now rewrite <- H.
  - body IH p (checkpoint s1) H; now rewrite <- H.
  - apply IH.
  - body IH p s H; rewrite <- H; try reflexivity. body IH (PRepeatLoop p) s' H2; now rewrite <- H2.
  - body IH p s1 H; now rewrite <- H.
  - body IH p (checkpoint (set_lookahead s1 (enter_lookahead positive (lookahead s1)))) H; now rewrite <- H.
  - body IH p (if negb (atom_eqb (atomicity s1) a) then set_atomicity s1 a else s1) H; now rewrite <- H.
  - body IH p s1 H; now rewrite <- H.
  - body IH p (checkpoint s) H; now rewrite <- H.
  - body IH p1 s H; rewrite <- H; try reflexivity. body IH p2 s' H2; now rewrite <- H2.
  - body IH p1 s H; rewrite <- H; try reflexivity. body IH p2 s' H2; now rewrite <- H2.
  - destruct (atom_eqb (atomicity s) NonAtomic); apply IH.
  - destruct (E f); [apply IH|reflexivity].
Qed.

End Erasure.

(* look-ahead mode, atomicity and the three attempt fields: what a run leaves as it found (PLookahead and
   PAtomic restore the first two on exit; only `rule` records attempts) *)
Record keeps (s s' : pst) : Prop := {
  k_la : lookahead s' = lookahead s; k_at : atomicity s' = atomicity s;
  k_ap : attempt_pos s' = attempt_pos s; k_pa : pos_attempts s' = pos_attempts s; k_na : neg_attempts s' = neg_attempts s }.

Lemma keeps_refl s : keeps s s. Proof. split; reflexivity. Qed.
Lemma keeps_trans s1 s2 s3 : keeps s1 s2 -> keeps s2 s3 -> keeps s1 s3.
Proof. intros [] []. split; congruence. Qed.
Lemma same_core_keeps s s' : same_core s s' -> keeps s s'.
Proof. intros []. split; assumption. Qed.

Lemma apply_pres_keeps s r t : res_all (keeps s) (apply_pres s r t).
Proof.
  unfold apply_pres. destruct r as [p| |]; cbn [res_all]; [| |exact I];
    (destruct t as [tk|]; [destruct (pa_enabled s)|]; try (split; reflexivity)).
  - eapply keeps_trans; [|exact (same_core_keeps _ _ (proj1 (handle_token_core (set_pos s p) (pos s) tk true)))]. split; reflexivity.
  - exact (same_core_keeps _ _ (proj1 (handle_token_core s (pos s) tk false))).
Qed.

Lemma exec_prim_keeps cfg o s : res_all (keeps s) (exec_prim cfg o s).
Proof.
  rewrite exec_prim_act. destruct (prim_act cfg o (input s) (pos s) (stack s)) as [k|st r t|t]; cbn [run_act].
  - exact I.
  - pose proof (apply_pres_keeps (set_stack s st) r t) as K.
    destruct (apply_pres _ r t); cbn [res_all] in *; auto; (eapply keeps_trans; [|exact K]; split; reflexivity).
  - unfold tag_node. destruct (negb _); [split; reflexivity|]. destruct (queue s) as [|[e p|si r tg p] q]; split; reflexivity.
Qed.

Lemma inc_call_keeps s s1 : inc_call s = Some s1 -> keeps s s1.
Proof. unfold inc_call. destruct (limit_reached s); [discriminate|]. destruct (limit s); intros [= <-]; split; reflexivity. Qed.

Lemma lift_keeps (k : pst -> res) s0 o s' :
  (forall x, k x = ROk x \/ k x = RErr x) ->
  lift k (option_map (set_stack s0) o) = ROk s' \/ lift k (option_map (set_stack s0) o) = RErr s' -> keeps s0 s'.
Proof.
  intros kk. destruct o as [st|]; cbn; [|intros [H|H]; discriminate H].
  destruct (kk (set_stack s0 st)) as [-> | ->]; intros [H|H]; try discriminate H; injection H as <-; split; reflexivity.
Qed.

Section AttemptInd.
Variable Q : attempt -> Prop.
Hypothesis HQ : forall r p m sg at_ ch, Forall Q ch -> Q (Attempt r p m sg at_ ch).
Fixpoint attempt_forall_ind (a : attempt) : Q a :=
  match a with
  | Attempt r p m sg at_ ch =>
    HQ r p m sg at_ ch
      ((fix go (l : list attempt) : Forall Q l :=
          match l with [] => Forall_nil Q | x :: t => Forall_cons x (attempt_forall_ind x) (go t) end) ch)
  end.
End AttemptInd.

Definition repl (P : nat) (log : list attempt) : list entry := flat_map (rep_cnt P) log.

Lemma positives_of_app a b : positives_of (a ++ b) = positives_of a ++ positives_of b.
Proof. unfold positives_of. now rewrite filter_app, map_app. Qed.
Lemma negatives_of_app a b : negatives_of (a ++ b) = negatives_of a ++ negatives_of b.
Proof. unfold negatives_of. now rewrite filter_app, map_app. Qed.
Lemma length_pos_neg c : length (positives_of c) + length (negatives_of c) = length c.
Proof.
  unfold positives_of, negatives_of. rewrite !map_length.
  induction c as [|[b r] c IH]; cbn; [reflexivity|]. destruct b; cbn; lia.
Qed.

Lemma max_reportable_pos_app l1 l2 :
  max_reportable_pos (l1 ++ l2) = Nat.max (max_reportable_pos l1) (max_reportable_pos l2).
Proof. unfold max_reportable_pos. now rewrite map_app, list_max_app. Qed.
Lemma repl_app P l1 l2 : repl P (l1 ++ l2) = repl P l1 ++ repl P l2.
Proof. unfold repl. apply flat_map_app. Qed.

Lemma mrp_single a : max_reportable_pos [a] = maxpos a.
Proof. unfold max_reportable_pos. cbn. apply Nat.max_0_r. Qed.
Lemma repl_single P a : repl P [a] = rep_cnt P a.
Proof. unfold repl. cbn. apply app_nil_r. Qed.
Lemma maxpos_node r p m sg at_ ch :
  maxpos (Attempt r p m sg at_ ch) = Nat.max (if counts m sg at_ then p else 0) (max_reportable_pos ch).
Proof. reflexivity. Qed.
Lemma rep_cnt_node P r p m sg at_ ch :
  rep_cnt P (Attempt r p m sg at_ ch) =
  if counts m sg at_ && Nat.eqb p P then (if Nat.eqb (length (repl P ch)) 1 then repl P ch else [(is_neg sg, r)]) else repl P ch.
Proof. reflexivity. Qed.

Lemma repl_above_if P l : Forall (fun a => maxpos a < P -> rep_cnt P a = []) l -> max_reportable_pos l < P -> repl P l = [].
Proof.
  induction 1 as [|a l Ha _ IH]; [reflexivity|].
  change (Nat.max (maxpos a) (max_reportable_pos l) < P -> rep_cnt P a ++ repl P l = []).
  intros M. rewrite Ha, IH by lia. reflexivity.
Qed.

Lemma rep_cnt_above P : forall a, maxpos a < P -> rep_cnt P a = [].
Proof.
  refine (attempt_forall_ind _ _).
  intros r p m sg at_ ch IH H. rewrite maxpos_node in H. rewrite rep_cnt_node, (repl_above_if P ch IH) by lia.
  destruct (counts m sg at_); [|reflexivity]. rewrite (proj2 (Nat.eqb_neq p P)) by lia. reflexivity.
Qed.

Lemma repl_above P l : max_reportable_pos l < P -> repl P l = [].
Proof. apply repl_above_if, Forall_forall. intros a _. apply rep_cnt_above. Qed.

(* the transfer relation: attempt fields after = function of attempt fields before and the forest *)
Definition Tr (s : pst) (log : list attempt) (s' : pst) : Prop :=
  attempt_pos s' = Nat.max (attempt_pos s) (max_reportable_pos log) /\
  pos_attempts s' = rev (positives_of (repl (attempt_pos s') log))
                    ++ (if Nat.eqb (attempt_pos s) (attempt_pos s') then pos_attempts s else []) /\
  neg_attempts s' = rev (negatives_of (repl (attempt_pos s') log))
                    ++ (if Nat.eqb (attempt_pos s) (attempt_pos s') then neg_attempts s else []).

Lemma Tr_nil s s' : keeps s s' -> Tr s [] s'.
Proof.
  intros []. unfold Tr. cbn. rewrite k_ap0, k_pa0, k_na0, Nat.eqb_refl, Nat.max_0_r. auto.
Qed.

Lemma Tr_app s1 l1 s2 l2 s3 : Tr s1 l1 s2 -> Tr s2 l2 s3 -> Tr s1 (l1 ++ l2) s3.
Proof.
  intros (A1 & P1 & N1) (A2 & P2 & N2). unfold Tr.
  rewrite max_reportable_pos_app, repl_app, positives_of_app, negatives_of_app, !rev_app_distr, <- !app_assoc.
  split; [lia|].
  destruct (Nat.eqb_spec (attempt_pos s2) (attempt_pos s3)) as [E|NE].
  - rewrite <- E in *. rewrite P2, N2, P1, N1. auto.
  - assert (L : max_reportable_pos l1 < attempt_pos s3) by lia.
    rewrite (repl_above _ _ L). cbn [positives_of negatives_of filter map rev app].
    replace (Nat.eqb (attempt_pos s1) (attempt_pos s3)) with false by (symmetry; apply Nat.eqb_neq; lia).
    rewrite P2, N2, !app_nil_r. auto.
Qed.

Lemma Tr_node_transparent s l s' r p m sg at_ :
  counts m sg at_ = false -> Tr s l s' -> Tr s [Attempt r p m sg at_ l] s'.
Proof.
  intros C (A & B & D). unfold Tr. rewrite mrp_single, repl_single, maxpos_node, rep_cnt_node, C.
  cbn [andb]. rewrite Nat.max_0_l. auto.
Qed.

Lemma one_more prev n : (Nat.ltb prev (n + prev)) && Nat.eqb (n + prev - prev) 1 = Nat.eqb n 1.
Proof.
  replace (n + prev - prev) with n by lia.
  destruct (Nat.eqb_spec n 1) as [->|NE].
  - replace (Nat.ltb prev (1 + prev)) with true; [reflexivity|]. symmetry. apply Nat.ltb_lt. lia.
  - apply andb_false_r.
Qed.

Lemma ltb_0 x : Nat.ltb x 0 = false.
Proof. apply Nat.ltb_ge. lia. Qed.

(* the last step of track: the rule joins the list of the current sign *)
Definition record (s : pst) (rule : nat) : pst :=
  if negb (lk_eqb (lookahead s) LNeg) then set_pos_attempts s (rule :: pos_attempts s)
  else set_neg_attempts s (rule :: neg_attempts s).

Lemma record_attempt_pos s r : attempt_pos (record s r) = attempt_pos s.
Proof. unfold record. destruct (negb _); reflexivity. Qed.
Lemma record_pos_attempts s r :
  pos_attempts (record s r) = rev (positives_of [(is_neg (lookahead s), r)]) ++ pos_attempts s.
Proof. unfold record, is_neg. destruct (lk_eqb _ _); reflexivity. Qed.
Lemma record_neg_attempts s r :
  neg_attempts (record s r) = rev (negatives_of [(is_neg (lookahead s), r)]) ++ neg_attempts s.
Proof. unfold record, is_neg. destruct (lk_eqb _ _); reflexivity. Qed.

Lemma track_atomic s r p pai nai prev : atom_eqb (atomicity s) Atomic = true -> track s r p pai nai prev = s.
Proof. unfold track. now intros ->. Qed.

Section Track.
Variables (s : pst) (r : nat).
Hypothesis NA : atom_eqb (atomicity s) Atomic = false.

Lemma track_before p pai nai prev : p < attempt_pos s -> track s r p pai nai prev = s.
Proof.
  intros H. unfold track, attempts_at. rewrite NA.
  rewrite (proj2 (Nat.eqb_neq (attempt_pos s) p)), ltb_0 by lia. cbn [andb].
  rewrite (proj2 (Nat.eqb_neq p (attempt_pos s))), (proj2 (Nat.ltb_ge (attempt_pos s) p)) by lia.
  rewrite (proj2 (Nat.eqb_neq p (attempt_pos s))) by lia. reflexivity.
Qed.

Lemma track_beyond p pai nai prev : attempt_pos s < p ->
  track s r p pai nai prev = record (set_attempt_pos (set_neg_attempts (set_pos_attempts s []) []) p) r.
Proof.
  intros H. unfold track, attempts_at. rewrite NA.
  rewrite (proj2 (Nat.eqb_neq (attempt_pos s) p)), ltb_0 by lia. cbn [andb].
  rewrite (proj2 (Nat.eqb_neq p (attempt_pos s))), (proj2 (Nat.ltb_lt (attempt_pos s) p)) by lia.
  cbn [attempt_pos set_attempt_pos]. rewrite Nat.eqb_refl. reflexivity.
Qed.

(* a rule that started at the furthest failure: `oldp`, `oldn` are the lists as rule() found them, `n` counts what
   the body added; a single addition stays, anything else is replaced by the rule itself *)
Lemma track_at pai nai prev newp oldp newn oldn n :
  pos_attempts s = newp ++ oldp -> neg_attempts s = newn ++ oldn -> length newp + length newn = n ->
  pai = length oldp -> nai = length oldn -> prev = length oldp + length oldn ->
  track s r (attempt_pos s) pai nai prev =
  if Nat.eqb n 1 then s else record (set_neg_attempts (set_pos_attempts s oldp) oldn) r.
Proof.
  intros Hp Hn <- -> -> ->. unfold track, attempts_at. rewrite NA, Nat.eqb_refl, Hp, Hn, !app_length.
  replace (length newp + length oldp + (length newn + length oldn))
    with (length newp + length newn + (length oldp + length oldn)) by lia.
  rewrite one_more. destruct (Nat.eqb _ 1); [reflexivity|].
  cbn [attempt_pos set_pos_attempts set_neg_attempts]. rewrite Nat.ltb_irrefl.
  cbn [attempt_pos set_pos_attempts set_neg_attempts]. rewrite Nat.eqb_refl, !vtruncate_app by reflexivity.
  reflexivity.
Qed.
End Track.

Lemma positives_single b r : positives_of [(b, r)] = if b then [] else [r].
Proof. destruct b; reflexivity. Qed.
Lemma negatives_single b r : negatives_of [(b, r)] = if b then [r] else [].
Proof. destruct b; reflexivity. Qed.

Lemma track_Tr s1 s' rule m l :
  counts m (lookahead s1) (atom_eqb (atomicity s1) Atomic) = true ->
  lookahead s' = lookahead s1 -> atomicity s' = atomicity s1 ->
  Tr s1 l s' ->
  Tr s1 [Attempt rule (pos s1) m (lookahead s1) (atom_eqb (atomicity s1) Atomic) l]
     (track s' rule (pos s1)
        (if Nat.eqb (pos s1) (attempt_pos s1) then length (pos_attempts s1) else 0)
        (if Nat.eqb (pos s1) (attempt_pos s1) then length (neg_attempts s1) else 0)
        (attempts_at s1 (pos s1))).
Proof.
  intros C La At (HA & HP & HN).
  assert (NA : atom_eqb (atomicity s') Atomic = false).
  { rewrite At. unfold counts in C. destruct (atom_eqb _ _); [discriminate C|reflexivity]. }
  unfold Tr. rewrite mrp_single, repl_single, maxpos_node, rep_cnt_node, C. cbn [andb].
  destruct (lt_eq_lt_dec (pos s1) (attempt_pos s')) as [[Hlt|Heq]|Hgt].
  - rewrite track_before by assumption.
    rewrite (proj2 (Nat.eqb_neq (pos s1) (attempt_pos s'))) by lia.
    split; [lia|]. split; assumption.
  - unfold attempts_at. rewrite (Nat.eqb_sym (pos s1)), Heq.
    rewrite (track_at s' rule NA _ _ _ _ _ _ _ (length (repl (attempt_pos s') l)) HP HN).
    2:{ rewrite !rev_length. apply length_pos_neg. }
    2,3,4: destruct (Nat.eqb (attempt_pos s1) (attempt_pos s')); reflexivity.
    destruct (Nat.eqb (length (repl (attempt_pos s') l)) 1) eqn:One.
    + rewrite Nat.eqb_refl, One. split; [lia|]. split; assumption.
    + rewrite record_attempt_pos, record_pos_attempts, record_neg_attempts.
      cbn [attempt_pos pos_attempts neg_attempts lookahead set_pos_attempts set_neg_attempts].
      rewrite Nat.eqb_refl, One, La. split; [lia|]. split; reflexivity.
  - rewrite track_beyond by assumption.
    rewrite record_attempt_pos, record_pos_attempts, record_neg_attempts.
    cbn [attempt_pos pos_attempts neg_attempts lookahead set_attempt_pos set_pos_attempts set_neg_attempts].
    rewrite Nat.eqb_refl, repl_above by lia.
    rewrite (proj2 (Nat.eqb_neq (attempt_pos s1) (pos s1))) by lia.
    rewrite La. split; [lia|]. split; reflexivity.
Qed.

Lemma rule_enter_facts s1 :
  let fr := fst (rule_enter s1) in let s2 := snd (rule_enter s1) in
  rf_pos fr = pos s1 /\
  rf_pai fr = (if Nat.eqb (pos s1) (attempt_pos s1) then length (pos_attempts s1) else 0) /\
  rf_nai fr = (if Nat.eqb (pos s1) (attempt_pos s1) then length (neg_attempts s1) else 0) /\
  rf_attempts fr = attempts_at s1 (pos s1) /\ keeps s1 s2.
Proof.
  unfold rule_enter. destruct (Nat.eqb (pos s1) (attempt_pos s1)); destruct (emits s1); cbn;
    repeat split; reflexivity.
Qed.

Definition mode_eq (s s' : pst) : Prop := lookahead s' = lookahead s /\ atomicity s' = atomicity s.

Lemma keeps_mode s s' : keeps s s' -> mode_eq s s'.
Proof. intros []. split; assumption. Qed.
Lemma mode_trans s1 s2 s3 : mode_eq s1 s2 -> mode_eq s2 s3 -> mode_eq s1 s3.
Proof. intros [] []. split; congruence. Qed.

(* what a run establishes; a step that keeps the five fields is a run with an empty log *)
Definition Post (s : pst) (r : res) (l : list attempt) : Prop :=
  match r with ROk s' | RErr s' => mode_eq s s' /\ Tr s l s' | _ => True end.

Lemma Post_nil s s' : keeps s s' -> Post s (ROk s') [] /\ Post s (RErr s') [].
Proof. intros K. split; (split; [now apply keeps_mode|now apply Tr_nil]). Qed.
Lemma Post_seq s s' r l1 l2 : mode_eq s s' /\ Tr s l1 s' -> Post s' r l2 -> Post s r (l1 ++ l2).
Proof.
  intros [M T]. destruct r as [s2|s2|k|]; cbn; auto; intros [M2 T2];
    (split; [eapply mode_trans; eauto|eapply Tr_app; eauto]).
Qed.
Lemma Post_pre s0 s r l : keeps s0 s -> Post s r l -> Post s0 r l.
Proof. intros K. exact (Post_seq s0 s r [] l (proj1 (Post_nil _ _ K))). Qed.
Lemma step_keeps_r s l s' s'' : mode_eq s s' /\ Tr s l s' -> keeps s' s'' -> mode_eq s s'' /\ Tr s l s''.
Proof. intros H K. rewrite <- (app_nil_r l). exact (Post_seq s s' (ROk s'') l [] H (proj1 (Post_nil _ _ K))). Qed.

Lemma counts_cond m sg at_ : counts m sg at_ = negb at_ && (if m then is_neg sg else negb (is_neg sg)).
Proof. unfold counts. destruct m, (is_neg sg); reflexivity. Qed.

Lemma tracked_step rule s1 s' l (m : bool) :
  mode_eq s1 s' -> Tr s1 l s' ->
  let sa := tracked (if m then lk_eqb (lookahead s') LNeg else negb (lk_eqb (lookahead s') LNeg))
                    rule (fst (rule_enter s1)) s' in
  mode_eq s1 sa /\ Tr s1 [Attempt rule (pos s1) m (lookahead s1) (atom_eqb (atomicity s1) Atomic) l] sa.
Proof.
  intros [La At] T sa. subst sa.
  destruct (rule_enter_facts s1) as (F1 & F2 & F3 & F4 & _).
  split.
  - destruct (tracked_same (if m then lk_eqb (lookahead s') LNeg else negb (lk_eqb (lookahead s') LNeg))
                rule (fst (rule_enter s1)) s'). split; congruence.
  - unfold tracked. rewrite La. fold (is_neg (lookahead s1)).
    pose proof (counts_cond m (lookahead s1) (atom_eqb (atomicity s1) Atomic)) as C.
    destruct (if m then _ else _).
    2:{ rewrite andb_false_r in C. now apply Tr_node_transparent. }
    rewrite andb_true_r in C.
    destruct (Bool.bool_dec (atom_eqb (atomicity s1) Atomic) true) as [A|A%not_true_is_false].
    + (* called in Atomic mode: track returns at once *)
      rewrite track_atomic by (rewrite At; exact A). apply Tr_node_transparent; [now rewrite C, A|exact T].
    + (* counts as a failure: track records it *)
      rewrite F1, F2, F3, F4. apply track_Tr; auto. now rewrite C, A.
Qed.

Lemma end_token_keeps rule fr s sb : end_token rule fr s = Some sb -> keeps s sb.
Proof.
  unfold end_token. destruct (emits s); [destruct (set_start_end _ _ _); cbn [option_map]|];
    intros [= <-]; split; reflexivity.
Qed.

Lemma rule_ok_Post rule s1 s' l :
  mode_eq s1 s' -> Tr s1 l s' ->
  Post s1 (rule_ok rule (fst (rule_enter s1)) s') [Attempt rule (pos s1) true (lookahead s1) (atom_eqb (atomicity s1) Atomic) l].
Proof.
  intros Mo T. pose proof (rule_ok_shape rule (fst (rule_enter s1)) s') as H.
  destruct (rule_ok _ _ s') as [y| | |]; try exact I; [|contradiction].
  destruct H as (sb & Eb & C). apply end_token_keeps in Eb. apply same_core_keeps in C.
  exact (step_keeps_r _ _ _ _ (tracked_step rule s1 s' l true Mo T) (keeps_trans _ _ _ Eb C)).
Qed.

Lemma rule_err_Post rule s1 s' l :
  mode_eq s1 s' -> Tr s1 l s' ->
  Post s1 (rule_err rule (fst (rule_enter s1)) s') [Attempt rule (pos s1) false (lookahead s1) (atom_eqb (atomicity s1) Atomic) l].
Proof.
  intros Mo T. pose proof (rule_err_shape rule (fst (rule_enter s1)) s') as H.
  destruct (rule_err _ _ s') as [|y| |]; try exact I; [contradiction|].
  destruct H as (sb & C & ->). apply same_core_keeps in C.
  apply (step_keeps_r _ _ _ _ (tracked_step rule s1 s' l false Mo T)), (keeps_trans _ _ _ C).
  destruct (emits sb); split; reflexivity.
Qed.

(* results of the shape  lift k (option_map (set_stack x) o)  with k = ROk / RErr / a choice of them *)
Lemma Post_lift s x l (k : pst -> res) o :
  (forall y, k y = ROk y \/ k y = RErr y) -> mode_eq s x /\ Tr s l x ->
  Post s (lift k (option_map (set_stack x) o)) l.
Proof.
  intros kk H. destruct o as [st|]; cbn [option_map lift]; [|exact I].
  assert (K : keeps x (set_stack x st)) by (split; reflexivity).
  destruct (kk (set_stack x st)) as [-> | ->]; exact (step_keeps_r _ _ _ _ H K).
Qed.
(* the combinators that count a call: a refusal by the limit logs nothing *)
Lemma Post_inc_call s (k : pst -> res * list attempt) :
  (forall s1, Post s1 (fst (k s1)) (snd (k s1))) ->
  Post s (fst (match inc_call s with None => (RErr s, []) | Some s1 => k s1 end))
         (snd (match inc_call s with None => (RErr s, []) | Some s1 => k s1 end)).
Proof.
  intros H. destruct (inc_call s) as [s1|] eqn:Ei; [|apply Post_nil, keeps_refl].
  exact (Post_pre _ _ _ _ (inc_call_keeps _ _ Ei) (H s1)).
Qed.

Section Invariant.
Variable cfg : config.
Variable E : env.

Theorem exec_log_Post : forall fuel p s, Post s (fst (exec_log cfg E fuel p s)) (snd (exec_log cfg E fuel p s)).
Proof.
  induction fuel as [|fuel IH]; intros p s; [exact I|].
  destruct p; cbn [exec_log]; try (apply Post_inc_call; intros s1).
  - cbn [fst snd]. pose proof (exec_prim_keeps cfg o s) as K.
    destruct (exec_prim cfg o s) as [s'|s'|k|]; try exact I; now apply Post_nil.
  - destruct (rule_enter_facts s1) as (_ & _ & _ & _ & K2). rewrite (surjective_pairing (rule_enter s1)).
    body IH p (snd (rule_enter s1)) H; apply (Post_pre _ _ (ROk s') _ K2) in H; destruct H as [M T];
      [now apply rule_ok_Post|now apply rule_err_Post].
  - body IH p (checkpoint s1) H; (apply Post_lift; [auto|exact H]).
  - apply IH.
  - body IH p s H1; [|exact H1]. body IH (PRepeatLoop p) s' H2; eapply Post_seq; eauto.
  - body IH p s1 H; exact H.
  - (* PLookahead: the mode is switched for the body and switched back *)
    body IH p (checkpoint (set_lookahead s1 (enter_lookahead positive (lookahead s1)))) H; destruct H as [[_ M2] T];
      (apply Post_lift; [intros y; destruct positive; auto|]); (split; [split; [reflexivity|exact M2]|exact T]).
  - destruct (atom_eqb (atomicity s1) a) eqn:Ta; cbn [negb]; [body IH p s1 H; exact H|].
    body IH p (set_atomicity s1 a) H; destruct H as [[M1 _] T]; (split; [split; [exact M1|reflexivity]|exact T]).
  - body IH p s1 H; [|exact H]. destruct (Nat.ltb _ _); [exact I|exact H].
  - body IH p (checkpoint s) H; (apply Post_lift; [auto|exact H]).
  - body IH p1 s H1; [|exact H1]. body IH p2 s' H2; eapply Post_seq; eauto.
  - body IH p1 s H1; [exact H1|]. body IH p2 s' H2; eapply Post_seq; eauto.
  - destruct (atom_eqb (atomicity s) NonAtomic); apply IH.
  - destruct (E f); [apply IH|exact I].
Qed.

End Invariant.

Lemma in_positives c r : In r (positives_of c) <-> In (false, r) c.
Proof.
  unfold positives_of. rewrite in_map_iff. setoid_rewrite filter_In. split.
  - intros ([[] x] & <- & H1 & H2); [discriminate H2|exact H1].
  - intros H. exists (false, r). auto.
Qed.
Lemma in_negatives c r : In r (negatives_of c) <-> In (true, r) c.
Proof.
  unfold negatives_of. rewrite in_map_iff. setoid_rewrite filter_In. split.
  - intros ([[] x] & <- & H1 & H2); [exact H1|discriminate H2].
  - intros H. exists (true, r). auto.
Qed.

Lemma rep_cnt_sound P : forall a b r, In (b, r) (rep_cnt P a) ->
  exists m sg, In (r, P, m, sg, false) (nodes a) /\ counts m sg false = true /\ is_neg sg = b.
Proof.
  refine (attempt_forall_ind _ _).
  intros rule p m sg at_ ch IH b r H. rewrite rep_cnt_node in H. cbn [nodes].
  assert (FromChildren : In (b, r) (repl P ch) ->
            exists m0 sg0, In (r, P, m0, sg0, false) ((rule, p, m, sg, at_) :: flat_map nodes ch) /\ counts m0 sg0 false = true /\ is_neg sg0 = b).
  { intros Hc. unfold repl in Hc. apply in_flat_map in Hc. destruct Hc as (x & Hx & Hin).
    rewrite Forall_forall in IH. destruct (IH x Hx b r Hin) as (m0 & sg0 & N & C & S).
    exists m0, sg0. split; [right; apply in_flat_map; eauto|auto]. }
  destruct (counts m sg at_ && Nat.eqb p P) eqn:T; [|auto].
  destruct (Nat.eqb (length (repl P ch)) 1); [auto|].
  destruct H as [H|[]]. injection H as <- <-.
  apply andb_prop in T. destruct T as [C Q]. apply Nat.eqb_eq in Q. subst p.
  assert (at_ = false) by (unfold counts in C; destruct at_; [discriminate C|reflexivity]). subst at_.
  exists m, sg. split; [left; reflexivity|auto].
Qed.

Lemma repl_sound P log b r : In (b, r) (repl P log) ->
  exists m sg, In (r, P, m, sg, false) (nodes_of log) /\ counts m sg false = true /\ is_neg sg = b.
Proof.
  intros H. unfold repl in H. apply in_flat_map in H. destruct H as (x & Hx & Hin).
  destruct (rep_cnt_sound P x b r Hin) as (m & sg & N & C & S).
  exists m, sg. split; [apply in_flat_map; eauto|auto].
Qed.

Lemma is_neg_true sg : is_neg sg = true -> sg = LNeg.
Proof. destruct sg; cbn; congruence. Qed.
Lemma is_neg_false sg : is_neg sg = false -> sg <> LNeg.
Proof. destruct sg; cbn; congruence. Qed.

Lemma repl_failed_at P log r : In (false, r) (repl P log) -> failed_at log r P.
Proof.
  intros H. destruct (repl_sound _ _ _ _ H) as (m & sg & N & C & S).
  unfold counts in C. rewrite S in C. cbn in C. destruct m; [discriminate C|].
  exists sg. split; [exact N|now apply is_neg_false].
Qed.
Lemma repl_matched_negated_at P log r : In (true, r) (repl P log) -> matched_negated_at log r P.
Proof.
  intros H. destruct (repl_sound _ _ _ _ H) as (m & sg & N & C & S).
  unfold counts in C. rewrite S in C. cbn in C. destruct m; [|discriminate C].
  apply is_neg_true in S. subst sg. exact N.
Qed.

Lemma singleton_one (c : list entry) : length c = 1 -> singleton_set c = true.
Proof. destruct c as [|x [|y c]]; cbn; intros H; try discriminate H. reflexivity. Qed.

Lemma flat_map_readings P l :
  Forall (fun a => known_at P a = false -> rep_set P a = rep_cnt P a) l ->
  existsb (known_at P) l = false -> flat_map (rep_set P) l = flat_map (rep_cnt P) l.
Proof.
  induction 1 as [|a l Ha _ IH]; [reflexivity|]. cbn [existsb flat_map]. intros K.
  apply orb_false_elim in K. destruct K as [Ka Kl]. now rewrite (Ha Ka), (IH Kl).
Qed.

Lemma rep_set_cnt P : forall a, known_at P a = false -> rep_set P a = rep_cnt P a.
Proof.
  refine (attempt_forall_ind _ _).
  intros rule p m sg at_ ch IH K. cbn [known_at] in K. apply orb_false_elim in K. destruct K as [K1 K2].
  cbn [rep_set rep_cnt]. rewrite (flat_map_readings P ch IH K2) in *.
  destruct (counts m sg at_ && Nat.eqb p P); [|reflexivity]. cbn [andb] in K1.
  destruct (Nat.eqb (length (flat_map (rep_cnt P) ch)) 1) eqn:L.
  - apply Nat.eqb_eq in L. rewrite (singleton_one _ L). reflexivity.
  - cbn [negb] in K1. rewrite andb_true_r in K1. rewrite K1. reflexivity.
Qed.

Lemma report_readings_agree log : KnownClass log = false -> report_of_log log = report_counted log.
Proof.
  unfold KnownClass, report_of_log, report_counted. intros K. f_equal.
  apply flat_map_readings; [|exact K]. apply Forall_forall. intros a _. apply rep_set_cnt.
Qed.

Section TopLevel.
Variable cfg : config.
Variable E : env.

Theorem exec_log_transfer fuel p s r log s' :
  exec_log cfg E fuel p s = (r, log) -> r = ROk s' \/ r = RErr s' ->
  lookahead s' = lookahead s /\ atomicity s' = atomicity s /\ Tr s log s'.
Proof.
  intros H R. pose proof (exec_log_Post cfg E fuel p s) as P. rewrite H in P. cbn [fst snd] in P.
  destruct R as [-> | ->]; destruct P as [[M1 M2] T]; auto.
Qed.

Theorem top_level_fields fuel p inp lim detail r log s :
  exec_log cfg E fuel p (init inp lim detail) = (r, log) -> r = ROk s \/ r = RErr s ->
  attempt_pos s = max_reportable_pos log /\
  pos_attempts s = rev (positives_of (repl (max_reportable_pos log) log)) /\
  neg_attempts s = rev (negatives_of (repl (max_reportable_pos log) log)).
Proof.
  intros H R. destruct (exec_log_transfer _ _ _ _ _ _ H R) as (_ & _ & A & B & C).
  cbn [init attempt_pos pos_attempts neg_attempts] in A, B, C. rewrite Nat.max_0_l in A.
  rewrite A in B, C. split; [exact A|].
  destruct (Nat.eqb 0 (max_reportable_pos log)); rewrite app_nil_r in B, C; auto.
Qed.

(* what state() reports on failure *)
Theorem failure_report fuel p inp lim detail positives negatives position log :
  parse_with_log cfg E fuel p inp lim detail = (OParsingError positives negatives position, log) ->
  position = max_reportable_pos log /\
  (forall r, In r positives -> failed_at log r position) /\
  (forall r, In r negatives -> matched_negated_at log r position) /\
  strictly_increasing positives /\ strictly_increasing negatives /\
  (positives, negatives) = report_counted log /\
  (KnownClass log = false -> (positives, negatives) = report_of_log log).
Proof.
  unfold parse_with_log, run_state_log. destruct (exec_log cfg E fuel p (init inp lim detail)) as [r l] eqn:H.
  intros [= O <-]. unfold outcome_of in O.
  destruct r as [s|s|k|]; try discriminate O.
  { destruct (fixedlim cfg && limit_reached s); discriminate O. }
  destruct (limit_reached s); [discriminate O|]. injection O as <- <- <-.
  destruct (top_level_fields _ _ _ _ _ _ _ _ H (or_intror eq_refl)) as (A & B & C).
  assert (RC : (sort_dedup (pos_attempts s), sort_dedup (neg_attempts s)) = report_counted l).
  { unfold report_counted, present. fold (repl (max_reportable_pos l) l). rewrite B, C, !sort_dedup_rev. reflexivity. }
  split; [exact A|]. rewrite A.
  split; [intros r Hr; rewrite sort_dedup_in, B, <- in_rev, in_positives in Hr; now apply repl_failed_at|].
  split; [intros r Hr; rewrite sort_dedup_in, C, <- in_rev, in_negatives in Hr; now apply repl_matched_negated_at|].
  split; [apply sort_dedup_sorted|]. split; [apply sort_dedup_sorted|].
  split; [exact RC|]. intros K. rewrite (report_readings_agree _ K). exact RC.
Qed.

Theorem parse_with_log_erasure fuel p inp lim detail :
  fst (parse_with_log cfg E fuel p inp lim detail) = parse_with cfg E fuel p inp lim detail.
Proof.
  unfold parse_with_log, parse_with, run_state_log, run_state.
  rewrite <- exec_log_erasure. destruct (exec_log cfg E fuel p (init inp lim detail)); reflexivity.
Qed.

End TopLevel.
