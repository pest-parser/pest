(* Layer C proofs: contracts of the matching primitives of position.rs on valid UTF-8 input,
   at a char boundary, with valid needles: the result is a boundary again and no primitive panics. *)
From Coq Require Import List Arith NArith Bool Lia ZifyN ZifyBool.
Import ListNotations.
Require Import PV.Comb.PState PV.Comb.Bytes PV.Comb.Frame PV.Comb.Utf8.

Lemma prefixb_iff a b : prefixb a b = true <-> exists r, b = a ++ r.
Proof.
  revert b; induction a as [|x a IH]; intros b; cbn [prefixb].
  - split; [intros _; exists b; reflexivity|auto].
  - destruct b as [|y b]; [split; [discriminate|intros [r E]; discriminate]|].
    rewrite andb_true_iff, N.eqb_eq, IH. split.
    + intros [-> [r ->]]. exists r. reflexivity.
    + intros [r E]. cbn in E. inversion E; subst. split; [reflexivity|exists r; reflexivity].
Qed.

Lemma prefixb_firstn a b : prefixb a b = true -> firstn (length a) b = a.
Proof.
  rewrite prefixb_iff. intros [r ->]. apply firstn_app_exact.
Qed.

Lemma prefix_valid s : valid_utf8 s -> forall l, valid_utf8 l -> prefixb s l = true ->
  exists l', l = s ++ l' /\ valid_utf8 l'.
Proof.
  intros Vs. induction Vs as [|c s Hc Vs IH] using valid_ind; intros l Vl P.
  - exists l. auto.
  - apply prefixb_iff in P. destruct P as [r E].
    destruct (valid_inv l Vl) as [->|(d & l2 & Hd & -> & V2)].
    { destruct (encode_nonempty c). destruct (encode c); [reflexivity|discriminate]. }
    (* the first chars of both strings decode to the same code point *)
    rewrite <- app_assoc in E. pose proof (f_equal decode1 E) as D.
    rewrite !decode1_encode_scalar in D by assumption. injection D as -> _. apply app_inv_head in E.
    destruct (IH l2 V2) as (l' & -> & V'); [apply prefixb_iff; now exists r|]. exists l'. now rewrite app_assoc.
Qed.

Lemma boundary_after inp p x l : p <= length inp -> skipn p inp = x ++ l -> valid_utf8 l ->
  boundaryb inp (p + length x) = true.
Proof.
  intros Lp E V. rewrite (boundary_shift inp p) by lia. replace (p + length x - p) with (length x) by lia.
  rewrite E. now apply boundary_join.
Qed.

Theorem match_string_contract inp p s :
  valid_utf8 inp -> boundaryb inp p = true -> valid_utf8 s ->
  match match_string inp p s with
  | PMoved p' => p' = p + length s /\ firstn (length s) (skipn p inp) = s /\ boundaryb inp p' = true
  | PStay => prefixb s (skipn p inp) = false
  | PPanic => False
  end.
Proof.
  intros V B Vs. unfold match_string. destruct (prefixb s (skipn p inp)) eqn:P; [|reflexivity].
  split; [reflexivity|]. split; [now apply prefixb_firstn|].
  destruct (boundary_split inp p V B) as [_ V2].
  destruct (prefix_valid s Vs _ V2 P) as (l' & E & V').
  exact (boundary_after inp p s l' (boundaryb_le _ _ B) E V').
Qed.

Corollary match_string_boundary inp p s p' :
  valid_utf8 inp -> boundaryb inp p = true -> valid_utf8 s -> match_string inp p s = PMoved p' ->
  boundaryb inp p' = true.
Proof. intros V B Vs E. pose proof (match_string_contract inp p s V B Vs) as C. rewrite E in C. apply C. Qed.

Lemma match_string_no_panic inp p s : match_string inp p s <> PPanic.
Proof. unfold match_string. destruct (prefixb _ _); discriminate. Qed.

Lemma prefixb_ci_firstn a b : prefixb_ci a b = true ->
  length a <= length b /\ map ascii_lower (firstn (length a) b) = map ascii_lower a.
Proof.
  revert b; induction a as [|x a IH]; intros b; cbn [prefixb_ci length].
  - intros _. rewrite firstn_O. split; [lia|reflexivity].
  - destruct b as [|y b]; [discriminate|]. rewrite andb_true_iff, N.eqb_eq. intros [E P].
    destruct (IH b P) as [L M]. rewrite firstn_cons. cbn [map length]. split; [lia|]. now rewrite M, E.
Qed.

Theorem match_insensitive_contract inp p s :
  boundaryb inp p = true ->
  match match_insensitive inp p s with
  | PMoved p' => p' = p + length s /\ boundaryb inp p' = true /\
                 map ascii_lower (firstn (length s) (skipn p inp)) = map ascii_lower s
  | PStay => boundaryb inp (p + length s) && prefixb_ci s (skipn p inp) = false
  | PPanic => False
  end.
Proof.
  intros B. unfold match_insensitive. rewrite B.
  destruct (boundaryb inp (p + length s)) eqn:B2; cbn [andb]; [|reflexivity].
  destruct (prefixb_ci s (skipn p inp)) eqn:P; [|reflexivity].
  split; [reflexivity|]. split; [exact B2|]. now apply prefixb_ci_firstn.
Qed.

Lemma char_at_valid inp p : valid_utf8 inp -> boundaryb inp p = true ->
  (p = length inp /\ char_at inp p = Some None) \/
  (exists c l', scalar c /\ skipn p inp = encode c ++ l' /\ valid_utf8 l' /\
                char_at inp p = Some (Some (c, length (encode c))) /\
                boundaryb inp (p + length (encode c)) = true).
Proof.
  intros V B. unfold char_at. rewrite B. pose proof (boundaryb_le _ _ B) as Lp.
  destruct (boundary_split inp p V B) as [_ V2].
  destruct (valid_inv _ V2) as [E|(c & l' & Hc & E & V')].
  - left. assert (length (skipn p inp) = 0) by now rewrite E. rewrite skipn_length in H.
    split; [lia|]. rewrite E. reflexivity.
  - right. exists c, l'. split; [exact Hc|]. split; [exact E|]. split; [exact V'|]. split.
    + rewrite E. now rewrite decode1_encode_scalar.
    + exact (boundary_after inp p _ l' Lp E V').
Qed.

Definition char_contract (inp : list byte) (p : nat) (ok : N -> bool) (r : pres) : Prop :=
  match r with
  | PMoved p' => exists c, scalar c /\ decode1 (skipn p inp) = Some (c, length (encode c)) /\ ok c = true /\
                           firstn (length (encode c)) (skipn p inp) = encode c /\
                           p' = p + length (encode c) /\ boundaryb inp p' = true
  | PStay => p = length inp \/ exists c n, decode1 (skipn p inp) = Some (c, n) /\ ok c = false
  | PPanic => False
  end.

Lemma char_prim_contract inp p ok : valid_utf8 inp -> boundaryb inp p = true ->
  char_contract inp p ok
    (match char_at inp p with
     | None => PPanic | Some None => PStay
     | Some (Some (c, n)) => if ok c then PMoved (p + n) else PStay end).
Proof.
  intros V B. destruct (char_at_valid inp p V B) as [[E ->]|(c & l' & Hc & E & V' & -> & B')].
  - left. exact E.
  - assert (D : decode1 (skipn p inp) = Some (c, length (encode c))) by (rewrite E; now apply decode1_encode_scalar).
    destruct (ok c) eqn:O; cbn [char_contract].
    + exists c. repeat split; auto. rewrite E. apply firstn_app_exact.
    + right. exists c, (length (encode c)). auto.
Qed.

Theorem match_range_contract inp p lo hi : valid_utf8 inp -> boundaryb inp p = true ->
  char_contract inp p (fun c => (lo <=? c)%N && (c <=? hi)%N) (match_range inp p lo hi).
Proof. intros V B. exact (char_prim_contract inp p _ V B). Qed.

Theorem match_char_by_contract inp p rs : valid_utf8 inp -> boundaryb inp p = true ->
  char_contract inp p (in_ranges rs) (match_char_by inp p rs).
Proof. intros V B. exact (char_prim_contract inp p _ V B). Qed.

Lemma firstn_plus {A} k n (l : list A) : firstn (k + n) l = firstn k l ++ firstn n (skipn k l).
Proof.
  revert l; induction k as [|k IH]; intros l; [rewrite firstn_O, skipn_O; reflexivity|].
  destruct l as [|x l]; [rewrite skipn_nil, !firstn_nil; reflexivity|].
  cbn [Nat.add]. rewrite !firstn_cons, skipn_cons, IH. reflexivity.
Qed.

Lemma skip_len_chars n : forall cs, Forall scalar cs ->
  skip_len (flat_map encode cs) n =
  if n <=? length cs then Some (length (flat_map encode (firstn n cs))) else None.
Proof.
  induction n as [|n IH]; intros cs F; cbn [skip_len].
  - destruct (Nat.leb_spec 0 (length cs)); [rewrite firstn_O; reflexivity|lia].
  - destruct F as [|c cs Hc F].
    + cbn [flat_map decode1 length]. destruct (Nat.leb_spec (S n) 0); [lia|reflexivity].
    + cbn [flat_map length]. rewrite decode1_encode_scalar by exact Hc. rewrite skipn_app_exact, IH by exact F.
      destruct (Nat.leb_spec n (length cs)), (Nat.leb_spec (S n) (S (length cs))); try lia; [|reflexivity].
      rewrite firstn_cons. cbn [flat_map]. now rewrite app_length.
Qed.

(* in terms of chars: from the offset of char k, skip(n) lands on the offset of char k+n, and fails
   exactly when fewer than n chars remain *)
Theorem skip_chars cs k n : Forall scalar cs -> k <= length cs ->
  skip (flat_map encode cs) (length (flat_map encode (firstn k cs))) n =
  if k + n <=? length cs then PMoved (length (flat_map encode (firstn (k + n) cs))) else PStay.
Proof.
  intros F K. unfold skip.
  rewrite (proj2 (boundary_iff cs _ F)) by (exists k; reflexivity).
  rewrite (proj2 (flat_map_firstn_skipn cs k)), skip_len_chars by now apply Forall_skipn'.
  rewrite skipn_length.
  destruct (Nat.leb_spec n (length cs - k)), (Nat.leb_spec (k + n) (length cs)); try lia; [|reflexivity].
  rewrite firstn_plus, flat_map_app, app_length. reflexivity.
Qed.

Theorem skip_contract inp p n : valid_utf8 inp -> boundaryb inp p = true ->
  match skip inp p n with
  | PMoved p' => p <= p' /\ boundaryb inp p' = true
  | PStay => skip_len (skipn p inp) n = None
  | PPanic => False
  end.
Proof.
  intros V B. unfold skip. rewrite B. destruct (boundary_split inp p V B) as [_ (cs & F & E)].
  rewrite E, (skip_len_chars n cs F). destruct (n <=? length cs); [|reflexivity]. split; [lia|].
  apply (boundary_after inp p _ (flat_map encode (skipn n cs)) (boundaryb_le _ _ B)).
  - now rewrite E, <- flat_map_app, firstn_skipn.
  - exists (skipn n cs). split; [now apply Forall_skipn'|reflexivity].
Qed.

Definition hit (inp : list byte) (ss : list (list byte)) (q : nat) : bool :=
  boundaryb inp q && existsb (fun s => prefixb s (skipn q inp)) ss.

Lemma skip_until_basic_from_spec inp ss count : forall from, from + count = length inp ->
  let r := skip_until_basic_from inp ss from count in
  from <= r <= length inp /\ (r = length inp \/ hit inp ss r = true) /\
  forall q, from <= q < r -> hit inp ss q = false.
Proof.
  induction count as [|c IH]; intros from H; cbn [skip_until_basic_from].
  - cbv zeta. split; [lia|]. split; [left; reflexivity|]. intros q Hq. lia.
  - fold (hit inp ss from). destruct (hit inp ss from) eqn:Hh; cbv zeta.
    + split; [lia|]. split; [right; exact Hh|]. intros q Hq. lia.
    + specialize (IH (S from)). cbv zeta in IH. destruct IH as (I1 & I2 & I3); [lia|].
      split; [lia|]. split; [exact I2|]. intros q Hq.
      destruct (Nat.eq_dec q from) as [->|Ne]; [exact Hh|apply I3; lia].
Qed.

(* skip_until_basic returns the first boundary offset q >= p at which some needle is a byte prefix of the
   rest of the input, and the length of the input when there is none *)
Theorem skip_until_basic_spec inp p ss : p <= length inp ->
  let r := skip_until_basic inp p ss in
  p <= r <= length inp /\ (r = length inp \/ hit inp ss r = true) /\
  forall q, p <= q < r -> hit inp ss q = false.
Proof. intros H. unfold skip_until_basic. apply skip_until_basic_from_spec. lia. Qed.

Corollary skip_until_basic_boundary inp p ss : p <= length inp ->
  boundaryb inp (skip_until_basic inp p ss) = true.
Proof.
  intros H. destruct (skip_until_basic_spec inp p ss H) as (_ & [E|E] & _).
  - rewrite E. apply boundaryb_len.
  - unfold hit in E. apply andb_true_iff in E. tauto.
Qed.

Lemma nth_skipn_hd {A} n (l : list A) d : nth n l d = hd d (skipn n l).
Proof.
  revert l; induction n as [|n IH]; intros [|x l]; try reflexivity.
  rewrite skipn_cons. cbn [nth]. apply IH.
Qed.

Lemma prefix_first_byte s inp q : s <> [] -> prefixb s (skipn q inp) = true ->
  q < length inp /\ nth q inp 0%N = first_byte s.
Proof.
  intros N P. apply prefixb_iff in P. destruct P as [r E]. split.
  - destruct (Nat.lt_ge_cases q (length inp)) as [L|L]; [exact L|].
    rewrite skipn_all2 in E by lia. destruct s; [congruence|discriminate].
  - rewrite nth_skipn_hd, E. destruct s; [congruence|reflexivity].
Qed.

(* a non-empty needle whose first byte is a leading byte can only be found at a boundary *)
Lemma prefix_hit_boundary s inp q : s <> [] -> is_cont (first_byte s) = false ->
  prefixb s (skipn q inp) = true -> boundaryb inp q = true.
Proof.
  intros N C P. destruct (prefix_first_byte s inp q N P) as [L E].
  apply boundaryb_spec. right. split; [exact L|]. now rewrite E.
Qed.

Lemma skip_until_basic_from_nil inp count : forall from, from + count = length inp ->
  skip_until_basic_from inp [] from count = length inp.
Proof.
  induction count as [|c IH]; intros from H; cbn [skip_until_basic_from existsb]; [reflexivity|].
  rewrite andb_false_r. apply IH. lia.
Qed.

Definition opt_or_len (inp : list byte) (o : option nat) : option nat :=
  match o with Some f => Some f | None => Some (length inp) end.

Lemma memmem_from_basic inp s count : s <> [] -> is_cont (first_byte s) = false ->
  forall from, from + count = length inp ->
  opt_or_len inp (memmem_from inp s from count) = Some (skip_until_basic_from inp [s] from count).
Proof.
  intros N C. induction count as [|c IH]; intros from H; cbn [memmem_from skip_until_basic_from existsb].
  - rewrite skipn_all2 by lia. destruct s; [congruence|reflexivity].
  - rewrite orb_false_r. destruct (prefixb s (skipn from inp)) eqn:P.
    + rewrite (prefix_hit_boundary s inp from N C P). reflexivity.
    + rewrite andb_false_r. apply IH. lia.
Qed.

Lemma memmem_from_empty inp from count : memmem_from inp [] from count = Some from.
Proof. destruct count; reflexivity. Qed.

Definition scan_or_len (inp : list byte) (o : option (option nat)) : option nat :=
  match o with None => None | Some (Some f) => Some f | Some None => Some (length inp) end.

Lemma existsb_eqb_In b l : existsb (N.eqb b) l = true <-> In b l.
Proof.
  rewrite existsb_exists. split.
  - intros (x & Hx & E). apply N.eqb_eq in E. now subst.
  - intros H. exists b. split; [exact H|apply N.eqb_refl].
Qed.

Lemma memchr_scan_basic inp firsts ss count :
  Forall (fun b => is_cont b = false) firsts ->
  Forall (fun s => s <> [] /\ In (first_byte s) firsts) ss ->
  forall from, from + count = length inp ->
  scan_or_len inp (memchr_scan inp firsts ss from count) = Some (skip_until_basic_from inp ss from count).
Proof.
  intros Ff Fs. induction count as [|c IH]; intros from H; cbn [memchr_scan skip_until_basic_from]; [reflexivity|].
  destruct (existsb (N.eqb (nth from inp 0%N)) firsts) eqn:Ex.
  - apply existsb_eqb_In in Ex. rewrite Forall_forall in Ff. apply Ff in Ex.
    assert (B : boundaryb inp from = true) by (apply boundaryb_spec; right; split; [lia|exact Ex]).
    rewrite B. cbn [andb]. destruct (existsb (fun s => prefixb s (skipn from inp)) ss); [reflexivity|]. apply IH. lia.
  - assert (Hn : existsb (fun s => prefixb s (skipn from inp)) ss = false).
    { apply not_true_iff_false. intros Hs. apply existsb_exists in Hs. destruct Hs as (s & Hs & P).
      rewrite Forall_forall in Fs. destruct (Fs s Hs) as [N I].
      destruct (prefix_first_byte s inp from N P) as [_ E]. rewrite <- E in I.
      apply existsb_eqb_In in I. congruence. }
    rewrite Hn, andb_false_r. apply IH. lia.
Qed.

Lemma nonempty_true s : nonempty s = true -> s <> [].
Proof. destruct s; [discriminate|discriminate]. Qed.

(* the memchr arms: the bytes searched for are the first bytes of the needles, all of them non-empty *)
Lemma memchr_arm inp p ss : p <= length inp -> Forall valid_utf8 ss -> forallb nonempty ss = true ->
  scan_or_len inp (memchr_scan inp (map first_byte ss) ss p (length inp - p)) = Some (skip_until_basic inp p ss).
Proof.
  intros Lp Fs N. rewrite forallb_forall in N. rewrite Forall_forall in Fs.
  apply memchr_scan_basic; [| |lia]; apply Forall_forall.
  - intros b Hb. apply in_map_iff in Hb. destruct Hb as (s & <- & Hs).
    apply valid_first_not_cont; [auto|]. apply nonempty_true; auto.
  - intros s Hs. split; [apply nonempty_true; auto|now apply in_map].
Qed.

(* with the repaired three-needle arm the memchr version computes the same offset as the plain loop and
   never slices off a boundary.  (Only the needles have to be valid; the input may be any byte string.) *)
Theorem skip_until_memchr_eq_basic inp p ss :
  boundaryb inp p = true -> Forall valid_utf8 ss ->
  skip_until_memchr true inp p ss = Some (skip_until_basic inp p ss).
Proof.
  intros B Fs. pose proof (boundaryb_le _ _ B) as Lp.
  unfold skip_until_memchr.
  destruct ss as [|s1 [|s2 [|s3 [|s4 r]]]]; try reflexivity.
  - unfold skip_until_basic. rewrite skip_until_basic_from_nil by lia. reflexivity.
  - unfold skip_until_basic. inversion Fs as [|? ? V1 _]; subst. destruct s1 as [|b1 t1].
    + rewrite memmem_from_empty. destruct (length inp - p) eqn:Ec; cbn [skip_until_basic_from existsb prefixb].
      * f_equal. lia.
      * rewrite B. reflexivity.
    + apply (memmem_from_basic inp (b1 :: t1)); [discriminate|apply valid_first_not_cont; [exact V1|discriminate]|lia].
  - destruct (nonempty s1 && nonempty s2) eqn:N; [|reflexivity].
    apply (memchr_arm inp p [s1; s2] Lp Fs). cbn [forallb]. now rewrite andb_true_r.
  - destruct (nonempty s1 && nonempty s2 && nonempty s3) eqn:N; [|reflexivity].
    apply (memchr_arm inp p [s1; s2; s3] Lp Fs). cbn [forallb]. now rewrite andb_true_r, andb_assoc.
Qed.

Corollary skip_until_eq_basic cfg inp p ss :
  (memchr cfg = true -> fixed3 cfg = true) -> boundaryb inp p = true -> Forall valid_utf8 ss ->
  skip_until cfg inp p ss = Some (skip_until_basic inp p ss).
Proof.
  intros Hc B Fs. unfold skip_until. destruct (memchr cfg); [|reflexivity].
  rewrite Hc by reflexivity. now apply skip_until_memchr_eq_basic.
Qed.

(* the arm as found (guard `s3.is_empty()`, third byte taken from s2): input "xxa", needles "a", "b", "".
   The plain loop stops at 0 (the empty needle matches there), the memchr arm runs on to the 'a' at 2. *)
Example skip_until_memchr_unfixed_refuted :
  let inp := [120; 120; 97]%N in let ss := [[97]; [98]; []]%N in
  valid_utf8 inp /\ Forall valid_utf8 ss /\ boundaryb inp 0 = true /\
  skip_until_basic inp 0 ss = 0 /\ skip_until_memchr false inp 0 ss = Some 2 /\
  skip_until_memchr true inp 0 ss = Some 0.
Proof.
  cbv zeta. split; [exists [120; 120; 97]%N; split; [repeat constructor; unfold scalar; lia|reflexivity]|].
  split.
  - repeat constructor.
    + exists [97%N]. split; [repeat constructor; unfold scalar; lia|reflexivity].
    + exists [98%N]. split; [repeat constructor; unfold scalar; lia|reflexivity].
    + apply valid_nil.
  - vm_compute. auto.
Qed.
