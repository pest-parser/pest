(* C03, reference clause: the model of parser_state.rs (Exec.exec: three-vector snapshot stack,
   call counting, attempt tracking, parse-attempt bookkeeping) against the reference reading of
   the documented contracts (Ref.rexec_gen, over a plain stack).  `abs` forgets everything the
   documentation does not mention and reads the snapshot stack through its live contents `cache`.
   The code equals, for ALL programs, the reading in which a failed `sequence` keeps the queue
   truncated to its old length (TagLeak).  Against the fully documented reading the equation is
   false (tag_node inside a failing sequence: known finding C03-tag-in-failed-sequence), true
   for programs that never call tag_node, and true for all programs up to the node tags.       *)
From Coq Require Import List Arith NArith ZArith Bool Lia.
Import ListNotations.
Require Import PV.Stack.Model PV.Stack.Proofs PV.Comb.PState PV.Comb.Bytes PV.Comb.Prog PV.Comb.Exec
               PV.Comb.Frame PV.Comb.Contracts PV.Comb.Utf8c PV.Comb.Ref.

Definition abs (s : pst) : rst :=
  {| r_input := input s; r_pos := pos s; r_queue := queue s; r_stack := cache (stack s);
     r_look := lookahead s; r_atom := atomicity s |}.

Definition abs_res (x : res) : rres :=
  match x with
  | ROk s => RROk (abs s)
  | RErr s => RRErr (abs s)
  | RPanic k => RRPanic k
  | ROutOfFuel => RRFuel
  end.

(* abs commutes with the setters of its six fields and ignores the others by computation; what
   needs saying is that the bookkeeping steps of the code stay inside the ignored fields *)
Lemma abs_same_core s s' : same_core s s' -> abs s' = abs s.
Proof. intros C. unfold abs. rewrite (c_input _ _ C), (c_pos _ _ C), (c_queue _ _ C), (c_stack _ _ C), (c_la _ _ C), (c_at _ _ C). reflexivity. Qed.

Lemma abs_same_attempts s s' : same_but_attempts s s' -> abs s' = abs s.
Proof. intros C. unfold abs. rewrite (t_input _ _ C), (t_pos _ _ C), (t_queue _ _ C), (t_stack _ _ C), (t_la _ _ C), (t_at _ _ C). reflexivity. Qed.

Lemma abs_set_stack s st : cache st = cache (stack s) -> abs (set_stack s st) = abs s.
Proof. intros H. change (with_stack (abs s) (cache st) = abs s). rewrite H. reflexivity. Qed.

Lemma atom_eqb_true a b : atom_eqb a b = true -> a = b.
Proof. destruct a, b; cbn; congruence. Qed.

Lemma apply_pres_abs s x t : abs_res (apply_pres s x t) = rmoved (abs s) x.
Proof.
  unfold apply_pres. destruct x as [p| |]; cbn [rmoved abs_res]; [| |reflexivity]; f_equal;
    (destruct t as [tk|]; [destruct (pa_enabled s)|]; try reflexivity).
  - exact (abs_same_core _ _ (proj1 (handle_token_core (set_pos s p) (pos s) tk true))).
  - exact (abs_same_core _ _ (proj1 (handle_token_core s (pos s) tk false))).
Qed.

Lemma match_pop_loop_abs f inp : forall (st : stk (list byte)) p, length (cache st) < f ->
  match match_pop_loop f inp st p with
  | Some (st', p', b) => (cache st', p', b) = rmatch_pop inp (cache st) p
  | None => False
  end.
Proof.
  induction f as [|f IH]; intros st p H; [lia|]. cbn [match_pop_loop].
  destruct (pop_cache st) as [C1 C2]. destruct (pop st) as [st1 o]. cbn [fst snd] in C1, C2. subst o.
  destruct (cache st) as [|x c]; cbn [hd_error tl rmatch_pop length] in *; [now rewrite C1|].
  destruct (match_string inp p x); [|now rewrite C1..]. rewrite <- C1. apply IH. rewrite C1. lia.
Qed.

Lemma peek_slice_abs s i j d : abs_res (peek_slice s i j d) = rpeek_slice (abs s) i j d.
Proof.
  unfold peek_slice, rpeek_slice. cbn [abs r_stack r_input r_pos].
  destruct (constrain_idxs i j (length (cache (stack s)))) as [[a b]|]; [|reflexivity].
  destruct (Nat.leb b a); [reflexivity|]. cbv zeta.
  destruct (match_all _ _ _); reflexivity.
Qed.

Lemma vslice_all {A} (l : list A) : vslice 0 (length l) l = rev l.
Proof.
  unfold vslice. change (skipn 0 (rev l)) with (rev l).
  rewrite Nat.sub_0_r, <- rev_length. apply firstn_all.
Qed.

Lemma constrain_all n : constrain_idxs 0 None n = Some (0, n).
Proof.
  unfold constrain_idxs, normalize_index. now rewrite (proj2 (Z.ltb_ge _ _) (Nat2Z.is_nonneg n)).
Qed.

Lemma exec_prim_abs cfg o s : abs_res (exec_prim cfg o s) = rprim cfg o (abs s).
Proof.
  destruct o; cbn [exec_prim rprim]; cbv zeta; cbn [abs r_input r_pos r_stack r_queue r_look]; fold (abs s);
    try reflexivity; try apply apply_pres_abs.
  - destruct (skip_until cfg (input s) (pos s) ss); reflexivity.
  - destruct (Nat.eqb (pos s) 0); reflexivity.
  - destruct (Nat.eqb (pos s) (length (input s))); reflexivity.
  - unfold peek. destruct (cache (stack s)) as [|x c]; [reflexivity|]. apply apply_pres_abs.
  - (* stack_pop *)
    destruct (pop_cache (stack s)) as [C1 C2]. destruct (pop (stack s)) as [st' o]. cbn [fst snd] in C1, C2. subst o.
    destruct (cache (stack s)) as [|x c]; [reflexivity|]. cbn [hd_error tl] in *.
    unfold st_match_string. rewrite apply_pres_abs. change (abs (set_stack s st')) with (with_stack (abs s) (cache st')).
    rewrite C1. reflexivity.
  - (* stack_drop *)
    destruct (pop_cache (stack s)) as [C1 C2]. destruct (pop (stack s)) as [st' o]. cbn [fst snd] in C1, C2. subst o.
    destruct (cache (stack s)) as [|x c] eqn:Ec; cbn [hd_error tl abs_res] in *; [reflexivity|].
    change (abs (set_stack s st')) with (with_stack (abs s) (cache st')). rewrite C1. reflexivity.
  - (* stack_match_peek: the slice [0, len) top to bottom is the whole stack *)
    unfold peek_slice. rewrite constrain_all.
    destruct (cache (stack s)) as [|x c] eqn:Ec; [reflexivity|]. change (Nat.leb (length (x :: c)) 0) with false. cbv iota.
    rewrite vslice_all, rev_involutive. destruct (match_all _ _ _); reflexivity.
  - (* stack_match_pop *)
    pose proof (match_pop_loop_abs _ (input s) (stack s) (pos s) (Nat.lt_succ_diag_r _)) as M.
    destruct (match_pop_loop _ _ _ _) as [[[st' p'] b]|]; [|contradiction]. rewrite <- M. destruct b; reflexivity.
  - apply peek_slice_abs.
  - (* tag_node *) destruct (lookahead s); cbn [negb lk_eqb]; try reflexivity.
    destruct (queue s) as [|[e p|si r tg p] q]; reflexivity.
Qed.

(* The queue frame of the reference interpreter, exactly: whatever a program does, the queue
   afterwards is the old queue with new tokens on top; the only thing that can have happened to
   an old token is a new node tag on the LAST one.  With `strict` (programs that never call
   tag_node) not even that. *)
Definition retag_head (t : option (option nat)) (q : list qtoken) : list qtoken :=
  match t, q with
  | Some tg, QEnd si r _ p :: q0 => QEnd si r tg p :: q0
  | _, _ => q
  end.
Definition qext (strict : bool) (q q' : list qtoken) : Prop :=
  exists new t, q' = new ++ retag_head t q /\ (strict = true -> t = None).

Lemma qext_of_app b q new : qext b q (new ++ q).
Proof. exists new, None. split; reflexivity. Qed.

Lemma qext_refl b q : qext b q q.
Proof. apply (qext_of_app b q []). Qed.

Lemma retag_retag t2 t1 q :
  retag_head t2 (retag_head t1 q) = retag_head (match t2 with Some _ => t2 | None => t1 end) q.
Proof. destruct t2, t1, q as [|[e p|si r tg p] q]; reflexivity. Qed.

Lemma retag_head_cons t x l : exists x', retag_head t (x :: l) = x' :: l.
Proof. destruct t, x; cbn; eauto. Qed.

Lemma retag_head_length t q : length (retag_head t q) = length q.
Proof. destruct t, q as [|[e p|si r tg p] q]; reflexivity. Qed.

Lemma retag_head_untag t q : untagq (retag_head t q) = untagq q.
Proof. destruct t, q as [|[e p|si r tg p] q]; reflexivity. Qed.

Lemma qext_trans b q1 q2 q3 : qext b q1 q2 -> qext b q2 q3 -> qext b q1 q3.
Proof.
  intros (n1 & t1 & E1 & S1) (n2 & t2 & E2 & S2). subst q2 q3. destruct n1 as [|x n1].
  - cbn [app]. rewrite retag_retag. eexists n2, _. split; [reflexivity|].
    intros Hb. rewrite (S1 Hb), (S2 Hb). reflexivity.
  - cbn [app]. destruct (retag_head_cons t2 x (n1 ++ retag_head t1 q1)) as (x' & ->).
    exists (n2 ++ x' :: n1), t1. split; [rewrite <- app_assoc; reflexivity|exact S1].
Qed.

Lemma qext_start b e p q q' : qext b (QStart e p :: q) q' -> exists new, q' = new ++ QStart e p :: q.
Proof. intros (new & t & -> & _). exists new. destruct t; reflexivity. Qed.

Lemma qext_strict q q' : qext true q q' -> exists new, q' = new ++ q.
Proof. intros (new & t & -> & S). rewrite (S eq_refl). exists new. reflexivity. Qed.

Lemma qext_truncate b q q' : qext b q q' -> qext b q (vtruncate (length q) q').
Proof.
  intros (new & t & -> & S). rewrite vtruncate_app by apply retag_head_length.
  exists [], t. split; [reflexivity|exact S].
Qed.

Lemma qext_untag b q q' : qext b q q' -> untagq (vtruncate (length q) q') = untagq q.
Proof.
  intros (new & t & -> & S). rewrite vtruncate_app by apply retag_head_length. apply retag_head_untag.
Qed.

(* what every run of the reference interpreter establishes, and how it passes through the
   `match` on a sub-run's result that every combinator is *)
Definition qpost (b : bool) (q : list qtoken) (x : rres) : Prop :=
  match x with RROk r' | RRErr r' => qext b q (r_queue r') | _ => True end.

Lemma qpost_trans b q q1 x : qext b q q1 -> qpost b q1 x -> qpost b q x.
Proof. intros H. destruct x; cbn; auto; now apply qext_trans. Qed.

Lemma qpost_bind b q0 q x (k e : rst -> rres) :
  qpost b q0 x -> (forall r', qext b q0 (r_queue r') -> qpost b q (k r')) ->
  (forall r', qext b q0 (r_queue r') -> qpost b q (e r')) ->
  qpost b q (match x with RROk r' => k r' | RRErr r' => e r' | RRPanic k0 => RRPanic k0 | RRFuel => RRFuel end).
Proof. destruct x; cbn; auto. Qed.

Lemma rmoved_qext b r0 r x : r_queue r0 = r_queue r ->
  match rmoved r0 x with RROk r' | RRErr r' => qext b (r_queue r) (r_queue r') | _ => True end.
Proof. intros H. destruct x; cbn; auto; rewrite H; apply qext_refl. Qed.

Lemma rprim_qext b cfg o r : (b = true -> notag_prim o = true) ->
  match rprim cfg o r with RROk r' | RRErr r' => qext b (r_queue r) (r_queue r') | _ => True end.
Proof.
  intros NT. destruct o; cbn [rprim]; cbv zeta; try (apply rmoved_qext; reflexivity); try apply qext_refl.
  - destruct (skip_until _ _ _ _); [apply qext_refl|exact I].
  - destruct (Nat.eqb _ _); apply qext_refl.
  - destruct (Nat.eqb _ _); apply qext_refl.
  - destruct (r_stack r); [exact I|apply rmoved_qext; reflexivity].
  - destruct (r_stack r); [exact I|apply rmoved_qext; reflexivity].
  - destruct (r_stack r); apply qext_refl.
  - destruct (match_all _ _ _); apply qext_refl.
  - destruct (rmatch_pop _ _ _) as [[rest p] ok]. destruct ok; apply qext_refl.
  - unfold rpeek_slice. destruct (constrain_idxs _ _ _) as [[x y]|]; [|apply qext_refl].
    destruct (Nat.leb y x); [apply qext_refl|]. cbv zeta. destruct (match_all _ _ _); apply qext_refl.
  - destruct (r_look r); try apply qext_refl.
    destruct (r_queue r) as [|[e p|si rl tg p] q] eqn:Eq; cbn [r_queue with_queue]; try (rewrite Eq; apply qext_refl).
    exists [], (Some (Some t)). split; [reflexivity|].
    intros Hb. specialize (NT Hb). discriminate NT.
Qed.

Lemma close_rule_qext b rule q0 p0 q' pend : qext b q0 (close_rule rule q0 p0 q' pend).
Proof.
  exists (QEnd (length q0) rule None pend :: firstn (length q' - S (length q0)) q' ++ [QStart (length q') p0]), None.
  split; [cbn; rewrite <- app_assoc; reflexivity|reflexivity].
Qed.

Lemma andb_under (b x y : bool) : (b = true -> x && y = true) -> (b = true -> x = true) /\ (b = true -> y = true).
Proof. destruct b, x, y; cbn; auto. Qed.

Section QueueFrame.
Variable rd : reading.
Variable cfg : config.
Variable E : env.
Variable strict : bool.
Hypothesis HE : strict = true -> notag_env E.

Theorem rexec_qext : forall fuel p r, (strict = true -> notag p = true) ->
  match rexec_gen rd cfg E fuel p r with
  | RROk r' | RRErr r' => qext strict (r_queue r) (r_queue r')
  | _ => True
  end.
Proof.
  induction fuel as [|fuel IH]; intros p r NT; [exact I|]. fold (qpost strict (r_queue r)) in *.
  assert (THEN : forall q r', (strict = true -> notag q = true) -> qext strict (r_queue r) (r_queue r') ->
            qpost strict (r_queue r) (rexec_gen rd cfg E fuel q r'))
    by (intros q r' Nq Q; exact (qpost_trans _ _ _ _ Q (IH q r' Nq))).
  destruct p; cbn [rexec_gen]; cbn [notag] in NT.
  - now apply rprim_qext.
  - destruct (remits r); [|now apply IH].
    eapply qpost_bind; [exact (IH p _ NT)|intros r' _|intros r' _; apply qext_refl].
    apply close_rule_qext.
  - eapply qpost_bind; [exact (IH p r NT)|auto|intros r' Q].
    destruct rd; [apply qext_refl|exact (qext_truncate _ _ _ Q)].
  - now apply IH.
  - eapply qpost_bind; [exact (IH p r NT)|intros r'; now apply THEN|auto].
  - eapply qpost_bind; [exact (IH p r NT)|auto..].
  - destruct (rexec_gen rd cfg E fuel p _); auto; destruct positive; apply qext_refl.
  - eapply qpost_bind; [exact (IH p (with_atom r a) NT)|auto..].
  - eapply qpost_bind; [exact (IH p r NT)|auto..].
  - eapply qpost_bind; [exact (IH p r NT)|auto..].
  - destruct (andb_under _ _ _ NT) as [N1 N2]. eapply qpost_bind; [exact (IH p1 r N1)|intros r'; now apply THEN|auto].
  - destruct (andb_under _ _ _ NT) as [N1 N2]. eapply qpost_bind; [exact (IH p1 r N1)|auto|intros r'; now apply THEN].
  - destruct (andb_under _ _ _ NT) as [N1 N2]. destruct (atom_eqb (r_atom r) NonAtomic); now apply IH.
  - destruct (E f) as [q|] eqn:Ef; [|exact I]. apply IH. intros Hb. exact (HE Hb f q Ef).
Qed.

End QueueFrame.

Corollary rexec_qext_any rd cfg E fuel p r : qpost false (r_queue r) (rexec_gen rd cfg E fuel p r).
Proof.
  exact (rexec_qext rd cfg E false (fun H => False_ind _ (Bool.diff_false_true H)) fuel p r
           (fun H => False_ind _ (Bool.diff_false_true H))).
Qed.

Lemma emits_abs s : remits (abs s) = emits s.
Proof. reflexivity. Qed.

Lemma rule_enter_abs s :
  abs (snd (rule_enter s)) = if emits s then with_queue (abs s) (QStart 0 (r_pos (abs s)) :: r_queue (abs s)) else abs s.
Proof.
  destruct (rule_enter_spec s) as (_ & _ & _ & _ & Q & SQ). unfold abs at 1.
  rewrite (q_input _ _ SQ), (q_pos _ _ SQ), (q_stack _ _ SQ), (q_la _ _ SQ), (q_at _ _ SQ), Q.
  destruct (emits s); reflexivity.
Qed.

(* the attempt-tracking and call-stack steps of rule() are invisible through abs *)
Lemma rule_ok_abs rule fr s :
  match rule_ok rule fr s with
  | ROk y => if emits s
             then exists q, set_start_end (queue s) (rf_index fr) (length (queue s)) = Some q /\
                            abs y = with_queue (abs s) (QEnd (rf_index fr) rule None (pos s) :: q)
             else abs y = abs s
  | RPanic k => k = PkInternal
  | _ => False
  end.
Proof.
  pose proof (rule_ok_shape rule fr s) as H. destruct (rule_ok rule fr s) as [y| | |]; auto.
  destruct H as (sb & Eb & C). rewrite (abs_same_core _ _ C). revert Eb. unfold end_token.
  pose proof (tracked_same (lk_eqb (lookahead s) LNeg) rule fr s) as T.
  rewrite (emits_frame _ _ (t_la _ _ T) (t_at _ _ T)), (t_queue _ _ T), (t_pos _ _ T).
  destruct (emits s); [destruct (set_start_end _ _ _) as [q|]; [|discriminate]|]; intros [= <-].
  - exists q. split; [reflexivity|].
    change (with_queue (abs (tracked (lk_eqb (lookahead s) LNeg) rule fr s)) (QEnd (rf_index fr) rule None (pos s) :: q) =
            with_queue (abs s) (QEnd (rf_index fr) rule None (pos s) :: q)).
    now rewrite (abs_same_attempts _ _ T).
  - exact (abs_same_attempts _ _ T).
Qed.

Lemma rule_err_abs rule fr s :
  match rule_err rule fr s with
  | RErr y => abs y = if emits s then with_queue (abs s) (vtruncate (rf_index fr) (queue s)) else abs s
  | RPanic k => k = PkInternal
  | _ => False
  end.
Proof.
  pose proof (rule_err_shape rule fr s) as H. destruct (rule_err rule fr s) as [|y| |]; auto.
  destruct H as (sb & C & ->).
  pose proof (eq_trans (abs_same_core _ _ C) (abs_same_attempts _ _ (tracked_same _ rule fr s))) as A.
  rewrite <- (emits_abs sb), <- (emits_abs s), A. destruct (remits (abs s)); [|exact A].
  change (with_queue (abs sb) (vtruncate (rf_index fr) (r_queue (abs sb))) = with_queue (abs s) (vtruncate (rf_index fr) (r_queue (abs s)))).
  now rewrite A.
Qed.

Lemma vtruncate_start {A} (new : list A) x q : vtruncate (length q) (new ++ x :: q) = q.
Proof.
  change (x :: q) with ([x] ++ q). rewrite app_assoc. apply vtruncate_app. reflexivity.
Qed.

Lemma firstn_body {A} (new : list A) x q : firstn (length (new ++ x :: q) - S (length q)) (new ++ x :: q) = new.
Proof.
  rewrite app_length. cbn [length]. replace (length new + S (length q) - S (length q)) with (length new + 0) by lia.
  rewrite firstn_app_2. cbn [firstn]. apply app_nil_r.
Qed.

Lemma close_rule_exact rule q0 p0 new e pend :
  close_rule rule q0 p0 (new ++ QStart e p0 :: q0) pend =
  QEnd (length q0) rule None pend :: new ++ QStart (length (new ++ QStart e p0 :: q0)) p0 :: q0.
Proof. unfold close_rule. cbv zeta. rewrite firstn_body. reflexivity. Qed.

(* rule() after a body that ran from the state rule_enter made: no internal panic (Frame), the
   End token lands on the Start that rule_enter pushed, a failure cuts the queue back to it *)
Lemma rule_exit_refines rule s s' a a' :
  wf s' -> frame (snd (rule_enter s)) s' -> Inv (stack s') a' -> snaps a' = snaps a ->
  qext false (queue (snd (rule_enter s))) (queue s') ->
  abs_res (rule_ok rule (fst (rule_enter s)) s') =
    RROk (if emits s then with_queue (abs s') (close_rule rule (queue s) (pos s) (queue s') (pos s')) else abs s') /\
  abs_res (rule_err rule (fst (rule_enter s)) s') = RRErr (if emits s then with_queue (abs s') (queue s) else abs s').
Proof.
  intros W' F I' S' QX. destruct (rule_enter_spec s) as (_ & Ri & _ & _ & Q & SQ).
  pose proof (rule_ok_post rule s s' a a' W' F I' S') as POK. pose proof (rule_ok_abs rule (fst (rule_enter s)) s') as HO.
  pose proof (rule_err_post rule s s' a a' W' F I' S') as PERR. pose proof (rule_err_abs rule (fst (rule_enter s)) s') as HE.
  rewrite (emits_frame _ _ (f_la _ _ F) (f_at _ _ F)), (emits_frame _ _ (q_la _ _ SQ) (q_at _ _ SQ)) in HO, HE.
  rewrite Q in QX.
  (* neither exit can panic: rule_ok_post / rule_err_post give k <> PkInternal, the abs lemmas k = PkInternal *)
  destruct (rule_ok rule _ s') as [y| |k|]; try contradiction. destruct (rule_err rule _ s') as [|z|k'|]; try contradiction.
  cbn [abs_res].
  destruct (emits s); [|now rewrite HO, HE].
  destruct HO as (q & Eq & ->). destruct (qext_start _ _ _ _ _ QX) as (new & En).
  rewrite En, Ri, set_start_end_exact in Eq. injection Eq as <-.
  rewrite HE, En, Ri, vtruncate_start, close_rule_exact. split; reflexivity.
Qed.

Lemma checkpoint_ok_abs x a' : Inv (stack x) a' -> abs_res (lift ROk (checkpoint_ok x)) = RROk (abs x).
Proof.
  intros I. unfold checkpoint_ok. destruct (inv_clear I) as (st & -> & I3). cbn [option_map lift abs_res]. f_equal.
  apply abs_set_stack. now rewrite (inv_cache _ _ I3), (inv_cache _ _ I).
Qed.

Lemma restore_abs x a' c rest : Inv (stack x) a' -> snaps a' = c :: rest ->
  exists y, restore_st x = Some y /\ abs y = with_stack (abs x) c.
Proof.
  intros I S. unfold restore_st. destruct (inv_restore I) as (st & -> & I3). eexists. split; [reflexivity|].
  change (with_stack (abs x) (cache st) = with_stack (abs x) c). rewrite (inv_cache _ _ I3). unfold srestore. now rewrite S.
Qed.

Lemma inc_call_nolimit s : limit s = None -> inc_call s = Some s.
Proof. intros L. unfold inc_call, limit_reached. rewrite L. reflexivity. Qed.

Section Refinement.
Variable cfg : config.
Variable E : env.

(* Running the body q from x, given SUB (the induction hypothesis with the frame theorem): the
   reference run, on abs x in whatever form the goal shows it, becomes abs_res of the run of
   the code; then by cases on that run, P saying what it preserves. *)
Ltac sub SUB q x ax Wx Ix Lx P :=
  let R := fresh in
  destruct (SUB q x ax Wx Ix Lx) as [R P];
  match goal with |- context [rexec_gen TagLeak _ _ _ q ?r] => change r with (abs x) end; rewrite R; clear R;
  destruct (exec _ _ _ q x) as [?s'|?s'|?k|]; cbn [abs_res post] in *; try reflexivity.

Theorem exec_refines_tagleak : forall fuel p s a,
  wf s -> Inv (stack s) a -> limit s = None ->
  abs_res (exec cfg E fuel p s) = rexec_gen TagLeak cfg E fuel p (abs s).
Proof.
  induction fuel as [|fuel IH]; intros p s a W I L; [reflexivity|].
  assert (SUB : forall q s0 a0, wf s0 -> Inv (stack s0) a0 -> limit s0 = None ->
            rexec_gen TagLeak cfg E fuel q (abs s0) = abs_res (exec cfg E fuel q s0) /\ post s0 a0 (exec cfg E fuel q s0))
    by (intros q s0 a0 W0 I0 L0; split; [symmetry; exact (IH q s0 a0 W0 I0 L0)|exact (exec_post cfg E fuel q s0 a0 W0 I0)]).
  assert (NEXT : forall q s', post s a (ROk s') -> abs_res (exec cfg E fuel q s') = rexec_gen TagLeak cfg E fuel q (abs s')).
  { intros q s' (F & W' & a' & I' & _). apply (IH q s' a' W' I'). rewrite (f_lim _ _ F). exact L. }
  destruct p as [o|rule p|p|p|p|p|positive p|a0 p|p|p|p1 p2|p1 p2|p1 p2|f]; cbn [exec rexec_gen];
    rewrite ?(inc_call_nolimit s L).
  - apply exec_prim_abs.
  - rewrite (surjective_pairing (rule_enter s)). cbv iota.
    destruct (rule_enter_spec s) as (_ & _ & _ & _ & _ & SQ). set (s2 := snd (rule_enter s)) in *.
    assert (W2 : wf s2) by (unfold wf; rewrite (q_pos _ _ SQ), (q_input _ _ SQ); exact W).
    assert (I2 : Inv (stack s2) a) by (rewrite (q_stack _ _ SQ); exact I).
    assert (L2 : limit s2 = None) by (rewrite (q_lim _ _ SQ); exact L).
    pose proof (rexec_qext_any TagLeak cfg E fuel p (abs s2)) as QX. unfold qpost in QX.
    rewrite emits_abs. pose proof (rule_enter_abs s) as A2. fold s2 in A2.
    destruct (emits s) eqn:Em; rewrite <- A2; destruct (SUB p s2 a W2 I2 L2) as [R P]; rewrite R in *; clear R;
      destruct (exec cfg E fuel p s2) as [s'|s'|k|]; cbn [abs_res post] in *; try reflexivity;
      destruct P as (F & W' & a' & I' & S'); destruct (rule_exit_refines rule s s' a a' W' F I' S' QX) as [HO HE];
      rewrite ?HO, ?HE, Em; reflexivity.
  - sub SUB p (checkpoint s) (ssnapshot a) W (inv_snapshot I) L P; destruct P as (F & _ & a' & I' & S').
    + exact (checkpoint_ok_abs s' a' I').
    + destruct (restore_abs (set_queue (set_pos s' (pos s)) (vtruncate (length (queue s)) (queue s'))) a' _ _ I' S')
        as (y & -> & A).
      cbn [lift abs_res]. rewrite A. f_equal. unfold abs, with_stack, with_queue. cbn.
      rewrite (f_input _ _ F), (f_la _ _ F), (f_at _ _ F), <- (inv_cache _ _ I). reflexivity.
  - exact (IH (PRepeatLoop p) s a W I L).
  - sub SUB p s a W I L P. exact (NEXT _ s' P).
  - sub SUB p s a W I L P; reflexivity.
  - (* PLookahead: position, tokens and stack come back; nothing was emitted in between *)
    set (x0 := checkpoint (set_lookahead s (enter_lookahead positive (lookahead s)))).
    assert (N0 : lookahead x0 <> LNone) by (cbn; destruct positive, (lookahead s); cbn; congruence).
    pose proof (exec_quiet_all cfg E fuel p x0 (ssnapshot a) W (inv_snapshot I) N0) as QUIET.
    assert (FIN : forall x, post x0 (ssnapshot a) (ROk x) -> queue x = queue s ->
              exists y, restore_st (set_lookahead (set_pos x (pos s)) (lookahead s)) = Some y /\ abs y = abs s).
    { intros x (F & _ & a' & I' & S') Qx.
      destruct (restore_abs (set_lookahead (set_pos x (pos s)) (lookahead s)) a' _ _ I' S') as (y & Ey & A).
      exists y. split; [exact Ey|]. rewrite A. unfold abs, with_stack.
      cbn.
      rewrite (f_input _ _ F), (f_at _ _ F), Qx, <- (inv_cache _ _ I). reflexivity. }
    sub SUB p x0 (ssnapshot a) W (inv_snapshot I) L P; destruct (FIN s' P QUIET) as (y & -> & A);
      cbn [lift]; destruct positive; cbn [abs_res]; now rewrite A.
  - destruct (atom_eqb (atomicity s) a0) eqn:T; cbn [negb].
    + apply atom_eqb_true in T. subst a0.
      sub SUB p s a W I L P; destruct P as (F & _); f_equal; unfold abs, with_atom; cbn [r_atom]; now rewrite (f_at _ _ F).
    + sub SUB p (set_atomicity s a0) a W I L P; reflexivity.
  - sub SUB p s a W I L P. destruct P as (F & _). now rewrite (proj2 (Nat.ltb_ge _ _) (f_pos _ _ F)).
  - sub SUB p (checkpoint s) (ssnapshot a) W (inv_snapshot I) L P; destruct P as (_ & _ & a' & I' & S').
    + exact (checkpoint_ok_abs s' a' I').
    + destruct (restore_abs s' a' _ _ I' S') as (y & -> & A). cbn [lift abs_res]. now rewrite A, <- (inv_cache _ _ I).
  - sub SUB p1 s a W I L P. exact (NEXT _ s' P).
  - sub SUB p1 s a W I L P. exact (NEXT _ s' P).
  - change (r_atom (abs s)) with (atomicity s). destruct (atom_eqb (atomicity s) NonAtomic); exact (IH _ s a W I L).
  - destruct (E f) as [q|]; [exact (IH q s a W I L)|reflexivity].
Qed.

End Refinement.

(* The witness against the fully documented reading:
   rule(2, "a") ; sequence(tag_node(0) ; fail)  on "a": the documentation says the failed
   sequence returns the state it was given; the code returns it with tag 0 on the End of rule 2. *)
Definition ref_tag_witness : prog :=
  PAndThen (PRule 2 (PPrim (MMatchString [97%N])))
           (PSequence (PAndThen (PPrim (MTagNode 0)) (PPrim MErr))).
Definition ref_witness_cfg : config := {| memchr := true; fixed3 := true; fixedlim := true |}.

Example exec_refines_ref_refuted_witness :
  let s := init [97%N] None false in let E : env := fun _ => None in
  abs_res (exec ref_witness_cfg E 10 ref_tag_witness s) <> rexec ref_witness_cfg E 10 ref_tag_witness (abs s) /\
  abs_res (exec ref_witness_cfg E 10 ref_tag_witness s) = rexec_gen TagLeak ref_witness_cfg E 10 ref_tag_witness (abs s) /\
  rexec ref_witness_cfg E 10 ref_tag_witness (abs s) =
    RRErr (with_queue (with_pos (rinit [97%N]) 1) [QEnd 0 2 None 1; QStart 1 0]).
Proof. vm_compute. split; [discriminate|split; reflexivity]. Qed.

Definition exec_refines_ref_statement : Prop :=
  forall cfg E fuel p s a, wf s -> Inv (stack s) a -> limit s = None ->
    abs_res (exec cfg E fuel p s) = rexec cfg E fuel p (abs s).

Theorem exec_refines_ref_refuted : ~ exec_refines_ref_statement.
Proof.
  intros H. destruct (init_wf_inv [97%N] None false) as [W I].
  exact (proj1 exec_refines_ref_refuted_witness (H ref_witness_cfg (fun _ => None) 10 ref_tag_witness _ _ W I eq_refl)).
Qed.

Section Readings.
Variable cfg : config.
Variable E : env.

Theorem readings_agree_notag : notag_env E -> forall fuel p r, notag p = true ->
  rexec_gen Documented cfg E fuel p r = rexec_gen TagLeak cfg E fuel p r.
Proof.
  intros HE. induction fuel as [|fuel IH]; intros p r NT; [reflexivity|].
  destruct p as [o|rule p|p|p|p|p|positive p|a0 p|p|p|p1 p2|p1 p2|p1 p2|f]; cbn [rexec_gen]; cbn [notag] in NT;
    try (apply andb_true_iff in NT; destruct NT as [N1 N2]).
  - reflexivity.
  - destruct (remits r); rewrite IH by exact NT; reflexivity.
  - (* PSequence: without tag_node the failed body's queue is new tokens on the old queue *)
    rewrite (IH p r NT).
    pose proof (rexec_qext TagLeak cfg E true (fun _ => HE) fuel p r (fun _ => NT)) as QX.
    destruct (rexec_gen TagLeak cfg E fuel p r) as [r'|r'|k|]; try reflexivity. f_equal.
    destruct (qext_strict _ _ QX) as (new & ->). rewrite vtruncate_app by reflexivity. destruct r; reflexivity.
  - now apply IH.
  - rewrite (IH p r NT). destruct (rexec_gen TagLeak cfg E fuel p r); try reflexivity. now apply IH.
  - now rewrite (IH p r NT).
  - now rewrite IH.
  - now rewrite IH.
  - now rewrite (IH p r NT).
  - now rewrite (IH p r NT).
  - rewrite (IH p1 r N1). destruct (rexec_gen TagLeak cfg E fuel p1 r); try reflexivity. now apply IH.
  - rewrite (IH p1 r N1). destruct (rexec_gen TagLeak cfg E fuel p1 r); try reflexivity. now apply IH.
  - destruct (atom_eqb (r_atom r) NonAtomic); now apply IH.
  - destruct (E f) as [q|] eqn:Ef; [|reflexivity]. apply IH. exact (HE f q Ef).
Qed.

(* on all programs the two readings of `sequence` coincide up to the node tags; the induction
   needs it from start states that themselves differ in tags *)
Lemma req_refl r : req r r.
Proof. repeat split. Qed.
Lemma req_sym r1 r2 : req r1 r2 -> req r2 r1.
Proof. intros (Hi & Hp & Hq & Hs & Hl & Ha). repeat split; auto. Qed.
Lemma req_trans r1 r2 r3 : req r1 r2 -> req r2 r3 -> req r1 r3.
Proof. intros (Hi & Hp & Hq & Hs & Hl & Ha) (Ki & Kp & Kq & Ks & Kl & Ka). repeat split; congruence. Qed.

Lemma req_with_pos r1 r2 p : req r1 r2 -> req (with_pos r1 p) (with_pos r2 p).
Proof. intros (Hi & Hp & Hq & Hs & Hl & Ha). repeat split; assumption. Qed.
Lemma req_with_stack r1 r2 st : req r1 r2 -> req (with_stack r1 st) (with_stack r2 st).
Proof. intros (Hi & Hp & Hq & Hs & Hl & Ha). repeat split; assumption. Qed.
Lemma req_with_look r1 r2 l : req r1 r2 -> req (with_look r1 l) (with_look r2 l).
Proof. intros (Hi & Hp & Hq & Hs & Hl & Ha). repeat split; assumption. Qed.
Lemma req_with_atom r1 r2 a : req r1 r2 -> req (with_atom r1 a) (with_atom r2 a).
Proof. intros (Hi & Hp & Hq & Hs & Hl & Ha). repeat split; assumption. Qed.
Lemma req_with_queue r1 r2 q1 q2 : req r1 r2 -> map untag_tok q1 = map untag_tok q2 -> req (with_queue r1 q1) (with_queue r2 q2).
Proof. intros (Hi & Hp & Hq & Hs & Hl & Ha) H. repeat split; assumption. Qed.

(* rreq through the `match` on a sub-run's result that every combinator is *)
Lemma rreq_bind x y (k1 k2 e1 e2 : rst -> rres) :
  rreq x y -> (forall a b, req a b -> rreq (k1 a) (k2 b)) -> (forall a b, req a b -> rreq (e1 a) (e2 b)) ->
  rreq (match x with RROk a => k1 a | RRErr a => e1 a | RRPanic k => RRPanic k | RRFuel => RRFuel end)
       (match y with RROk b => k2 b | RRErr b => e2 b | RRPanic k => RRPanic k | RRFuel => RRFuel end).
Proof. destruct x, y; cbn; try contradiction; auto. Qed.

Lemma rmoved_req r1 r2 x : req r1 r2 -> rreq (rmoved r1 x) (rmoved r2 x).
Proof. intros H. destruct x; cbn [rmoved rreq]; auto. now apply req_with_pos. Qed.

Lemma rprim_req o r1 r2 : req r1 r2 -> rreq (rprim cfg o r1) (rprim cfg o r2).
Proof.
  intros H. pose proof H as (Hi & Hp & Hq & Hs & Hl & Ha).
  destruct o; cbn [rprim]; cbv zeta; rewrite ?Hi, ?Hp, ?Hs, ?Hl; try (apply rmoved_req; exact H); try exact H.
  - destruct (skip_until _ _ _ _); cbn [rreq]; auto. now apply req_with_pos.
  - destruct (Nat.eqb _ _); exact H.
  - destruct (Nat.eqb _ _); exact H.
  - now apply req_with_stack.
  - destruct (r_stack r2); [reflexivity|apply rmoved_req; exact H].
  - destruct (r_stack r2); [reflexivity|]. now apply rmoved_req, req_with_stack.
  - destruct (r_stack r2); [exact H|]. now apply req_with_stack.
  - destruct (match_all _ _ _); [|exact H]. now apply req_with_pos.
  - destruct (rmatch_pop _ _ _) as [[rest p] ok]. destruct ok; [apply req_with_pos|]; now apply req_with_stack.
  - unfold rpeek_slice. rewrite Hs, Hi, Hp. destruct (constrain_idxs _ _ _) as [[x y]|]; [|exact H].
    destruct (Nat.leb y x); [exact H|]. cbv zeta. destruct (match_all _ _ _); [|exact H]. now apply req_with_pos.
  - destruct (r_look r2) eqn:El2; try exact H. revert Hq.
    destruct (r_queue r1) as [|[e1 p1|s1 rl1 tg1 p1] q1] eqn:E1, (r_queue r2) as [|[e2 p2|s2 rl2 tg2 p2] q2] eqn:E2;
      cbn [map untag_tok]; intros Hq; try discriminate Hq; try exact H.
    injection Hq as -> -> -> Hq. apply req_with_queue; [exact H|]. cbn [map untag_tok]. now rewrite Hq.
Qed.

Lemma close_rule_req rule q0 q0' p0 q' q'' pe :
  map untag_tok q0 = map untag_tok q0' -> map untag_tok q' = map untag_tok q'' ->
  map untag_tok (close_rule rule q0 p0 q' pe) = map untag_tok (close_rule rule q0' p0 q'' pe).
Proof.
  intros H0 H1.
  assert (L0 : length q0 = length q0') by (apply (f_equal (@length _)) in H0; now rewrite !map_length in H0).
  assert (L1 : length q' = length q'') by (apply (f_equal (@length _)) in H1; now rewrite !map_length in H1).
  unfold close_rule. cbv zeta. cbn [map untag_tok]. rewrite !map_app. cbn [map untag_tok].
  rewrite <- !firstn_map. rewrite H0, H1, L0, L1. reflexivity.
Qed.

Lemma seq_err_req rd r q' : qext false (r_queue r) q' ->
  req (match rd with Documented => r | TagLeak => with_queue r (vtruncate (length (r_queue r)) q') end) r.
Proof.
  intros QX. destruct rd; [apply req_refl|]. apply (req_with_queue r r _ _ (req_refl r)), (qext_untag _ _ _ QX).
Qed.

Theorem rexec_req rd1 rd2 : forall fuel p r1 r2, req r1 r2 ->
  rreq (rexec_gen rd1 cfg E fuel p r1) (rexec_gen rd2 cfg E fuel p r2).
Proof.
  induction fuel as [|fuel IH]; intros p r1 r2 H; [exact I|].
  pose proof H as (Hi & Hp & Hq & Hs & Hl & Ha).
  destruct p as [o|rule p|p|p|p|p|positive p|a0 p|p|p|p1 p2|p1 p2|p1 p2|f]; cbn [rexec_gen].
  - now apply rprim_req.
  - assert (Em : remits r1 = remits r2) by (unfold remits; now rewrite Hl, Ha). rewrite Em.
    destruct (remits r2); [|now apply IH]. rewrite Hp.
    apply rreq_bind; [apply IH|intros x y Hxy; cbn [rreq]..]; apply req_with_queue; auto.
    + cbn [map untag_tok]. now rewrite Hq.
    + rewrite (proj1 (proj2 Hxy)). apply close_rule_req; [exact Hq|apply Hxy].
  - (* PSequence: each side returns its start state up to tags *)
    pose proof (IH p r1 r2 H) as H1.
    pose proof (rexec_qext_any rd1 cfg E fuel p r1) as Q1. pose proof (rexec_qext_any rd2 cfg E fuel p r2) as Q2.
    unfold qpost in Q1, Q2.
    destruct (rexec_gen rd1 cfg E fuel p r1) as [x|x|k|], (rexec_gen rd2 cfg E fuel p r2) as [y|y|k'|];
      cbn [rreq] in *; try contradiction; auto.
    eapply req_trans; [apply seq_err_req; exact Q1|]. eapply req_trans; [exact H|]. apply req_sym, seq_err_req. exact Q2.
  - now apply IH.
  - apply rreq_bind; [now apply IH|intros; now apply IH|auto].
  - apply rreq_bind; [now apply IH|auto..].
  - rewrite Hl. apply rreq_bind; [now apply IH, req_with_look|intros; destruct positive; exact H..].
  - rewrite Ha. apply rreq_bind; [now apply IH, req_with_atom|intros x y Hxy; now apply req_with_atom..].
  - apply rreq_bind; [now apply IH| |auto].
    intros x y Hxy. pose proof Hxy as (Xi & Xp & _ & Xs & _). rewrite Xi, Xp, Xs, Hp. now apply req_with_stack.
  - rewrite Hs. apply rreq_bind; [now apply IH|auto|intros x y Hxy; now apply req_with_stack].
  - apply rreq_bind; [now apply IH|intros; now apply IH|auto].
  - apply rreq_bind; [now apply IH|auto|intros; now apply IH].
  - rewrite Ha. destruct (atom_eqb (r_atom r2) NonAtomic); now apply IH.
  - destruct (E f) as [q|]; [now apply IH|reflexivity].
Qed.

End Readings.

Theorem exec_refines_ref_notag cfg E fuel p s a :
  notag_env E -> notag p = true -> wf s -> Inv (stack s) a -> limit s = None ->
  abs_res (exec cfg E fuel p s) = rexec cfg E fuel p (abs s).
Proof.
  intros HE NT W I L. unfold rexec. rewrite (readings_agree_notag cfg E HE fuel p (abs s) NT).
  now apply exec_refines_tagleak with (a := a).
Qed.

Theorem exec_refines_ref_untag cfg E fuel p s a :
  wf s -> Inv (stack s) a -> limit s = None ->
  rreq (abs_res (exec cfg E fuel p s)) (rexec cfg E fuel p (abs s)).
Proof.
  intros W I L. rewrite (exec_refines_tagleak cfg E fuel p s a W I L). apply rexec_req. apply req_refl.
Qed.

Lemma abs_init inp lim detail : abs (init inp lim detail) = rinit inp.
Proof. reflexivity. Qed.

Corollary exec_refines_tagleak_init cfg E fuel p inp detail :
  abs_res (run_state cfg E fuel p inp None detail) = rexec_gen TagLeak cfg E fuel p (rinit inp).
Proof.
  unfold run_state. destruct (init_wf_inv inp None detail) as [W I].
  rewrite (exec_refines_tagleak cfg E fuel p _ _ W I eq_refl). reflexivity.
Qed.

Corollary exec_refines_ref_init cfg E fuel p inp detail :
  notag_env E -> notag p = true ->
  abs_res (run_state cfg E fuel p inp None detail) = rexec cfg E fuel p (rinit inp).
Proof.
  intros HE NT. unfold run_state. destruct (init_wf_inv inp None detail) as [W I].
  rewrite (exec_refines_ref_notag cfg E fuel p _ _ HE NT W I eq_refl). reflexivity.
Qed.

Corollary exec_refines_ref_untag_init cfg E fuel p inp detail :
  rreq (abs_res (run_state cfg E fuel p inp None detail)) (rexec cfg E fuel p (rinit inp)).
Proof.
  unfold run_state. destruct (init_wf_inv inp None detail) as [W I].
  apply (exec_refines_ref_untag cfg E fuel p _ _ W I eq_refl).
Qed.

(* with and without the memchr-accelerated search (hypotheses of Utf8c.exec_cfg_eq): the
   reference outcome does not depend on the feature, and the code built WITH memchr (repaired
   three-string arm) refines the reference that uses the plain loop *)
Theorem ref_independent_of_memchr cfg1 cfg2 E fuel p s a :
  cfg_ok cfg1 -> cfg_ok cfg2 -> env_valid E -> prog_valid p ->
  wf s -> Inv (stack s) a -> utf8_ok s -> limit s = None ->
  rexec_gen TagLeak cfg1 E fuel p (abs s) = rexec_gen TagLeak cfg2 E fuel p (abs s).
Proof.
  intros H1 H2 HE Vp W I U L.
  rewrite <- (exec_refines_tagleak cfg1 E fuel p s a W I L), <- (exec_refines_tagleak cfg2 E fuel p s a W I L).
  f_equal. now apply (exec_cfg_eq cfg1 cfg2 E H1 H2 HE fuel p s a).
Qed.

Theorem ref_independent_of_memchr_doc cfg1 cfg2 E fuel p s a :
  cfg_ok cfg1 -> cfg_ok cfg2 -> env_valid E -> prog_valid p -> notag_env E -> notag p = true ->
  wf s -> Inv (stack s) a -> utf8_ok s -> limit s = None ->
  rexec cfg1 E fuel p (abs s) = rexec cfg2 E fuel p (abs s).
Proof.
  intros H1 H2 HE Vp NE NT W I U L. unfold rexec. rewrite !(readings_agree_notag _ E NE fuel p (abs s) NT).
  now apply ref_independent_of_memchr with (a := a).
Qed.

Corollary exec_memchr_refines_plain_ref E fuel p s a l1 l2 f2 :
  env_valid E -> prog_valid p -> wf s -> Inv (stack s) a -> utf8_ok s -> limit s = None ->
  abs_res (exec {| memchr := true; fixed3 := true; fixedlim := l1 |} E fuel p s) =
  rexec_gen TagLeak {| memchr := false; fixed3 := f2; fixedlim := l2 |} E fuel p (abs s).
Proof.
  intros HE Vp W I U L. rewrite (exec_memchr_eq_basic E fuel p s a l1 l2 f2 HE Vp W I U).
  now apply exec_refines_tagleak with (a := a).
Qed.

(* Non-vacuity:
   repeat( sequence( stack_push( rule(1, "a") ; tag_node(7) ) ; "b" ) )  on "ababac":
   two full iterations, then a third one in which rule 1 matches, emits, is tagged and pushed
   before "b" fails: the sequence rolls everything back and the repeat succeeds.
   Both interpreters (the code with error detail and the memchr feature on) agree, also with the
   fully documented reading, and the outcome has tokens, tags, a stack and a moved position.   *)
Definition ref_example_prog : prog :=
  PRepeat (PSequence (PAndThen
     (PStackPush (PAndThen (PRule 1 (PPrim (MMatchString [97%N]))) (PPrim (MTagNode 7))))
     (PPrim (MMatchString [98%N])))).
Definition ref_example_input : list byte := [97; 98; 97; 98; 97; 99]%N.

Example ref_example_agree :
  let E : env := fun _ => None in
  let x := exec ref_witness_cfg E 30 ref_example_prog (init ref_example_input None true) in
  abs_res x = rexec ref_witness_cfg E 30 ref_example_prog (rinit ref_example_input) /\
  abs_res x = rexec_gen TagLeak ref_witness_cfg E 30 ref_example_prog (rinit ref_example_input) /\
  abs_res x = RROk {| r_input := ref_example_input; r_pos := 4;
                      r_queue := [QEnd 2 1 (Some 7) 3; QStart 3 2; QEnd 0 1 (Some 7) 1; QStart 1 0];
                      r_stack := [[97%N]; [97%N]]; r_look := LNone; r_atom := NonAtomic |} /\
  (* the model really went through snapshots and bookkeeping that abs forgets *)
  match x with ROk s => popped (stack s) = [] /\ lengths (stack s) = [] /\ max_position s = 5 /\ expected s = [TSens [98%N]] | _ => False end.
Proof. vm_compute. repeat split; reflexivity. Qed.

(* the failing third iteration alone, from the state after two iterations: position, tokens
   and stack had really moved before the roll-back *)
Example ref_example_third_iteration :
  let E : env := fun _ => None in
  let body := PAndThen (PStackPush (PAndThen (PRule 1 (PPrim (MMatchString [97%N]))) (PPrim (MTagNode 7))))
                       (PPrim (MMatchString [98%N])) in
  let r := {| r_input := ref_example_input; r_pos := 4;
              r_queue := [QEnd 2 1 (Some 7) 3; QStart 3 2; QEnd 0 1 (Some 7) 1; QStart 1 0];
              r_stack := [[97%N]; [97%N]]; r_look := LNone; r_atom := NonAtomic |} in
  match rexec ref_witness_cfg E 10 body r with
  | RRErr r' => r_pos r' = 5 /\ length (r_queue r') = 6 /\ length (r_stack r') = 3
  | _ => False
  end /\ rexec ref_witness_cfg E 11 (PSequence body) r = RRErr r.
Proof. vm_compute. repeat split; reflexivity. Qed.
