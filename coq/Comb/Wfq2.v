(* C04, parser half, part 3: the boundary clause discharged with the UTF-8 theory of Utf8c.v, and
   non-vacuity examples.

   exec_preserves_wfq_utf8: for valid UTF-8 input, a program whose string constants are valid UTF-8
   (they are &str in Rust), an environment of such programs and a configuration covered by Utf8c
   (no memchr, or the repaired three-needle arm), every successful run from the initial state leaves a
   queue that is well-formed in the full sense of PV.Iter.Queue.wfq: balanced, nested, cross-links
   correct, positions non-decreasing, every position a char boundary of the input and <= its length. *)
From Coq Require Import List Arith NArith ZArith Bool Lia.
Import ListNotations.
Require Import PV.Iter.Queue PV.Iter.QueueFacts.
Require Import PV.Stack.Model PV.Stack.Proofs PV.Comb.PState PV.Comb.Bytes PV.Comb.Prog PV.Comb.Exec PV.Comb.Frame.
Require Import PV.Comb.Utf8 PV.Comb.Utf8b PV.Comb.Utf8c.
Require Import PV.Comb.Wfq1 PV.Comb.Wfq.

Theorem exec_preserves_wfq_utf8 cfg E fuel p inp lim detail s :
  cfg_ok cfg -> env_valid E -> prog_valid p -> valid_utf8 inp ->
  exec cfg E fuel p (init inp lim detail) = ROk s ->
  wfq (boundaryb inp) (length inp) (stream (queue s)).
Proof.
  intros Hc HE Vp Vi H.
  apply (exec_preserves_wfq_from_boundary cfg E boundaryb utf8_ok prog_valid)
    with (fuel := fuel) (p := p) (lim := lim) (detail := detail).
  - exact utf8_ok_same.
  - intros s0 (_ & B & _). exact B.
  - exact prog_valid_children.
  - intros f q _ Ef. exact (HE f q Ef).
  - intros fl q s0 a Vq W I U0. pose proof (exec_boundary cfg E Hc HE fl q s0 a Vq W I U0) as P.
    destruct (exec cfg E fl q s0); cbn in P; auto.
  - exact Vp.
  - apply init_utf8_ok. exact Vi.
  - exact H.
Qed.

(* a( b#7("é") c( d("y") ) ) on the 3-byte input "éy": nested pairs a(b, c(d)), a tag, a 2-byte char *)
Definition ex_cfg : config := {| memchr := false; fixed3 := true; fixedlim := true |}.
Definition ex_prog : prog :=
  PRule 0 (PSequence (PAndThen (PAndThen (PRule 1 (PPrim (MMatchString [195; 169]%N))) (PPrim (MTagNode 7)))
                               (PRule 2 (PRule 3 (PPrim (MMatchString [121]%N)))))).
Definition ex_inp : list byte := [195; 169; 121]%N.

Example ex_run_wfq :
  match exec ex_cfg (fun _ => None) 20 ex_prog (init ex_inp None false) with
  | ROk s =>
      wfqb (boundaryb ex_inp) (length ex_inp) (stream (queue s)) &&
      list_eqb qtoken_eqb (stream (queue s))
        (tokens_of [Node 0 None 0 3 [Node 1 (Some 7) 0 2 []; Node 2 None 2 3 [Node 3 None 2 3 []]]])
  | _ => false
  end = true.
Proof. vm_compute. reflexivity. Qed.

(* the stream itself, with its cross-links *)
Example ex_run_stream :
  match exec ex_cfg (fun _ => None) 20 ex_prog (init ex_inp None false) with
  | ROk s => stream (queue s)
  | _ => []
  end = [Queue.QStart 7 0; Queue.QStart 2 0; Queue.QEnd 1 1 (Some 7) 2; Queue.QStart 6 2; Queue.QStart 5 2;
         Queue.QEnd 4 3 None 3; Queue.QEnd 3 2 None 3; Queue.QEnd 0 0 None 3].
Proof. vm_compute. reflexivity. Qed.

(* offset 1 is inside the 2-byte char: the boundary clause is not trivially true *)
Example ex_inside_char : boundaryb ex_inp 1 = false.
Proof. vm_compute. reflexivity. Qed.

(* a failing alternative that had already emitted a pair leaves nothing behind: (a("é") "x") | b("é") *)
Example ex_backtrack :
  match exec ex_cfg (fun _ => None) 20
          (POrElse (PSequence (PAndThen (PRule 0 (PPrim (MMatchString [195; 169]%N))) (PPrim (MMatchString [120]%N))))
                   (PRule 1 (PPrim (MMatchString [195; 169]%N))))
          (init ex_inp None false) with
  | ROk s => list_eqb qtoken_eqb (stream (queue s)) (tokens_of [Node 1 None 0 2 []])
  | _ => false
  end = true.
Proof. vm_compute. reflexivity. Qed.

(* the public entry point state(): a successful parse *)
Lemma parse_with_pairs cfg E fuel p inp lim detail q :
  parse_with cfg E fuel p inp lim detail = OPairs q ->
  exists s, exec cfg E fuel p (init inp lim detail) = ROk s /\ q = rev (queue s).
Proof.
  unfold parse_with, run_state, outcome_of.
  destruct (exec cfg E fuel p (init inp lim detail)) as [s|s|k|]; try discriminate.
  - destruct (fixedlim cfg && limit_reached s); [discriminate|]. intros H. inversion H; subst. exists s. auto.
  - destruct (limit_reached s); discriminate.
Qed.

Theorem parse_wfq_utf8 cfg E fuel p inp lim detail q :
  cfg_ok cfg -> env_valid E -> prog_valid p -> valid_utf8 inp ->
  parse_with cfg E fuel p inp lim detail = OPairs q ->
  wfq (boundaryb inp) (length inp) (map conv q).
Proof.
  intros Hc HE Vp Vi H. destruct (parse_with_pairs _ _ _ _ _ _ _ _ H) as (s & Ex & ->).
  exact (exec_preserves_wfq_utf8 cfg E fuel p inp lim detail s Hc HE Vp Vi Ex).
Qed.
