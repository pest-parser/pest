(* Layer C, C15 part 4: max_position is a char boundary, for valid UTF-8 input and valid programs.
   Instantiates the reduction of MaxPos.v with the UTF-8 invariant of Utf8c.v (valid input, position
   on a boundary, stack of valid strings), preserved by exec for programs whose string constants are
   valid UTF-8 (theorem exec_boundary).                                                          *)
From Coq Require Import List Arith NArith ZArith Bool Lia.
Import ListNotations.
Require Import PV.Stack.Model PV.Stack.Proofs PV.Comb.PState PV.Comb.Bytes PV.Comb.Prog PV.Comb.Exec PV.Comb.Frame.
Require Import PV.Comb.Utf8 PV.Comb.Utf8b PV.Comb.Utf8c PV.Comb.Detail PV.Comb.DetailProofs PV.Comb.Standing PV.Comb.MaxPos.

Definition uinv (s : pst) : Prop := exists a, ready utf8_ok s a.

Lemma uinv_enter s t : uinv s -> enter_step s t -> uinv t.
Proof. intros [a R]. exact (ready_enter utf8_ok utf8_ok_same s t a R). Qed.

Theorem max_position_boundary cfg E : cfg_ok cfg -> env_valid E ->
  forall fuel p s a, prog_valid p -> wf s -> Inv (stack s) a -> utf8_ok s -> max_boundary_inv s ->
  res_all max_boundary_inv (exec cfg E fuel p s).
Proof.
  intros Hc HE fuel p s a Vp W I U M.
  apply (max_position_boundary_from_invariant cfg E uinv prog_valid); auto.
  - intros x (_ & _ & _ & (_ & B & _)). exact B.
  - intros f q x Vq (b & Wx & Ix & Ux).
    pose proof (exec_boundary cfg E Hc HE f q x b Vq Wx Ix Ux) as P1.
    pose proof (exec_post cfg E f q x b Wx Ix) as P2.
    destruct (exec cfg E f q x); cbn in *; auto; destruct P2 as (_ & W' & a' & I' & _); exists a'; (split; [exact W'|split; [exact I'|exact P1]]).
  - intros x t. apply uinv_enter.
  - apply prog_valid_children.
  - exists a. split; [exact W|split; [exact I|exact U]].
Qed.

(* a whole parse of valid UTF-8 input: the recorded max_position is a char boundary of the input *)
Corollary run_state_max_position_boundary cfg E fuel p inp lim detail :
  cfg_ok cfg -> env_valid E -> prog_valid p -> valid_utf8 inp ->
  res_all (fun s' => boundaryb inp (max_position s') = true /\ max_position s' <= length inp)
          (run_state cfg E fuel p inp lim detail).
Proof.
  intros Hc HE Vp V.
  pose proof (run_state_max_position_le cfg E fuel p inp lim detail) as L.
  unfold run_state in *. destruct (init_wf_inv inp lim detail) as [W I].
  pose proof (max_position_boundary cfg E Hc HE fuel p _ _ Vp W I (init_utf8_ok inp lim detail V)) as B.
  assert (M0 : max_boundary_inv (init inp lim detail)) by (unfold max_boundary_inv; cbn; now apply boundaryb_0).
  specialize (B M0).
  destruct (exec cfg E fuel p (init inp lim detail)); cbn in *; auto;
    destruct L as [L1 L2]; unfold max_boundary_inv in B; rewrite L2 in B; auto.
Qed.
