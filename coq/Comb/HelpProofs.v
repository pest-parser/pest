(* Layer C, C15 part 6: the help message can always be rendered.
   Building the message is a total function (Help.v).  The rendering is C10's model of
   Error::new_from_pos + Display, which never panics at a char boundary of the input
   (PV.Pos.ErrorProofs.render_pos_no_panic, the `render_pos` conjunct of C10_outside_known_classes).
   The boundary comes from MaxPosUtf8.run_state_max_position_boundary through the bridge below
   (byte-level boundaryb on the UTF-8 encoding = char-level boundary of C10).                     *)
From Coq Require Import String Ascii.
From Coq Require Import List Arith NArith ZArith Bool Lia.
Import ListNotations.
Require Import PV.Stack.Model PV.Stack.Proofs PV.Comb.PState PV.Comb.Bytes PV.Comb.Prog PV.Comb.Exec PV.Comb.Frame.
Require Import PV.Comb.Utf8 PV.Comb.Utf8c PV.Comb.Detail PV.Comb.DetailProofs PV.Comb.MaxPos PV.Comb.MaxPosUtf8 PV.Comb.Help.
Require PV.Pos.Model PV.Pos.Spec PV.Pos.ErrorFmt PV.Pos.ErrorProofs.
Open Scope list_scope.

Lemma encode_len_utf8 c : length (encode c) = PV.Pos.Model.len_utf8 c.
Proof.
  unfold encode, PV.Pos.Model.len_utf8.
  destruct (c <? 128)%N; [reflexivity|]. destruct (c <? 2048)%N; [reflexivity|]. destruct (c <? 65536)%N; reflexivity.
Qed.

Lemma flat_encode_blen cs : length (flat_map encode cs) = PV.Pos.Model.blen cs.
Proof.
  induction cs as [|c cs IH]; [reflexivity|]. cbn [flat_map PV.Pos.Model.blen]. rewrite app_length, encode_len_utf8, IH. reflexivity.
Qed.

Lemma boundaryb_boundary cs p : Forall scalar cs -> boundaryb (flat_map encode cs) p = true -> PV.Pos.Spec.boundary cs p.
Proof.
  intros F B. apply (boundary_iff cs p F) in B. destruct B as [k ->].
  exists (firstn k cs), (skipn k cs). split; [symmetry; apply firstn_skipn|]. symmetry. apply flat_encode_blen.
Qed.

Section Renders.
Variable rule_to_message : nat -> option PV.Pos.Model.str.
Variable is_whitespace : list byte -> bool.
Variable to_uppercase : PV.Pos.Model.str -> PV.Pos.Model.str.

Theorem help_renders (self : PV.Pos.ErrorFmt.error) (cs : PV.Pos.Model.str) (s : pst) :
  pa_enabled s = true -> PV.Pos.Spec.boundary cs (max_position s) ->
  exists e out, parse_attempts_error rule_to_message is_whitespace to_uppercase self cs s = Some (PV.Pos.Model.Ok e) /\
                help_render rule_to_message is_whitespace to_uppercase self cs s = Some (PV.Pos.Model.Ok out).
Proof.
  intros En (p & q & -> & Eo). unfold help_render, parse_attempts_error. rewrite En. rewrite <- Eo.
  set (msg := help_message _ _ _ _ _).
  destruct (PV.Pos.ErrorProofs.render_pos_no_panic p q msg) as [out H]. unfold PV.Pos.ErrorFmt.render_pos in H.
  destruct (PV.Pos.ErrorFmt.new_from_pos (p ++ q) (PV.Pos.Model.blen p) msg) as [e| |]; cbn in H; try discriminate.
  exists e, out. split; [reflexivity|]. cbn. rewrite H. reflexivity.
Qed.

Theorem help_absent_when_off self cs s : pa_enabled s = false ->
  help_render rule_to_message is_whitespace to_uppercase self cs s = None.
Proof. intros En. unfold help_render, parse_attempts_error. rewrite En. reflexivity. Qed.

(* a whole parse of valid UTF-8 input in detail mode: whatever state it ends in, the help message renders *)
Theorem run_help_renders cfg E fuel p cs lim :
  cfg_ok cfg -> env_valid E -> prog_valid p -> Forall scalar cs ->
  res_all (fun s' => forall self, exists e out,
             parse_attempts_error rule_to_message is_whitespace to_uppercase self cs s' = Some (PV.Pos.Model.Ok e) /\
             help_render rule_to_message is_whitespace to_uppercase self cs s' = Some (PV.Pos.Model.Ok out))
          (run_state cfg E fuel p (flat_map encode cs) lim true).
Proof.
  intros Hc HE Vp F.
  assert (V : valid_utf8 (flat_map encode cs)) by (exists cs; auto).
  pose proof (run_state_max_position_boundary cfg E fuel p _ lim true Hc HE Vp V) as B.
  unfold run_state in *.
  pose proof (proj2 (exec_erase cfg E fuel p (init (flat_map encode cs) lim true))) as D.
  destruct (exec cfg E fuel p (init (flat_map encode cs) lim true)) as [s'|s'|k|]; cbn in *; auto;
    destruct D as (En & _); destruct B as [B _]; intros self; apply help_renders; auto; now apply boundaryb_boundary.
Qed.

End Renders.
