(* Layer C proofs (C12): the call limit.  The counter only grows and the limit never changes,
   so a refusal is sticky; a run under limit L that ends with calls < L is, on every field but
   calls/limit, the run under any laxer limit (none, or L' >= L); more fuel does not change a result
   that is not ROutOfFuel.                                                                        *)
From Coq Require Import List Arith NArith ZArith Bool Lia.
Import ListNotations.
Require Import PV.Stack.Model PV.Comb.PState PV.Comb.Bytes PV.Comb.Prog PV.Comb.Exec PV.Comb.ExecInd PV.Comb.Detail PV.Comb.CallComm.
Require Import PV.Stack.Proofs PV.Comb.Frame.

Definition rle (r r' : res) : Prop := r = ROutOfFuel \/ r = r'.

Lemma rle_bind r r' k1 k1' k2 k2' :
  rle r r' -> (forall s, rle (k1 s) (k1' s)) -> (forall s, rle (k2 s) (k2' s)) -> rle (bind r k1 k2) (bind r' k1' k2').
Proof. intros [->| <-] H1 H2; [left; reflexivity|]. destruct r; cbn; auto; right; reflexivity. Qed.

Section Mono.
Variable cfg : config.
Variable E : env.

Lemma exec_rle : forall f f' p s, f <= f' -> rle (exec cfg E f p s) (exec cfg E f' p s).
Proof.
  induction f as [|f IH]; intros f' p s Hle; [left; reflexivity|].
  destruct f' as [|f']; [lia|].
  assert (IH' : forall p s, rle (exec cfg E f p s) (exec cfg E f' p s)) by (intros; apply IH; lia).
  assert (R : forall (k : pst -> res) s, rle (k s) (k s)) by (right; reflexivity).
  destruct (exec_step cfg E f p s) as [o|p q|p q|p|p q|g q Eg|g Eg|p b B G|p b s1 B G].
  - right; reflexivity.
  - apply (rle_bind _ (exec cfg E f' p s) _ (exec cfg E f' q) _ RErr); auto.
  - apply (rle_bind _ (exec cfg E f' p s) _ ROk _ (exec cfg E f' q)); auto.
  - apply (rle_bind _ (exec cfg E f' p s) _ (exec cfg E f' (PRepeatLoop p)) _ ROk); auto.
  - cbn [exec]. destruct (atom_eqb (atomicity s) NonAtomic); apply IH'.
  - cbn [exec]. rewrite Eg. apply IH'.
  - cbn [exec]. rewrite Eg. right; reflexivity.
  - rewrite (exec_bracket cfg E f' p b s B), G. right; reflexivity.
  - rewrite (exec_bracket cfg E f' p b s B), G. apply rle_bind; auto.
Qed.

Theorem exec_mono f f' p s :
  f <= f' -> exec cfg E f p s <> ROutOfFuel -> exec cfg E f' p s = exec cfg E f p s.
Proof. intros Hle H. destruct (exec_rle f f' p s Hle) as [X|X]; [contradiction|symmetry; exact X]. Qed.

Corollary exec_fuel_irrelevant f1 f2 p s :
  exec cfg E f1 p s <> ROutOfFuel -> exec cfg E f2 p s <> ROutOfFuel -> exec cfg E f1 p s = exec cfg E f2 p s.
Proof.
  intros H1 H2. destruct (Nat.le_ge_cases f1 f2) as [L|L].
  - symmetry. now apply exec_mono.
  - now apply exec_mono.
Qed.
End Mono.

Definition cl (s s' : pst) : Prop := limit s' = limit s /\ calls s <= calls s'.
Definition res_cl (s : pst) (r : res) : Prop :=
  match r with ROk s' | RErr s' => cl s s' | _ => True end.

Lemma cl_refl s : cl s s. Proof. split; auto. Qed.
Lemma cl_trans a b c : cl a b -> cl b c -> cl a c.
Proof. intros [A1 A2] [B1 B2]. split; [congruence|lia]. Qed.
Lemma res_cl_trans a b r : cl a b -> res_cl b r -> res_cl a r.
Proof. intros H. destruct r; cbn; auto; apply cl_trans; exact H. Qed.

Lemma inc_call_cl s s1 : inc_call s = Some s1 -> cl s s1.
Proof.
  unfold inc_call. destruct (limit_reached s); [discriminate|].
  destruct (limit s) eqn:L; intros [= <-]; split; cbn; auto.
Qed.

Lemma scomm_cl f s : scomm f -> cl s (f s).
Proof. intros H. destruct (scomm_keeps f H s) as [A B]. split; [exact B|lia]. Qed.

Lemma kcomm_cl k s : kcomm k -> res_cl s (k s).
Proof.
  intros H. pose proof (kcomm_keeps k H s) as K.
  destruct (k s) as [s'|s'| |] eqn:Ek; cbn; auto.
  - destruct (K s' (or_introl eq_refl)) as [A B]. split; [exact B|lia].
  - destruct (K s' (or_intror eq_refl)) as [A B]. split; [exact B|lia].
Qed.

Lemma res_cl_bind s r kOk kErr :
  res_cl s r -> (forall s', res_cl s' (kOk s')) -> (forall s', res_cl s' (kErr s')) -> res_cl s (bind r kOk kErr).
Proof. intros H HO HE. destruct r as [s'|s'| |]; cbn in *; auto; eapply res_cl_trans; eauto. Qed.

Lemma guard_cl k s s1 : guard k s = Some s1 -> cl s s1.
Proof. destruct k; [apply inc_call_cl|intros [= <-]; apply cl_refl]. Qed.

Lemma checkpoint_comm : scomm checkpoint. Proof. intros s c l. reflexivity. Qed.

Section CL.
Variable cfg : config.
Variable E : env.

Theorem exec_cl : forall fuel p s, res_cl s (exec cfg E fuel p s).
Proof.
  induction fuel as [|fuel IH]; intros p s; [exact I|].
  destruct (exec_step cfg E fuel p s) as [o|p q|p q|p|p q|f q _|f _|p b _ _|p b s1 B G].
  - apply kcomm_cl, exec_prim_comm.
  - apply res_cl_bind; [apply IH|apply IH|intros; apply cl_refl].
  - apply res_cl_bind; [apply IH|intros; apply cl_refl|apply IH].
  - apply res_cl_bind; [apply IH|apply IH|intros; apply cl_refl].
  - apply IH.
  - apply IH.
  - exact I.
  - apply cl_refl.
  - destruct (bracket_comm p b B) as (En & _ & K).
    apply (res_cl_trans s s1); [exact (guard_cl _ _ _ G)|].
    apply (res_cl_trans s1 (b_enter b s1)); [now apply scomm_cl|].
    apply res_cl_bind; [apply IH|intros; now apply kcomm_cl, K|intros; now apply kcomm_cl, K].
Qed.
End CL.

Lemma reached_cl s s' : cl s s' -> limit_reached s = true -> limit_reached s' = true.
Proof.
  unfold limit_reached. intros [A B]. rewrite A. destruct (limit s) as [l|]; [|discriminate].
  intros H. apply Nat.leb_le in H. apply Nat.leb_le. lia.
Qed.

Definition res_reached (r : res) : Prop :=
  match r with ROk s' | RErr s' => limit_reached s' = true | _ => True end.

Theorem refusal_sticky cfg E fuel p s :
  limit_reached s = true -> res_reached (exec cfg E fuel p s).
Proof.
  intros H. pose proof (exec_cl cfg E fuel p s) as C.
  destruct (exec cfg E fuel p s); cbn in *; auto; eapply reached_cl; eauto.
Qed.

Lemma inc_call_none s : inc_call s = None <-> limit_reached s = true.
Proof.
  unfold inc_call. destruct (limit_reached s); [tauto|]. destruct (limit s); split; discriminate.
Qed.

(* the other run has no limit, or a limit L' >= L and the same count *)
Definition lax (L cA cB : nat) (l : option nat) : Prop :=
  match l with None => True | Some L' => L <= L' /\ cB = cA end.

Definition simpost (L : nat) (l : option nat) (rA rB : res) : Prop :=
  match rA with
  | ROk sA' => limit_reached sA' = true \/ exists c', rB = ROk (recl sA' c' l) /\ lax L (calls sA') c' l
  | RErr sA' => limit_reached sA' = true \/ exists c', rB = RErr (recl sA' c' l) /\ lax L (calls sA') c' l
  | _ => True
  end.

Lemma simpost_reached L l rA rB : res_reached rA -> simpost L l rA rB.
Proof. destruct rA; cbn; auto. Qed.

Lemma inc_call_sim L l sA c :
  limit sA = Some L -> lax L (calls sA) c l ->
  match inc_call sA with
  | None => limit_reached sA = true
  | Some sA1 => exists c1, inc_call (recl sA c l) = Some (recl sA1 c1 l) /\ lax L (calls sA1) c1 l /\ limit sA1 = Some L
  end.
Proof.
  intros HL HX. unfold inc_call, limit_reached. rewrite HL. cbn [limit recl set_calls set_limit calls].
  destruct (Nat.leb L (calls sA)) eqn:R; [reflexivity|]. apply Nat.leb_gt in R.
  destruct l as [L'|]; cbn in HX.
  - destruct HX as [H1 ->]. assert (Q : Nat.leb L' (calls sA) = false) by (apply Nat.leb_gt; lia). rewrite Q.
    exists (S (calls sA)). split; [reflexivity|]. split; [cbn; auto|exact HL].
  - exists c. split; [reflexivity|]. split; [exact I|exact HL].
Qed.

Lemma guard_sim L l k sA c :
  limit sA = Some L -> lax L (calls sA) c l ->
  match guard k sA with
  | None => limit_reached sA = true
  | Some sA1 => exists c1, guard k (recl sA c l) = Some (recl sA1 c1 l) /\ lax L (calls sA1) c1 l /\ limit sA1 = Some L
  end.
Proof. intros HL HX. destruct k; [now apply inc_call_sim|exists c; auto]. Qed.

Section Sim.
Variable cfg : config.
Variable E : env.
Variable L : nat.
Variable l : option nat.

(* a continuation that can take over in the middle of a simulated run: a reached limit stays
   reached, and from a state still matched by the laxer run the two results match *)
Definition simk (k : pst -> res) : Prop :=
  (forall sA, limit_reached sA = true -> res_reached (k sA)) /\
  (forall sA c, limit sA = Some L -> lax L (calls sA) c l -> simpost L l (k sA) (k (recl sA c l))).

Lemma kcomm_simk k : kcomm k -> simk k.
Proof.
  intros Hk. split.
  - intros sA R. pose proof (kcomm_cl k sA Hk) as C. destruct (k sA); cbn in *; auto; eapply reached_cl; eauto.
  - intros sA c _ D. pose proof (kcomm_keeps k Hk sA) as K. rewrite (Hk sA c l).
    destruct (k sA) as [s2|s2| |]; cbn; auto;
      (destruct (K s2) as [K1 _]; [auto|]; right; exists c; rewrite K1; auto).
Qed.

Lemma exec_simk fuel q :
  (forall sA c, limit sA = Some L -> lax L (calls sA) c l ->
   simpost L l (exec cfg E fuel q sA) (exec cfg E fuel q (recl sA c l))) -> simk (exec cfg E fuel q).
Proof. intros IH. split; [intros sA R; now apply refusal_sticky|exact IH]. Qed.

Lemma sim_bind rA rB kOk kErr s0 :
  limit s0 = Some L -> res_cl s0 rA -> simpost L l rA rB -> simk kOk -> simk kErr ->
  simpost L l (bind rA kOk kErr) (bind rB kOk kErr).
Proof.
  intros HL C H [RO SO] [RE SE]. destruct rA as [sA'|sA'| |]; cbn in H, C |- *; auto;
    destruct C as [C _]; rewrite HL in C; destruct H as [H|[c' [-> H]]].
  (* either the limited run has hit its limit, which sticks through the continuation,
     or the laxer run is in the matching state and the continuation runs on both *)
  - apply simpost_reached; auto.
  - cbn; auto.
  - apply simpost_reached; auto.
  - cbn; auto.
Qed.

Theorem under_limit_simulation : forall fuel p sA c,
  limit sA = Some L -> lax L (calls sA) c l ->
  simpost L l (exec cfg E fuel p sA) (exec cfg E fuel p (recl sA c l)).
Proof.
  induction fuel as [|fuel IH]; intros p sA c HL HX; [exact I|].
  pose proof (fun q => exec_simk fuel q (IH q)) as IHk.
  pose proof (kcomm_simk _ k_ok) as KO. pose proof (kcomm_simk _ k_err) as KE.
  destruct (exec_step cfg E fuel p sA) as [o|p q|p q|p|p q|f q Ef|f Ef|p b B G|p b s1 B G].
  - now apply (kcomm_simk _ (exec_prim_comm cfg o)).
  - apply (sim_bind _ _ _ _ sA); auto; apply exec_cl.
  - apply (sim_bind _ _ _ _ sA); auto; apply exec_cl.
  - apply (sim_bind _ _ _ _ sA); auto; apply exec_cl.
  - cbn [exec]. change (atomicity (recl sA c l)) with (atomicity sA).
    destruct (atom_eqb (atomicity sA) NonAtomic); now apply IH.
  - cbn [exec]. rewrite Ef. now apply IH.
  - exact I.
  - pose proof (guard_sim L l (b_counted b) sA c HL HX) as HI. rewrite G in HI. left; exact HI.
  - rewrite (exec_bracket cfg E fuel p b _ B).
    pose proof (guard_sim L l (b_counted b) sA c HL HX) as HI. rewrite G in HI. destruct HI as (c1 & -> & HX1 & HL1).
    destruct (bracket_comm p b B) as (En & Ex & K). destruct (Ex s1 c1 l) as [-> ->]. rewrite En.
    destruct (K s1) as [K1 K2]. destruct (scomm_keeps _ En s1) as [Ec El].
    apply (sim_bind _ _ _ _ (b_enter b s1)); [congruence|apply exec_cl| |now apply kcomm_simk|now apply kcomm_simk].
    apply IH; [congruence|now rewrite Ec].
Qed.
End Sim.

(* a parse "completes": state() returned Ok(pairs) or the ordinary ParsingError *)
Definition completes (o : outcome) : Prop :=
  match o with OPairs _ | OParsingError _ _ _ => True | _ => False end.
Definition completesb (o : outcome) : bool :=
  match o with OPairs _ | OParsingError _ _ _ => true | _ => false end.
Lemma completesb_spec o : completesb o = true <-> completes o.
Proof. destruct o; cbn; split; auto; discriminate. Qed.

(* the limited run absorbed a refusal: the closure returned Ok although the limit was hit *)
Definition absorbed (cfg : config) (E : env) (fuel : nat) (p : prog) (inp : list byte) (L : nat) (detail : bool) : bool :=
  match run_state cfg E fuel p inp (Some L) detail with ROk s => limit_reached s | _ => false end.

Lemma outcome_oof cfg r : outcome_of cfg r = OOutOfFuel <-> r = ROutOfFuel.
Proof.
  destruct r as [s|s| |]; cbn; split; try discriminate; auto.
  - destruct (fixedlim cfg && limit_reached s); discriminate.
  - destruct (limit_reached s); discriminate.
Qed.

Lemma outcome_recl_unreached cfg r c l :
  match r with
  | ROk s | RErr s => limit_reached s = false /\ limit_reached (recl s c l) = false
  | _ => True
  end -> outcome_of cfg (map_res (fun x => recl x c l) r) = outcome_of cfg r.
Proof.
  destruct r as [s|s| |]; cbn [map_res outcome_of]; auto.
  - intros [-> ->]. rewrite !andb_false_r. reflexivity.
  - intros [-> ->]. reflexivity.
Qed.

Lemma lax_unreached L s c l :
  limit s = Some L -> lax L (calls s) c l -> limit_reached s = false -> limit_reached (recl s c l) = false.
Proof.
  unfold limit_reached. intros -> HX R. cbn. destruct l as [L'|]; [|reflexivity].
  destruct HX as [H ->]. apply Nat.leb_gt in R. apply Nat.leb_gt. lia.
Qed.

Section Top.
Variable cfg : config.
Variable E : env.

Lemma parse_sim fuel p inp L l detail :
  lax L 0 0 l ->
  let a := parse_with cfg E fuel p inp (Some L) detail in
  let b := parse_with cfg E fuel p inp l detail in
  (completes a /\ absorbed cfg E fuel p inp L detail = false -> b = a) /\
  (a = b \/ (exists ap, a = OCallLimit ap) \/ a = OPanic \/ a = OOutOfFuel
   \/ (fixedlim cfg = false /\ absorbed cfg E fuel p inp L detail = true)).
Proof.
  intros HX a b. subst a b. unfold parse_with, absorbed, run_state.
  pose proof (under_limit_simulation cfg E L l fuel p (init inp (Some L) detail) 0 eq_refl HX) as S.
  pose proof (exec_cl cfg E fuel p (init inp (Some L) detail)) as C.
  change (recl (init inp (Some L) detail) 0 l) with (init inp l detail) in S.
  destruct (exec cfg E fuel p (init inp (Some L) detail)) as [sA|sA|k|] eqn:EA; cbn [simpost res_cl] in S, C.
  - destruct C as [CL _]. cbn in CL.
    destruct (limit_reached sA) eqn:R.
    + split; [intros [_ H]; discriminate|].
      cbn [outcome_of]. rewrite R. destruct (fixedlim cfg); cbn [andb]; eauto 7.
    + destruct S as [S|[c' [-> S]]]; [congruence|].
      pose proof (lax_unreached L sA c' l CL S R) as R'.
      assert (Q : outcome_of cfg (ROk (recl sA c' l)) = outcome_of cfg (ROk sA)).
      { apply (outcome_recl_unreached cfg (ROk sA) c' l). auto. }
      rewrite Q. split; auto.
  - destruct C as [CL _]. cbn in CL.
    destruct (limit_reached sA) eqn:R.
    + split; [cbn [outcome_of]; rewrite R; intros [[] _]|].
      cbn [outcome_of]. rewrite R. eauto 7.
    + destruct S as [S|[c' [-> S]]]; [congruence|].
      pose proof (lax_unreached L sA c' l CL S R) as R'.
      assert (Q : outcome_of cfg (RErr (recl sA c' l)) = outcome_of cfg (RErr sA)).
      { apply (outcome_recl_unreached cfg (RErr sA) c' l). auto. }
      rewrite Q. split; auto.
  - split; [intros [[] _]|]. cbn. auto.
  - split; [intros [[] _]|]. cbn. auto 6.
Qed.
End Top.

Section Top2.
Variable cfg : config.
Variable E : env.

Lemma parse_with_mono f f' p inp lim detail :
  f <= f' -> parse_with cfg E f p inp lim detail <> OOutOfFuel ->
  parse_with cfg E f' p inp lim detail = parse_with cfg E f p inp lim detail.
Proof.
  unfold parse_with, run_state. intros Hle H. rewrite (exec_mono cfg E f f'); auto.
  intros C. apply H. rewrite C. reflexivity.
Qed.

Lemma parse_with_fuel_irrelevant f1 f2 p inp lim detail :
  parse_with cfg E f1 p inp lim detail <> OOutOfFuel -> parse_with cfg E f2 p inp lim detail <> OOutOfFuel ->
  parse_with cfg E f1 p inp lim detail = parse_with cfg E f2 p inp lim detail.
Proof.
  intros H1 H2. destruct (Nat.le_ge_cases f1 f2) as [Hle|Hle].
  - symmetry. now apply parse_with_mono.
  - now apply parse_with_mono.
Qed.

Lemma absorbed_mono f f' p inp L detail :
  f <= f' -> parse_with cfg E f p inp (Some L) detail <> OOutOfFuel ->
  absorbed cfg E f' p inp L detail = absorbed cfg E f p inp L detail.
Proof.
  unfold parse_with, absorbed, run_state. intros Hle H. rewrite (exec_mono cfg E f f'); auto.
  intros C. apply H. rewrite C. reflexivity.
Qed.

(* Clause 1, for the code as it is and as repaired: the only way a limit changes a result
   without the error is an absorbed refusal reaching the Ok arm of an unrepaired state(). *)
Theorem limit_result_general p inp detail L f1 f2 :
  let a := parse_with cfg E f1 p inp (Some L) detail in
  let b := parse_with cfg E f2 p inp None detail in
  a <> OOutOfFuel -> b <> OOutOfFuel ->
  a = b \/ (exists ap, a = OCallLimit ap) \/ a = OPanic
  \/ (fixedlim cfg = false /\ absorbed cfg E f1 p inp L detail = true).
Proof.
  intros a b Ha Hb. subst a b.
  set (f := Nat.max f1 f2).
  assert (Ea : parse_with cfg E f p inp (Some L) detail = parse_with cfg E f1 p inp (Some L) detail)
    by (apply parse_with_mono; [lia|exact Ha]).
  assert (Eb : parse_with cfg E f p inp None detail = parse_with cfg E f2 p inp None detail)
    by (apply parse_with_mono; [lia|exact Hb]).
  assert (Ab : absorbed cfg E f p inp L detail = absorbed cfg E f1 p inp L detail)
    by (apply absorbed_mono; [lia|exact Ha]).
  destruct (parse_sim cfg E f p inp L None detail I) as [_ D].
  rewrite Ea, Eb, Ab in D.
  destruct D as [D|[D|[D|[D|D]]]]; auto. contradiction.
Qed.

(* Clause 2: completion under L is completion under every laxer limit (and under no limit). *)
Theorem completion_stable_general p inp detail L l f1 f2 :
  lax L 0 0 l ->
  let a := parse_with cfg E f1 p inp (Some L) detail in
  let b := parse_with cfg E f2 p inp l detail in
  completes a -> absorbed cfg E f1 p inp L detail = false ->
  (f1 <= f2 \/ b <> OOutOfFuel) -> b = a.
Proof.
  intros HX a b Hc Hab Hf. subst a b.
  destruct (parse_sim cfg E f1 p inp L l detail HX) as [S _].
  specialize (S (conj Hc Hab)).
  assert (N : parse_with cfg E f1 p inp l detail <> OOutOfFuel).
  { rewrite S. intros C. rewrite C in Hc. exact Hc. }
  rewrite <- S. destruct Hf as [Hf|Hf].
  - now apply parse_with_mono.
  - now apply parse_with_fuel_irrelevant.
Qed.

Lemma completes_not_absorbed f p inp L detail :
  fixedlim cfg = true -> completes (parse_with cfg E f p inp (Some L) detail) -> absorbed cfg E f p inp L detail = false.
Proof.
  unfold parse_with, absorbed. intros F. destruct (run_state cfg E f p inp (Some L) detail) as [s|s| |]; auto.
  cbn. rewrite F. destruct (limit_reached s); cbn; [intros []|auto].
Qed.
End Top2.

(* a panic of a parse is never an internal one (Vec index, splice, underflow, unreachable!):
   only stack_pop/stack_peek on an empty stack, an undefined closure, or a bad slice position *)
Lemma parse_no_internal_panic cfg E f p inp lim detail k :
  run_state cfg E f p inp lim detail = RPanic k -> k <> PkInternal.
Proof.
  unfold run_state. intros H.
  pose proof (exec_post cfg E f p (init inp lim detail) (@sempty (list byte))) as P.
  rewrite H in P. apply P.
  - unfold wf. cbn. lia.
  - apply inv_empty.
Qed.
