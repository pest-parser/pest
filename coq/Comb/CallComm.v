(* Layer C proofs (C12): the state functions of the model never read `calls`/`limit`
   except through `inc_call` and `limit_reached`.  This is expressed as commutation with `recl`
   (replace the two call-limit fields): f (recl s c l) = recl (f s) c l.                      *)
From Coq Require Import List Arith NArith ZArith Bool Lia.
Import ListNotations.
Require Import PV.Stack.Model PV.Comb.PState PV.Comb.Bytes PV.Comb.Prog PV.Comb.Exec PV.Comb.ExecInd PV.Comb.Detail.

Arguments Nat.sub : simpl never.
Arguments Nat.ltb : simpl never.
Arguments Nat.leb : simpl never.
Arguments Nat.eqb : simpl never.
Arguments skipn : simpl never.
Arguments firstn : simpl never.

Definition recl (s : pst) (c : nat) (l : option nat) : pst := set_calls (set_limit s l) c.

Lemma recl_id s : recl s (calls s) (limit s) = s.
Proof. destruct s; reflexivity. Qed.
Lemma recl_recl s c l c' l' : recl (recl s c l) c' l' = recl s c' l'.
Proof. reflexivity. Qed.
Lemma calls_recl s c l : calls (recl s c l) = c. Proof. reflexivity. Qed.
Lemma limit_recl s c l : limit (recl s c l) = l. Proof. reflexivity. Qed.

(* a state function / continuation that never looks at calls/limit *)
Definition scomm (f : pst -> pst) : Prop := forall s c l, f (recl s c l) = recl (f s) c l.
Definition ocomm (g : pst -> option pst) : Prop :=
  forall s c l, g (recl s c l) = option_map (fun x => recl x c l) (g s).
Definition kcomm (k : pst -> res) : Prop := forall s c l, k (recl s c l) = map_res (fun x => recl x c l) (k s).

Lemma scomm_keeps f : scomm f -> forall s, calls (f s) = calls s /\ limit (f s) = limit s.
Proof.
  intros H s. specialize (H s (calls s) (limit s)). rewrite recl_id in H.
  rewrite H. split; reflexivity.
Qed.

Lemma kcomm_keeps k : kcomm k -> forall s s', (k s = ROk s' \/ k s = RErr s') -> calls s' = calls s /\ limit s' = limit s.
Proof.
  intros H s s' K. specialize (H s (calls s) (limit s)). rewrite recl_id in H.
  destruct K as [K|K]; rewrite K in H; cbn in H; injection H as H; rewrite H; split; reflexivity.
Qed.

(* comm_tac names the sixteen fields, so that both sides compute, and then destructs every `match`/`if`
   scrutinee in the goal, innermost conditions first *)
Ltac split_matches :=
  repeat (match goal with
          | |- context [match ?x with _ => _ end] =>
              match x with
              | context [match _ with _ => _ end] => fail 1
              | _ => destruct x eqn:?
              end
          end; cbn).

Ltac comm_tac :=
  intros [inp po qu la pa na ap at_ st ca li en cs ex un mp] c l; cbn; split_matches; try reflexivity; try congruence.

Lemma push_token_comm t neg : scomm (fun s => push_token s t neg).
Proof. unfold push_token. comm_tac. Qed.

Lemma try_add_new_token_comm t sp p neg : scomm (fun s => try_add_new_token s t sp p neg).
Proof. unfold try_add_new_token, push_token. comm_tac. Qed.

Lemma handle_token_comm sp t ok : scomm (fun s => handle_token_parse_result s sp t ok).
Proof. unfold handle_token_parse_result, nullify_expected_tokens, try_add_new_token, push_token. comm_tac. Qed.

Lemma track_comm r p pai nai prev : scomm (fun s => track s r p pai nai prev).
Proof. unfold track, attempts_at. comm_tac. Qed.

Lemma apply_pres_comm r t : kcomm (fun s => apply_pres s r t).
Proof.
  unfold apply_pres, handle_token_parse_result, nullify_expected_tokens, try_add_new_token, push_token.
  comm_tac.
Qed.

Lemma tag_node_comm t : kcomm (fun s => tag_node s t).
Proof. unfold tag_node. comm_tac. Qed.

Lemma exec_prim_comm cfg o : kcomm (exec_prim cfg o).
Proof.
  intros s c l. rewrite !exec_prim_act.
  change (prim_act cfg o (input (recl s c l)) (pos (recl s c l)) (stack (recl s c l)))
    with (prim_act cfg o (input s) (pos s) (stack s)).
  destruct (prim_act cfg o (input s) (pos s) (stack s)) as [k|st r t|t]; cbn [run_act].
  - reflexivity.
  - exact (apply_pres_comm r t (set_stack s st) c l).
  - apply tag_node_comm.
Qed.

Lemma k_checkpoint_ok : kcomm (fun s' => lift ROk (checkpoint_ok s')).
Proof. unfold lift, checkpoint_ok, option_map. comm_tac. Qed.

Lemma k_restore_err : kcomm (fun s' => lift RErr (restore_st s')).
Proof. unfold lift, restore_st, option_map. comm_tac. Qed.

Lemma k_seq_err ip ti :
  kcomm (fun s' => lift RErr (restore_st (set_queue (set_pos s' ip) (vtruncate ti (queue s'))))).
Proof. unfold lift, restore_st, option_map. comm_tac. Qed.

Lemma k_look (b : bool) ip il :
  kcomm (fun s' => lift (fun x => if b then ROk x else RErr x) (restore_st (set_lookahead (set_pos s' ip) il))).
Proof. unfold lift, restore_st, option_map. comm_tac. Qed.

Lemma k_atomic_ok (toggle : bool) initial :
  kcomm (fun s' => ROk (if toggle then set_atomicity s' initial else s')).
Proof. comm_tac. Qed.
Lemma k_atomic_err (toggle : bool) initial :
  kcomm (fun s' => RErr (if toggle then set_atomicity s' initial else s')).
Proof. comm_tac. Qed.

Lemma k_push start :
  kcomm (fun s' => if Nat.ltb (pos s') start then RPanic PkInternal
                   else ROk (set_stack s' (push (stack s') (firstn (pos s' - start) (skipn start (input s')))))).
Proof. comm_tac. Qed.

Lemma k_ok : kcomm ROk. Proof. intros s c l. reflexivity. Qed.
Lemma k_err : kcomm RErr. Proof. intros s c l. reflexivity. Qed.

Lemma try_add_new_stack_rule_comm rule k : ocomm (fun s => try_add_new_stack_rule s rule k).
Proof. unfold try_add_new_stack_rule. comm_tac. Qed.

Lemma try_add_rule_to_stack_comm rule a b : ocomm (fun s => try_add_rule_to_stack s rule a b).
Proof. unfold try_add_rule_to_stack, try_add_new_stack_rule. comm_tac. Qed.

Lemma recl_if (b : bool) x y c l : (if b then recl x c l else recl y c l) = recl (if b then x else y) c l.
Proof. destruct b; reflexivity. Qed.

(* the last stage of rule_ok and the middle stage of rule_err *)
Lemma add_rule_comm rule a b : ocomm (fun s => if pa_enabled s then try_add_rule_to_stack s rule a b else Some s).
Proof.
  intros s c l. change (pa_enabled (recl s c l)) with (pa_enabled s).
  destruct (pa_enabled s); [apply try_add_rule_to_stack_comm|reflexivity].
Qed.

Lemma k_rule_ok rule fr : kcomm (rule_ok rule fr).
Proof.
  intros s c l. unfold rule_ok. change (lookahead (recl s c l)) with (lookahead s).
  rewrite track_comm, recl_if.
  set (s1 := if lk_eqb (lookahead s) LNeg then _ else s).
  change (emits (recl s1 c l)) with (emits s1). change (queue (recl s1 c l)) with (queue s1).
  assert (K : forall s2, (if pa_enabled (recl s2 c l) then lift ROk (try_add_rule_to_stack (recl s2 c l) rule (rf_csn fr) (rf_max fr))
                          else ROk (recl s2 c l))
                         = map_res (fun x => recl x c l) (if pa_enabled s2 then lift ROk (try_add_rule_to_stack s2 rule (rf_csn fr) (rf_max fr)) else ROk s2)).
  { intros s2. pose proof (add_rule_comm rule (rf_csn fr) (rf_max fr) s2 c l) as A. cbv beta in A.
    change (pa_enabled (recl s2 c l)) with (pa_enabled s2) in *.
    destruct (pa_enabled s2); [|reflexivity]. rewrite A. destruct (try_add_rule_to_stack s2 _ _ _); reflexivity. }
  destruct (emits s1); [|apply K].
  destruct (set_start_end _ _ _) as [q|]; [|reflexivity].
  exact (K (set_queue s1 (QEnd (rf_index fr) rule None (pos s1) :: q))).
Qed.

Lemma k_rule_err rule fr : kcomm (rule_err rule fr).
Proof.
  intros s c l. unfold rule_err. change (lookahead (recl s c l)) with (lookahead s).
  assert (K : forall o : option pst,
            match option_map (fun x => recl x c l) o with
            | None => RPanic PkInternal
            | Some s2 => RErr (if emits s2 then set_queue s2 (vtruncate (rf_index fr) (queue s2)) else s2)
            end = map_res (fun x => recl x c l)
                    match o with
                    | None => RPanic PkInternal
                    | Some s2 => RErr (if emits s2 then set_queue s2 (vtruncate (rf_index fr) (queue s2)) else s2)
                    end).
  { intros [s2|]; [|reflexivity]. cbn [option_map map_res]. change (emits (recl s2 c l)) with (emits s2).
    destruct (emits s2); reflexivity. }
  destruct (negb (lk_eqb (lookahead s) LNeg)); [|apply (K (Some s))].
  cbv zeta. rewrite track_comm, (add_rule_comm rule (rf_csn fr) (rf_max fr)). apply K.
Qed.

Lemma rule_enter_comm s c l :
  rule_enter (recl s c l) = (fst (rule_enter s), recl (snd (rule_enter s)) c l).
Proof. revert s c l. unfold rule_enter, attempts_at, emits. comm_tac. Qed.

Lemma bracket_comm p b : bracket_of p = Some b ->
  scomm (b_enter b) /\
  (forall s c l, b_ok b (recl s c l) = b_ok b s /\ b_err b (recl s c l) = b_err b s) /\
  (forall s, kcomm (b_ok b s) /\ kcomm (b_err b s)).
Proof.
  destruct p; try discriminate; intros [= <-]; cbn [b_enter b_ok b_err].
  - split; [intros s c l; now rewrite rule_enter_comm|]. split; [intros s c l; now rewrite rule_enter_comm|].
    split; [apply k_rule_ok|apply k_rule_err].
  - repeat split; [apply k_checkpoint_ok|apply k_seq_err].
  - repeat split.
  - repeat split.
  - repeat split; [apply k_look|destruct positive; [apply (k_look false)|apply (k_look true)]].
  - split; [intros s c l; exact (recl_if _ (set_atomicity s a) s c l)|]. repeat split; [apply k_atomic_ok|apply k_atomic_err].
  - repeat split. apply k_push.
  - repeat split; [apply k_checkpoint_ok|apply k_restore_err].
Qed.
