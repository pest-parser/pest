(* C04, parser half, part 2: every successful run of the parser-state model leaves a well-formed token
   queue (`exec_preserves_wfq*`).

   exec_delta   (induction on fuel, generalised over the start state): whatever the queue of the start state
                is, a run - successful or failed - leaves it (up to node tags) and appends the tokens of a
                closed forest at absolute index |queue|, whose spans are nested inside [pos before, pos after]
                and whose positions all satisfy the boundary predicate.  The rules in progress ("open" Start
                tokens) are simply part of the old queue: the rule case pushes its Start, gets the delta of
                its body on top of it, and closes it into one more tree (D_rule); a failing rule or
                sequence truncates back to the old queue (empty delta).
   The boundary predicate enters as a hypothesis schema (state invariant U preserved by every run of
   programs satisfying V, U s -> bnd (input s) (pos s) = true); it is instantiated trivially at the end
   (exec_preserves_wfq) and with the UTF-8 theory of Utf8c.v in Wfq2.v (exec_preserves_wfq_utf8).   *)
From Coq Require Import List Arith NArith ZArith Bool Lia.
Import ListNotations.
Require Import PV.Iter.Queue PV.Iter.QueueFacts.
Require Import PV.Stack.Model PV.Stack.Proofs PV.Comb.PState PV.Comb.Bytes PV.Comb.Prog PV.Comb.Exec PV.Comb.ExecInd PV.Comb.Frame PV.Comb.Detail PV.Comb.DetailProofs PV.Comb.Contracts.
Require Import PV.Comb.Standing PV.Comb.Wfq1.

(* the programs `exec` runs when it runs p *)
Definition children (p : prog) : list prog :=
  match p with
  | PPrim _ | PCall _ => []
  | PRule _ q | PSequence q | PRepeatLoop q | POptional q | PLookahead _ q | PAtomic _ q
  | PStackPush q | PRestoreOnErr q => [q]
  | PRepeat q => [PRepeatLoop q]
  | PAndThen q1 q2 | POrElse q1 q2 | PIfNonAtomic q1 q2 => [q1; q2]
  end.

Section WfqMain.
Variable cfg : config.
Variable E : env.
Variable bnd : list byte -> nat -> bool.
Variable U : pst -> Prop.
Variable V : prog -> Prop.
Hypothesis HUsame : forall s s', input s' = input s -> pos s' = pos s -> cache (stack s') = cache (stack s) -> U s -> U s'.
Hypothesis HUpos : forall s, U s -> bnd (input s) (pos s) = true.
Hypothesis HVsub : forall p q, V p -> In q (children p) -> V q.
Hypothesis HVenv : forall f q, V (PCall f) -> E f = Some q -> V q.
Hypothesis HU : forall fuel p s a, V p -> wf s -> Inv (stack s) a -> U s ->
  match exec cfg E fuel p s with ROk s' | RErr s' => U s' | _ => True end.

(* the eight bracket combinators, given what the body's run delivers *)
Lemma bracket_delta fuel p b s s1 a :
  bracket_of p = Some b -> guard (b_counted b) s = Some s1 -> V p -> ready U s a ->
  V (b_body b) /\
  forall r, r = exec cfg E fuel (b_body b) (b_enter b s1) ->
  res_all U r -> res_all (D bnd (b_enter b s1)) r -> res_all (D bnd s) (bind r (b_ok b s1) (b_err b s1)).
Proof.
  intros B G Vp R. pose proof R as (W & I & Us). pose proof (fun q => HVsub p q Vp) as Ch.
  destruct (guard_frame _ _ _ G) as (_ & St & Po & Qu & Ein & _).
  assert (R1 : ready U s1 a) by now apply (ready_same U HUsame s).
  assert (G1 : forall x y, D bnd s1 x -> queue y = queue x -> pos y = pos x -> D bnd s y)
    by (intros x y Dx Qy Py; now apply (D_ext bnd s1 s x y)).
  destruct p as [|r p|p|p| |p|positive p|at0 p|p|p| | | |]; try discriminate; injection B as <-;
    cbn [b_counted b_body b_enter b_ok b_err guard children In] in *; (split; [apply Ch; auto|]).
  - (* rule: the body's delta on top of the Start token becomes one more tree *)
    pose proof (rule_shape cfg E fuel r p s s1 a W I G) as RS.
    rewrite (exec_bracket cfg E fuel (PRule r p) _ s eq_refl) in RS. cbn [b_counted b_body b_enter b_ok b_err guard] in RS. rewrite G in RS.
    destruct (rule_enter_spec s1) as (_ & _ & _ & _ & Q & SQ). set (s2 := snd (rule_enter s1)) in *.
    intros rb -> Ub Db. destruct (ready_rule_enter U HUsame _ _ R1) as (W2 & I2 & _).
    pose proof (exec_post cfg E fuel p s2 a W2 I2) as F.
    destruct (exec cfg E fuel p s2) as [sb|sb|k|]; cbn [bind res_all] in *; auto;
      [destruct (rule_ok r _ sb) as [y|y|k|]|destruct (rule_err r _ sb) as [y|y|k|]]; try contradiction; cbn [res_all]; auto;
      destruct F as (Fb & _);
      destruct RS as (Ps & RS); destruct (emits s1) eqn:Em;
      try exact (G1 sb y (D_ext bnd s2 s1 sb sb Q (q_pos _ _ SQ) (q_input _ _ SQ) eq_refl eq_refl Db) RS Ps).
    + destruct RS as (body & Eb1 & Es). apply (G1 y y); auto.
      apply (D_rule bnd s1 s2 sb y r body); auto; [exact (q_pos _ _ SQ)|exact (q_input _ _ SQ)|apply HUpos, R1|].
      rewrite Ps, <- (q_input _ _ SQ), <- (f_input _ _ Fb). now apply HUpos.
    + apply (G1 y y); auto. apply D_nil; [exact RS|]. pose proof (f_pos _ _ Fb). rewrite (q_pos _ _ SQ) in *. lia.
  - (* sequence: a failure puts queue and position back *)
    intros rb -> Ub Db. destruct (ready_checkpoint U HUsame _ _ R1) as (W2 & I2 & _).
    pose proof (exec_post cfg E fuel p (checkpoint s1) (ssnapshot a) W2 I2) as F.
    destruct (exec cfg E fuel p (checkpoint s1)) as [x|x|k|]; cbn [bind res_all] in *; auto.
    + unfold checkpoint_ok. destruct (clear_snapshot (stack x)); [|exact Logic.I]. now apply (G1 x).
    + destruct F as (F & _). unfold restore_st. cbn [stack set_queue set_pos].
      destruct (restore (stack x)); [|exact Logic.I]. apply D_nil; cbn; [|now rewrite Po].
      destruct (f_queue _ _ F) as [new Eq]. rewrite <- Qu. eapply untagq_truncate_back; eauto.
  - intros rb _ _ Db. rewrite bind_ret. revert Db. apply res_all_imp. intros x Dx. now apply (G1 x).
  - intros rb _ _ Db. destruct rb; cbn [bind res_all] in *; auto; now apply (G1 s0).
  - (* look-ahead: nothing is emitted, the position is put back *)
    set (s2 := set_lookahead s1 (enter_lookahead positive (lookahead s1))).
    intros rb -> _ _. destruct (bracket_ready U HUsame (PLookahead positive p) _ eq_refl s1 a R1) as (W2 & I2 & _).
    assert (L2 : lookahead (checkpoint s2) <> LNone) by (cbn; destruct positive, (lookahead s1); cbn; congruence).
    pose proof (exec_quiet_all cfg E fuel p (checkpoint s2) _ W2 I2 L2) as Qx.
    destruct (exec cfg E fuel p (checkpoint s2)) as [x|x|k|]; cbn [bind res_all] in *; auto;
      unfold restore_st; cbn [stack set_lookahead set_pos]; (destruct (restore (stack x)); [|exact Logic.I]);
      destruct positive; cbn; (apply (G1 s1); [apply D_nil; [reflexivity|apply Nat.le_refl]|exact Qx|reflexivity]).
  - intros rb _ _ Db. destruct rb as [x|x|k|]; cbn [bind res_all] in *; auto;
      (eapply G1; [eapply D_ext; [..|exact Db]| |]); destruct (negb _); reflexivity.
  - intros rb _ _ Db. destruct rb as [x|x|k|]; cbn [bind res_all] in *; auto; [|now apply (G1 x)].
    destruct (Nat.ltb (pos x) (pos s1)); [exact Logic.I|]. now apply (G1 x).
  - intros rb _ _ Db. destruct rb as [x|x|k|]; cbn [bind res_all] in *; auto.
    + unfold checkpoint_ok. destruct (clear_snapshot (stack x)); [|exact Logic.I]. now apply (G1 x).
    + unfold restore_st. destruct (restore (stack x)); [|exact Logic.I]. now apply (G1 x).
Qed.

Theorem exec_delta : forall fuel p s a, V p -> ready U s a -> res_all (D bnd s) (exec cfg E fuel p s).
Proof.
  induction fuel as [|fuel IH]; intros p s a Vp R; [exact Logic.I|].
  assert (STEP : forall q s0 a0, V q -> ready U s0 a0 -> let r := exec cfg E fuel q s0 in
            res_all (D bnd s0) r /\ res_all U r /\ post s0 a0 r).
  { intros q s0 a0 Vq R0. split; [now apply (IH q s0 a0)|]. destruct R0 as (W0 & I0 & U0).
    split; [exact (HU fuel q s0 a0 Vq W0 I0 U0)|now apply exec_post]. }
  (* after a sub-run: go on from its final state and compose the deltas, or stop with k *)
  assert (NEXT : forall q r a0 (k : pst -> res), (forall y, D bnd s y -> res_all (D bnd s) (k y)) -> V q ->
            res_all (D bnd s) r -> res_all U r -> post s a0 r ->
            res_all (D bnd s) (bind r (exec cfg E fuel q) k) /\ res_all (D bnd s) (bind r k (exec cfg E fuel q))).
  { intros q [x|x|k0|] a0 k K Vq Dx Ux F; cbn [bind res_all post] in *; auto; destruct F as (F & Wx & a1 & I1 & _);
      (split; [|auto]; try (now apply K));
      (generalize (IH q x a1 Vq (conj Wx (conj I1 Ux))); apply res_all_imp; intros y Dy;
       exact (D_trans bnd s x y Dx Dy (f_input _ _ F))). }
  pose proof (fun q => HVsub p q Vp) as Ch. pose proof R as (W & I & Us).
  assert (Ds : D bnd s s) by (apply D_nil; [reflexivity|apply Nat.le_refl]).
  destruct (exec_step cfg E fuel p s) as [o|p q|p q|p|p q|f q Ef|f Ef|p b B G|p b s1 B G]; cbn [children In] in Ch.
  - pose proof (exec_prim_ueq cfg o s) as Q. pose proof (exec_prim_post cfg o s a W I) as P.
    destruct (exec_prim cfg o s); cbn [res_all] in *; auto; destruct P as (F & _); (apply D_nil; [exact Q|exact (f_pos _ _ F)]).
  - destruct (STEP p s a (Ch p (or_introl eq_refl)) R) as (Dx & Ux & F).
    now apply (NEXT q _ a RErr (fun y H => H) (Ch q (or_intror (or_introl eq_refl)))).
  - destruct (STEP p s a (Ch p (or_introl eq_refl)) R) as (Dx & Ux & F).
    now apply (NEXT q _ a ROk (fun y H => H) (Ch q (or_intror (or_introl eq_refl)))).
  - destruct (STEP p s a (Ch p (or_introl eq_refl)) R) as (Dx & Ux & F).
    now apply (NEXT (PRepeatLoop p) _ a ROk (fun y H => H) Vp).
  - destruct (atom_eqb (atomicity s) NonAtomic); apply (IH _ s a); auto.
  - apply (IH q s a); [exact (HVenv _ _ Vp Ef)|exact R].
  - exact Logic.I.
  - exact Ds.
  - destruct (bracket_delta fuel p b s s1 a B G Vp R) as (Vb & X).
    assert (R1 : ready U s1 a).
    { destruct (guard_frame _ _ _ G) as (_ & St & Po & _ & Ein & _). now apply (ready_same U HUsame s). }
    destruct (STEP _ _ _ Vb (bracket_ready U HUsame p b B s1 a R1)) as (Dx & Ux & _). now apply X.
Qed.

(* a run from the initial state: nothing is open, the whole queue is the delta *)
Theorem exec_wfq_gen fuel p inp lim detail s :
  V p -> U (init inp lim detail) ->
  exec cfg E fuel p (init inp lim detail) = ROk s ->
  wfq (bnd inp) (length inp) (stream (queue s)).
Proof.
  intros Vp U0 H.
  assert (W0 : wf (init inp lim detail)) by (unfold wf; cbn; lia).
  assert (I0 : Inv (stack (init inp lim detail)) (@sempty (list byte))) by apply inv_empty.
  pose proof (exec_delta fuel p _ _ Vp (conj W0 (conj I0 U0))) as Dl. rewrite H in Dl.
  pose proof (exec_post cfg E fuel p _ _ W0 I0) as P. rewrite H in P. cbn in P. destruct P as (F & Ws & _).
  assert (Dl' : exists f, map iuntag (stream (queue s)) = tokens_at 0 f /\ fnested 0 f (pos s) /\
                          Forall (fun x => bnd inp x = true) (fposl f)).
  { destruct Dl as (f & A & B & C). exists f. exact (conj A (conj B C)). }
  destruct Dl' as (f & A & B & C).
  destruct (retag f 0 (stream (queue s)) A) as [f' Ef].
  assert (Pos : map qpos (stream (queue s)) = fposl f).
  { rewrite <- map_qpos_ustream. unfold ustream. rewrite A. apply map_qpos_tokens_at. }
  split; [exists f'; exact Ef|]. rewrite Pos. split.
  - apply (proj2 (chain_fnested f 0 (pos s))) in B. apply chain_app in B. tauto.
  - apply fnested_bounds in B. rewrite Forall_forall in *. intros x Hx. split; [apply C; exact Hx|].
    specialize (B x Hx). unfold wf in Ws. rewrite (f_input _ _ F) in Ws. cbn in Ws. lia.
Qed.

End WfqMain.

(* no assumption at all: positions bounded by the input length *)
Theorem exec_preserves_wfq cfg E fuel p inp lim detail s :
  exec cfg E fuel p (init inp lim detail) = ROk s ->
  (exists f, stream (queue s) = tokens_of f) /\
  chain 0 (map qpos (stream (queue s))) /\
  Forall (fun x => x <= length inp) (map qpos (stream (queue s))).
Proof.
  intros H.
  assert (G : wfq (fun _ => true) (length inp) (stream (queue s))).
  { apply (exec_wfq_gen cfg E (fun _ _ => true) (fun _ => True) (fun _ => True)) with (fuel := fuel) (p := p) (lim := lim) (detail := detail);
      auto.
    intros fl q s0 a _ _ _ _. destruct (exec cfg E fl q s0); exact Logic.I. }
  destruct G as (A & B & C). split; [exact A|split; [exact B|]].
  eapply Forall_impl; [|exact C]. intros x [_ Hx]. exact Hx.
Qed.

(* the hypothesis schema as a closed statement *)
Theorem exec_preserves_wfq_from_boundary
  cfg E (bnd : list byte -> nat -> bool) (U : pst -> Prop) (V : prog -> Prop) :
  (forall s s', input s' = input s -> pos s' = pos s -> cache (stack s') = cache (stack s) -> U s -> U s') ->
  (forall s, U s -> bnd (input s) (pos s) = true) ->
  (forall p q, V p -> In q (children p) -> V q) ->
  (forall f q, V (PCall f) -> E f = Some q -> V q) ->
  (forall fuel p s a, V p -> wf s -> Inv (stack s) a -> U s ->
     match exec cfg E fuel p s with ROk s' | RErr s' => U s' | _ => True end) ->
  forall fuel p inp lim detail s,
    V p -> U (init inp lim detail) ->
    exec cfg E fuel p (init inp lim detail) = ROk s ->
    wfq (bnd inp) (length inp) (stream (queue s)).
Proof. intros H1 H2 H3 H4 H5 fuel p inp lim detail s. apply exec_wfq_gen; assumption. Qed.
