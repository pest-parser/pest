(* Layer C proofs: the boundary invariant of `exec`.  On valid UTF-8 input, from a char boundary,
   with a stack of valid strings and a program whose string constants are valid UTF-8 (they are &str in
   Rust), every reachable state is again of that kind and no slice is ever taken off a char boundary;
   the memchr version of skip_until (with the repaired three-needle arm) is then indistinguishable from
   the plain loop. *)
From Coq Require Import List Arith NArith ZArith Bool Lia.
Import ListNotations.
Require Import PV.Stack.Model PV.Stack.Proofs PV.Comb.PState PV.Comb.Bytes PV.Comb.Prog PV.Comb.Exec PV.Comb.ExecInd PV.Comb.Detail PV.Comb.Frame PV.Comb.Contracts.
Require Import PV.Comb.Utf8 PV.Comb.Utf8b PV.Comb.Standing.

Definition utf8_ok (s : pst) : Prop :=
  valid_utf8 (input s) /\ boundaryb (input s) (pos s) = true /\ Forall valid_utf8 (cache (stack s)).

Definition prim_valid (o : prim) : Prop :=
  match o with
  | MMatchString s | MMatchInsens s | MStackPushLit s => valid_utf8 s
  | MSkipUntil ss => Forall valid_utf8 ss
  | _ => True
  end.

Fixpoint prog_valid (p : prog) : Prop :=
  match p with
  | PPrim o => prim_valid o
  | PRule _ p | PSequence p | PRepeat p | PRepeatLoop p | POptional p | PLookahead _ p | PAtomic _ p
  | PStackPush p | PRestoreOnErr p => prog_valid p
  | PAndThen p q | POrElse p q | PIfNonAtomic p q => prog_valid p /\ prog_valid q
  | PCall _ => True
  end.

Definition env_valid (E : env) : Prop := forall f q, E f = Some q -> prog_valid q.

Lemma prog_valid_children p q : prog_valid p -> In q (children p) -> prog_valid q.
Proof. destruct p; cbn; intros Vp Hin; intuition (subst; auto). Qed.

(* the configurations covered: without the memchr feature, or with it and the repaired arm *)
Definition cfg_ok (cfg : config) : Prop := memchr cfg = true -> fixed3 cfg = true.

Definition upost (r : res) : Prop :=
  match r with
  | ROk s' | RErr s' => utf8_ok s'
  | RPanic k => k <> PkBoundary
  | ROutOfFuel => True
  end.

Lemma utf8_ok_same s s' :
  input s' = input s -> pos s' = pos s -> cache (stack s') = cache (stack s) -> utf8_ok s -> utf8_ok s'.
Proof. intros E1 E2 E3 (V & B & F). unfold utf8_ok. rewrite E1, E2, E3. auto. Qed.

Lemma utf8_ok_set_pos s p : utf8_ok s -> boundaryb (input s) p = true -> utf8_ok (set_pos s p).
Proof. intros (V & B & F) Bp. split; [exact V|]. split; [exact Bp|exact F]. Qed.

Lemma utf8_ok_set_stack s st : utf8_ok s -> Forall valid_utf8 (cache st) -> utf8_ok (set_stack s st).
Proof. intros (V & B & F) Fs. split; [exact V|]. split; [exact B|exact Fs]. Qed.

Definition pres_ok (inp : list byte) (r : pres) : Prop :=
  match r with PMoved p => boundaryb inp p = true | PStay => True | PPanic => False end.

Lemma apply_pres_upost s r t : utf8_ok s -> pres_ok (input s) r -> upost (apply_pres s r t).
Proof.
  intros U R. unfold apply_pres. destruct r as [p| |]; cbn [pres_ok] in R; [| |contradiction].
  - pose proof (utf8_ok_set_pos s p U R) as U1. cbn [upost].
    destruct t as [tk|]; [|exact U1]. destruct (pa_enabled s); [|exact U1].
    destruct (handle_token_core (set_pos s p) (pos s) tk true) as [[] _].
    eapply utf8_ok_same; [| | |exact U1]; congruence.
  - cbn [upost]. destruct t as [tk|]; [|exact U]. destruct (pa_enabled s); [|exact U].
    destruct (handle_token_core s (pos s) tk false) as [[] _].
    eapply utf8_ok_same; [| | |exact U]; congruence.
Qed.

Lemma st_match_string_upost s str : utf8_ok s -> valid_utf8 str -> upost (st_match_string s str).
Proof.
  intros U Vs. unfold st_match_string. apply apply_pres_upost; [exact U|].
  destruct U as (V & B & _). pose proof (match_string_contract (input s) (pos s) str V B Vs) as C.
  destruct (match_string (input s) (pos s) str); cbn [pres_ok]; tauto.
Qed.

Lemma char_contract_ok inp p ok r : char_contract inp p ok r -> pres_ok inp r.
Proof. destruct r; cbn; auto. intros (c & _ & _ & _ & _ & _ & B). exact B. Qed.

Lemma match_all_boundary inp l : valid_utf8 inp -> Forall valid_utf8 l -> forall p p',
  boundaryb inp p = true -> match_all inp p l = Some p' -> boundaryb inp p' = true.
Proof.
  intros V F. induction F as [|x l Vx F IH]; intros p p' B; cbn [match_all].
  - intros [= <-]. exact B.
  - destruct (match_string inp p x) as [q| |] eqn:M; try discriminate.
    apply IH. eapply match_string_boundary; eauto.
Qed.

Lemma pop_cache {T} (st : stk T) : cache (fst (pop st)) = tl (cache st) /\ snd (pop st) = hd_error (cache st).
Proof.
  unfold pop. destruct (cache st) as [|x c] eqn:Ec; [cbn; rewrite Ec; auto|].
  destruct (lengths st) as [|[l r] ls]; [cbn; auto|]. destruct (Nat.eqb _ _); cbn; auto.
Qed.

Lemma match_pop_loop_boundary inp fuel : valid_utf8 inp -> forall st p st' p' b,
  boundaryb inp p = true -> Forall valid_utf8 (cache st) -> match_pop_loop fuel inp st p = Some (st', p', b) ->
  boundaryb inp p' = true /\ Forall valid_utf8 (cache st').
Proof.
  intros V. induction fuel as [|f IH]; intros st p st' p' b B F; cbn [match_pop_loop].
  - intros [= <- <- <-]. auto.
  - destruct (pop_cache st) as [C1 C2]. destruct (pop st) as [st1 o]. cbn [fst snd] in C1, C2.
    assert (F1 : Forall valid_utf8 (cache st1)).
    { rewrite C1. destruct (cache st); [constructor|]. now inversion F. }
    destruct o as [x|]; [|intros [= <- <- <-]; auto].
    assert (Vx : valid_utf8 x).
    { destruct (cache st); [discriminate|]. cbn in C2. inversion C2; subst. now inversion F. }
    destruct (match_string inp p x) as [q| |] eqn:M; try (intros [= <- <- <-]; auto).
    apply IH; [eapply match_string_boundary; eauto|exact F1].
Qed.

Lemma Forall_vslice {A} (P : A -> Prop) a b l : Forall P l -> Forall P (vslice a b l).
Proof. intros F. unfold vslice. apply Forall_firstn', Forall_skipn'. now apply Forall_rev. Qed.

Lemma peek_slice_upost s i j d : utf8_ok s -> upost (peek_slice s i j d).
Proof.
  intros U. unfold peek_slice. destruct (constrain_idxs _ _ _) as [[x y]|]; [|exact U].
  destruct (Nat.leb y x); [exact U|].
  destruct (match_all _ _ _) as [p|] eqn:M; [|exact U].
  cbn [upost]. apply utf8_ok_set_pos; [exact U|]. destruct U as (V & B & F).
  eapply match_all_boundary; [exact V| |exact B|exact M].
  destruct d; [|apply Forall_rev]; now apply Forall_vslice.
Qed.

Lemma exec_prim_upost cfg o s : cfg_ok cfg -> prim_valid o -> utf8_ok s -> upost (exec_prim cfg o s).
Proof.
  intros Hc Vo U. pose proof U as (V & B & F). destruct o; cbn [exec_prim prim_valid] in *.
  - exact U.
  - exact U.
  - now apply st_match_string_upost.
  - apply apply_pres_upost; [exact U|]. pose proof (match_insensitive_contract (input s) (pos s) s0 B) as C.
    destruct (match_insensitive _ _ _); cbn [pres_ok]; tauto.
  - apply apply_pres_upost; [exact U|]. eapply char_contract_ok. now apply match_range_contract.
  - apply apply_pres_upost; [exact U|]. eapply char_contract_ok. now apply match_char_by_contract.
  - apply apply_pres_upost; [exact U|]. pose proof (skip_contract (input s) (pos s) n V B) as C.
    destruct (skip _ _ _); cbn [pres_ok]; tauto.
  - rewrite (skip_until_eq_basic cfg _ _ _ Hc B Vo). cbn [upost]. apply utf8_ok_set_pos; [exact U|].
    apply skip_until_basic_boundary. now apply boundaryb_le.
  - destruct (Nat.eqb _ _); exact U.
  - destruct (Nat.eqb _ _); exact U.
  - cbn [upost]. apply utf8_ok_set_stack; [exact U|]. cbn. constructor; auto.
  - unfold peek. destruct (cache (stack s)) as [|x c] eqn:Ec; cbn [hd_error]; [cbn; discriminate|].
    apply st_match_string_upost; [exact U|]. now inversion F.
  - destruct (pop_cache (stack s)) as [C1 C2]. destruct (pop (stack s)) as [st1 o]. cbn [fst snd] in C1, C2.
    destruct o as [x|]; [|cbn; discriminate].
    destruct (cache (stack s)) as [|y c]; [discriminate|]. cbn in C1, C2. injection C2 as ->.
    apply st_match_string_upost; [|now inversion F]. apply utf8_ok_set_stack; [exact U|]. rewrite C1. now inversion F.
  - destruct (pop_cache (stack s)) as [C1 C2]. destruct (pop (stack s)) as [st1 o]. cbn [fst snd] in C1, C2.
    destruct o as [x|]; [|exact U]. cbn [upost]. apply utf8_ok_set_stack; [exact U|]. rewrite C1.
    destruct (cache (stack s)); [constructor|now inversion F].
  - now apply peek_slice_upost.
  - destruct (match_pop_loop _ _ _ _) as [[[st' p] b]|] eqn:M; [|cbn; discriminate].
    destruct (match_pop_loop_boundary _ _ V _ _ _ _ _ B F M) as [B' F'].
    destruct b; cbn [upost].
    + apply utf8_ok_set_pos; [|exact B']. now apply utf8_ok_set_stack.
    + now apply utf8_ok_set_stack.
  - now apply peek_slice_upost.
  - destruct (negb _); [exact U|]. destruct (queue s) as [|[e p|si r tg p] q]; try exact U.
Qed.

(* rule(): the bookkeeping leaves input, position and stack alone *)
Definition ips (s : pst) (r : res) : Prop :=
  match r with
  | ROk s' | RErr s' => input s' = input s /\ pos s' = pos s /\ stack s' = stack s
  | RPanic k => k <> PkBoundary
  | ROutOfFuel => True
  end.

Lemma rule_ok_ips rule fr s : ips s (rule_ok rule fr s).
Proof.
  pose proof (rule_ok_shape rule fr s) as H.
  destruct (rule_ok rule fr s) as [y|y|k|]; cbn; [|contradiction|now subst|exact I].
  destruct H as (sb & Eb & C). destruct (tracked_same (lk_eqb (lookahead s) LNeg) rule fr s), C.
  unfold end_token in Eb. destruct (emits _); [destruct (set_start_end _ _ _); [|discriminate]|];
    injection Eb as <-; cbn in *; repeat split; congruence.
Qed.

Lemma rule_err_ips rule fr s : ips s (rule_err rule fr s).
Proof.
  pose proof (rule_err_shape rule fr s) as H.
  destruct (rule_err rule fr s) as [y|y|k|]; cbn; [contradiction| |now subst|exact I].
  destruct H as (sb & C & ->). destruct (tracked_same (negb (lk_eqb (lookahead s) LNeg)) rule fr s), C.
  destruct (emits sb); cbn; repeat split; congruence.
Qed.

Lemma ips_upost s r : utf8_ok s -> ips s r -> upost r.
Proof.
  intros U. destruct r as [s'|s'|k|]; cbn; auto; intros (E1 & E2 & E3); eapply utf8_ok_same; eauto; congruence.
Qed.

Lemma checkpoint_ok_upost x a1 (k : pst -> res) (kk : forall y, k y = ROk y \/ k y = RErr y) :
  ready utf8_ok x a1 -> upost (lift k (checkpoint_ok x)).
Proof.
  intros (_ & I & U). unfold checkpoint_ok. destruct (inv_clear I) as (st & E & [C _]). rewrite E. cbn [option_map lift].
  assert (P : utf8_ok (set_stack x st)).
  { apply utf8_ok_set_stack; [exact U|]. rewrite C. cbn. destruct I as [<- _]. apply U. }
  destruct (kk (set_stack x st)) as [-> | ->]; exact P.
Qed.

(* restoring after a run from `checkpoint s` that ended in x: the stack is that of s again; the state y
   handed to restore_st is x with the position possibly reset *)
Lemma restore_upost s a x a1 y (k : pst -> res) (kk : forall z, k z = ROk z \/ k z = RErr z) :
  ready utf8_ok s a -> Inv (stack x) a1 -> snaps a1 = cur a :: snaps a ->
  stack y = stack x -> input y = input s -> boundaryb (input s) (pos y) = true ->
  upost (lift k (restore_st y)).
Proof.
  intros (_ & I & V & _ & F) I1 S Es Ei B. unfold restore_st. rewrite Es.
  destruct (inv_restore I1) as (st & E & [C _]). rewrite E. cbn [option_map lift].
  assert (P : utf8_ok (set_stack y st)).
  { unfold utf8_ok. cbn. rewrite Ei, C. unfold srestore. rewrite S. destruct I as [<- _]. auto. }
  destruct (kk (set_stack y st)) as [-> | ->]; exact P.
Qed.

Lemma exec_prim_cfg_eq cfg1 cfg2 o s : cfg_ok cfg1 -> cfg_ok cfg2 -> prim_valid o -> utf8_ok s ->
  exec_prim cfg1 o s = exec_prim cfg2 o s.
Proof.
  intros H1 H2 Vo (V & B & F). destruct o; try reflexivity. cbn [exec_prim prim_valid] in *.
  now rewrite (skip_until_eq_basic cfg1 _ _ _ H1 B Vo), (skip_until_eq_basic cfg2 _ _ _ H2 B Vo).
Qed.

(* the eight bracket combinators: the body is valid and runs from a ready state, and the exits keep the
   invariant, given the frame facts and the invariant of the body's result *)
Lemma bracket_upost p b : bracket_of p = Some b -> prog_valid p -> forall s1 g, ready utf8_ok s1 g ->
  prog_valid (b_body b) /\
  forall r, post (b_enter b s1) (enter_ghost p g) r -> upost r -> upost (bind r (b_ok b s1) (b_err b s1)).
Proof.
  destruct p; try discriminate; intros [= <-] Vp s1 g R1; cbn [b_body b_enter b_ok b_err prog_valid enter_ghost] in *;
    (split; [exact Vp|]).
  - intros [x|x|k|] _ P; cbn [bind upost] in *; auto;
      (eapply ips_upost; [exact P|]); [apply rule_ok_ips|apply rule_err_ips].
  - intros [x|x|k|] F P; cbn [bind upost post] in *; auto; destruct F as (F & Wx & a1 & I1 & S1).
    + apply (checkpoint_ok_upost x a1 ROk); auto. split; auto.
    + apply (restore_upost s1 g x a1 _ RErr); auto; [exact (f_input _ _ F)|apply R1].
  - intros r _ P. now rewrite bind_ret.
  - intros [x|x|k|] _ P; exact P.
  - intros [x|x|k|] F P; cbn [bind upost post] in *; auto; destruct F as (F & Wx & a1 & I1 & S1);
      (apply (restore_upost s1 g x a1); auto; [intros y; destruct positive; auto|exact (f_input _ _ F)|apply R1]).
  - intros [x|x|k|] _ P; cbn [bind upost] in *; auto; destruct (negb _); auto.
  - (* the pushed slice lies between two boundaries *)
    intros [x|x|k|] F P; cbn [bind upost post] in *; auto. destruct F as (F & _).
    destruct (Nat.ltb (pos x) (pos s1)) eqn:L; [cbn; discriminate|]. apply Nat.ltb_ge in L.
    cbn [upost]. apply utf8_ok_set_stack; [exact P|]. cbn. constructor; [|apply P].
    destruct P as (V' & B' & _). apply valid_slice; auto. rewrite (f_input _ _ F). apply R1.
  - intros [x|x|k|] F P; cbn [bind upost post] in *; auto; destruct F as (F & Wx & a1 & I1 & S1).
    + apply (checkpoint_ok_upost x a1 ROk); auto. split; auto.
    + apply (restore_upost s1 g x a1 x RErr); auto; [exact (f_input _ _ F)|].
      destruct P as (_ & B & _). rewrite (f_input _ _ F) in B. exact B.
Qed.

Section Boundary.
Variables cfg cfg' : config.
Variable E : env.
Hypothesis Hcfg : cfg_ok cfg.
Hypothesis Hcfg' : cfg_ok cfg'.
Hypothesis HE : env_valid E.

(* One induction for both: that the two configurations agree on a sub-run is used to continue from its
   final state, which must satisfy the invariant again. *)
Lemma exec_boundary_cfg : forall fuel p s a, prog_valid p -> ready utf8_ok s a ->
  upost (exec cfg E fuel p s) /\ exec cfg' E fuel p s = exec cfg E fuel p s.
Proof.
  induction fuel as [|fuel IH]; intros p s a Vp R; [split; [exact I|reflexivity]|].
  assert (STEP : forall q s0 a0, prog_valid q -> ready utf8_ok s0 a0 ->
            exec cfg' E fuel q s0 = exec cfg E fuel q s0 /\ upost (exec cfg E fuel q s0) /\
            post s0 a0 (exec cfg E fuel q s0)).
  { intros q s0 a0 Vq R0. destruct (IH q s0 a0 Vq R0) as [P Q]. split; [exact Q|split; [exact P|]].
    destruct R0 as (W0 & I0 & _). now apply exec_post. }
  (* after a sub-run that both configurations agree on: go on from its final state, or stop with k *)
  assert (NEXT : forall q r a0 (k : pst -> res), (forall y, utf8_ok y -> upost (k y)) ->
            prog_valid q -> upost r -> post s a0 r ->
            (upost (bind r (exec cfg E fuel q) k) /\ bind r (exec cfg' E fuel q) k = bind r (exec cfg E fuel q) k) /\
            (upost (bind r k (exec cfg E fuel q)) /\ bind r k (exec cfg' E fuel q) = bind r k (exec cfg E fuel q))).
  { intros q [x|x|k0|] a0 k K Vq P F; cbn [bind upost post] in *; auto; destruct F as (_ & Wx & a1 & I1 & _);
      (split; [|auto]; try (split; auto; fail); apply (IH q x a1 Vq); split; auto). }
  pose proof R as (W & I0 & U).
  destruct (exec_step cfg E fuel p s) as [o|p q|p q|p|p q|f q Ef|f Ef|p b B G|p b s1 B G]; cbn [prog_valid] in Vp.
  - split; [now apply exec_prim_upost|now apply exec_prim_cfg_eq].
  - destruct Vp as [Vp Vq]. destruct (STEP p s a Vp R) as (Q & P & F). cbn [exec]. rewrite Q. now apply (NEXT q _ a RErr).
  - destruct Vp as [Vp Vq]. destruct (STEP p s a Vp R) as (Q & P & F). cbn [exec]. rewrite Q. now apply (NEXT q _ a ROk).
  - destruct (STEP p s a Vp R) as (Q & P & F). cbn [exec]. rewrite Q. now apply (NEXT (PRepeatLoop p) _ a ROk).
  - destruct Vp as [Vp Vq]. cbn [exec]. destruct (atom_eqb (atomicity s) NonAtomic); now apply (IH _ s a).
  - cbn [exec]. rewrite Ef. apply (IH q s a); eauto.
  - cbn [exec]. rewrite Ef. split; [discriminate|reflexivity].
  - rewrite (exec_bracket cfg' E fuel p b s B), G. split; [exact U|reflexivity].
  - rewrite (exec_bracket cfg' E fuel p b s B), G.
    assert (R1 : ready utf8_ok s1 a).
    { destruct (guard_frame _ _ _ G) as (_ & St & Po & _ & In & _). now apply (ready_same _ utf8_ok_same s). }
    destruct (bracket_upost p b B Vp s1 a R1) as (Vb & X).
    destruct (STEP (b_body b) _ _ Vb (bracket_ready _ utf8_ok_same p b B s1 a R1)) as (-> & P & F). split; [now apply X|reflexivity].
Qed.

End Boundary.

Section Boundary1.
Variable cfg : config.
Variable E : env.
Hypothesis Hcfg : cfg_ok cfg.
Hypothesis HE : env_valid E.

Theorem exec_boundary : forall fuel p s a,
  prog_valid p -> wf s -> Inv (stack s) a -> utf8_ok s -> upost (exec cfg E fuel p s).
Proof. intros fuel p s a Vp W I U. now apply (exec_boundary_cfg cfg cfg E Hcfg Hcfg HE fuel p s a). Qed.

Corollary exec_no_boundary_panic fuel p s a :
  prog_valid p -> wf s -> Inv (stack s) a -> utf8_ok s -> exec cfg E fuel p s <> RPanic PkBoundary.
Proof.
  intros Vp W I U Ex. pose proof (exec_boundary fuel p s a Vp W I U) as P. rewrite Ex in P. now apply P.
Qed.

End Boundary1.

Section CfgEq.
Variables cfg1 cfg2 : config.
Variable E : env.
Hypothesis H1 : cfg_ok cfg1.
Hypothesis H2 : cfg_ok cfg2.
Hypothesis HE : env_valid E.

Theorem exec_cfg_eq : forall fuel p s a,
  prog_valid p -> wf s -> Inv (stack s) a -> utf8_ok s -> exec cfg1 E fuel p s = exec cfg2 E fuel p s.
Proof. intros fuel p s a Vp W I U. now apply (exec_boundary_cfg cfg2 cfg1 E H2 H1 HE fuel p s a). Qed.

End CfgEq.

Corollary exec_memchr_eq_basic E fuel p s a l1 l2 f2 :
  env_valid E -> prog_valid p -> wf s -> Inv (stack s) a -> utf8_ok s ->
  exec {| memchr := true; fixed3 := true; fixedlim := l1 |} E fuel p s =
  exec {| memchr := false; fixed3 := f2; fixedlim := l2 |} E fuel p s.
Proof.
  intros HE Vp W I U. apply (exec_cfg_eq _ _ E) with (a := a); auto.
  - intros _. reflexivity.
  - intros Hm. discriminate Hm.
Qed.

(* non-vacuity: the initial state of a parse of valid input satisfies the hypotheses *)
Lemma init_utf8_ok inp lim detail : valid_utf8 inp -> utf8_ok (init inp lim detail).
Proof. intros V. split; [exact V|]. split; [cbn; now apply boundaryb_0|constructor]. Qed.

Lemma init_wf_inv inp lim detail : wf (init inp lim detail) /\ Inv (stack (init inp lim detail)) (@sempty (list byte)).
Proof. split; [unfold wf; cbn; lia|apply inv_empty]. Qed.

Corollary run_state_no_boundary_panic cfg E fuel p inp lim detail :
  cfg_ok cfg -> env_valid E -> prog_valid p -> valid_utf8 inp ->
  run_state cfg E fuel p inp lim detail <> RPanic PkBoundary.
Proof.
  intros Hc HE Vp V. unfold run_state. destruct (init_wf_inv inp lim detail) as [W I].
  eapply exec_no_boundary_panic; eauto. now apply init_utf8_ok.
Qed.

(* with the arm as found the equivalence fails already for a single skip_until (same witness as
   skip_until_memchr_unfixed_refuted): the parse goes on from offset 2 instead of 0 *)
Example exec_memchr_unfixed_refuted :
  let inp := [120; 120; 97]%N in let p := PPrim (MSkipUntil [[97]; [98]; []]%N) in
  let E : env := fun _ => None in
  match run_state {| memchr := true; fixed3 := false; fixedlim := true |} E 1 p inp None false,
        run_state {| memchr := false; fixed3 := false; fixedlim := true |} E 1 p inp None false with
  | ROk s1, ROk s2 => pos s1 = 2 /\ pos s2 = 0
  | _, _ => False
  end.
Proof. vm_compute. auto. Qed.
