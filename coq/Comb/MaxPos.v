(* Layer C, C15 part 3: max_position.
   max_position is only ever assigned the position of the state in which a token match has just
   succeeded or failed.  Hence ANY property Q of (input, position) that holds of the position of every
   state the interpreter passes through also holds of max_position.  The reduction is stated for an
   abstract state invariant Inv0 (preserved by exec on the admitted programs and by the five
   "entering" steps of the combinators) and instantiated (a) with Q = "<= |input|" unconditionally
   and (b) with Q = "is a char boundary" in MaxPosUtf8.v.                                         *)
From Coq Require Import List Arith NArith ZArith Bool Lia.
Import ListNotations.
Require Import PV.Stack.Model PV.Stack.Proofs PV.Comb.PState PV.Comb.Bytes PV.Comb.Prog PV.Comb.Exec PV.Comb.ExecInd PV.Comb.Frame
               PV.Comb.Detail PV.Comb.DetailProofs PV.Comb.Standing.

Section Reduction.
Variable cfg : config.
Variable E : env.
Variable Inv0 : pst -> Prop.
Variable okp : prog -> Prop.
Variable Q : list byte -> nat -> Prop.
Hypothesis I_Q : forall s, Inv0 s -> Q (input s) (pos s).
Hypothesis I_exec : forall fuel p s, okp p -> Inv0 s -> res_all Inv0 (exec cfg E fuel p s).
Hypothesis I_enter : forall s t, Inv0 s -> enter_step s t -> Inv0 t.
Hypothesis okp_children : forall p q, okp p -> In q (children p) -> okp q.
Hypothesis okp_env : forall f q, E f = Some q -> okp q.

Definition mq (s : pst) : Prop := Q (input s) (max_position s).

Lemma mq_dsame s s' : dsame s s' -> mq s -> mq s'.
Proof. intros (_ & M & _ & In). unfold mq. rewrite M, In. auto. Qed.

Lemma mq_rule_exit fr s' r : mq s' -> rule_exit fr s' r -> res_all mq r.
Proof.
  intros H X. unfold rule_exit in X. eapply res_all_imp; [|exact X].
  intros x (_ & M & In & _). unfold mq. rewrite M, In. exact H.
Qed.

Lemma guard_enter k s s1 : guard k s = Some s1 -> Inv0 s -> Inv0 s1.
Proof. destruct k; [intros Ei Is; exact (I_enter _ _ Is (es_inc _ _ Ei))|now intros [= <-]]. Qed.

Lemma bracket_mq p b : bracket_of p = Some b -> forall s1,
  In (b_body b) (children p) /\ (Inv0 s1 -> Inv0 (b_enter b s1)) /\
  forall s', dle s1 s' -> mq s' -> res_all mq (b_ok b s1 s') /\ res_all mq (b_err b s1 s').
Proof.
  assert (L : forall (k : pst -> res) y, (forall x, k x = ROk x \/ k x = RErr x) -> mq y -> res_all mq (lift k (restore_st y))).
  { intros k y K M. apply res_all_lift; [exact K|]. intros x Hx. eapply mq_dsame; [apply restore_st_dsame; exact Hx|exact M]. }
  assert (C : forall s', mq s' -> res_all mq (lift ROk (checkpoint_ok s'))).
  { intros s' M. apply res_all_lift; [auto|]. intros x Hx. eapply mq_dsame; [apply checkpoint_ok_dsame; exact Hx|exact M]. }
  destruct p; try discriminate; intros [= <-] s1; (split; [left; reflexivity|]); cbn [b_enter b_ok b_err].
  - split; [intros Is; exact (I_enter _ _ Is (es_rule s1))|]. intros s' D M.
    assert (FE : fr_core_eq (fst (rule_enter s1)) (fst (rule_enter s1))) by (repeat split).
    pose proof (csn_cond_enter s1 s' D) as CS.
    split; (eapply mq_rule_exit; [exact M|]); [apply (rule_ok_erase r _ _ s' FE CS)|apply (rule_err_erase r _ _ s' FE CS)].
  - split; [intros Is; exact (I_enter _ _ Is (es_checkpoint s1))|]. intros s' _ M. split; [now apply C|apply L; auto].
  - split; [auto|]. intros s' _ M. split; exact M.
  - split; [auto|]. intros s' _ M. split; exact M.
  - split; [intros Is; exact (I_enter _ _ (I_enter _ _ Is (es_lookahead s1 _)) (es_checkpoint _))|].
    intros s' _ M. split; (apply L; [intros x; destruct positive; auto|exact M]).
  - split; [intros Is; destruct (negb _); [exact (I_enter _ _ Is (es_atomicity s1 a))|exact Is]|].
    intros s' _ M. split; destruct (negb _); exact M.
  - split; [auto|]. intros s' _ M. split; [|exact M]. destruct (Nat.ltb (pos s') (pos s1)); [exact I|exact M].
  - split; [intros Is; exact (I_enter _ _ Is (es_checkpoint s1))|]. intros s' _ M. split; [now apply C|apply L; auto].
Qed.

Theorem max_position_Q : forall fuel p s, okp p -> Inv0 s -> mq s -> res_all mq (exec cfg E fuel p s).
Proof.
  induction fuel as [|fuel IH]; intros p s Vp Is Ms; [exact I|].
  pose proof (fun q => okp_children p q Vp) as Ch.
  assert (IHk : forall q, okp q -> forall s', Inv0 s' /\ mq s' -> res_all mq (exec cfg E fuel q s')) by (intros q Vq s' []; now apply IH).
  assert (R : forall s', Inv0 s' /\ mq s' -> mq s') by now intros s' [].
  assert (B : forall q, okp q -> res_all (fun s' => Inv0 s' /\ mq s') (exec cfg E fuel q s))
    by (intros q Vq; apply res_all_and; [now apply I_exec|now apply IH]).
  destruct (exec_step cfg E fuel p s) as [o|p q|p q|p|p q|f q Ef|f Ef|p b B' G|p b s1 B' G]; cbn [children] in Ch.
  - (* PPrim: max_position is unchanged or is the position of the result, a state exec has reached *)
    pose proof (I_exec (S fuel) (PPrim o) s Vp Is) as Ir. cbn [exec] in Ir.
    pose proof (exec_prim_mp cfg o s) as Mp. pose proof (proj2 (exec_prim_erase cfg o s)) as D.
    unfold mp_step in Mp.
    destruct (exec_prim cfg o s) as [s'|s'|k|]; cbn in *; auto;
      destruct D as (_ & _ & In); (destruct Mp as [M|M]; unfold mq; rewrite M; [rewrite In; exact Ms|apply I_Q; exact Ir]).
  - apply (res_all_bind _ _ _ _ _ (B p (Ch p (or_introl eq_refl)))); [apply IHk, Ch; right; left; reflexivity|exact R].
  - apply (res_all_bind _ _ _ _ _ (B p (Ch p (or_introl eq_refl)))); [exact R|apply IHk, Ch; right; left; reflexivity].
  - apply (res_all_bind _ _ _ _ _ (B p (Ch p (or_introl eq_refl)))); [now apply IHk|exact R].
  - apply IH; auto. apply Ch. destruct (atom_eqb _ _); [left|right; left]; reflexivity.
  - apply IH; auto. eapply okp_env; eauto.
  - exact I.
  - exact Ms.
  - destruct (bracket_mq p b B' s1) as (Cb & Ie & X).
    pose proof (guard_dsame _ _ _ G) as D1. pose proof (bracket_enter_dsame p b B' s1) as D2.
    pose proof (IH (b_body b) _ (Ch _ Cb) (Ie (guard_enter _ _ _ G Is)) (mq_dsame _ _ D2 (mq_dsame _ _ D1 Ms))) as M.
    pose proof (proj2 (exec_erase cfg E fuel (b_body b) (b_enter b s1))) as D.
    destruct (exec cfg E fuel (b_body b) (b_enter b s1)) as [s'|s'|k|]; cbn [bind]; auto;
      apply X; auto; eapply dle_dsame_l; eauto.
Qed.

End Reduction.

Lemma enter_step_core s t : enter_step s t -> input t = input s /\ pos t = pos s.
Proof.
  intros [s0 s1 Ei|s0|s0|s0 l|s0 a]; try (split; reflexivity).
  - destruct (inc_call_frame _ _ Ei) as (_ & _ & Po & _ & In & _). auto.
  - destruct (rule_enter_spec s0) as (_ & _ & _ & _ & _ & SQ). split; [exact (q_input _ _ SQ)|exact (q_pos _ _ SQ)].
Qed.

Lemma enter_step_wf_inv s t : enter_step s t -> wf s /\ (exists a, Inv (stack s) a) -> wf t /\ (exists a, Inv (stack t) a).
Proof.
  intros St [W [a I]].
  destruct (ready_enter (fun _ => True) (fun _ _ _ _ _ _ => Logic.I) s t a (conj W (conj I Logic.I)) St) as (a' & W' & I' & _).
  eauto.
Qed.

(* (a) max_position never exceeds the input length: unconditional *)
Theorem max_position_le cfg E fuel p s a :
  wf s -> Inv (stack s) a -> max_position s <= length (input s) ->
  res_all (fun s' => max_position s' <= length (input s')) (exec cfg E fuel p s).
Proof.
  intros W I M.
  apply (max_position_Q cfg E (fun s => wf s /\ exists a, Inv (stack s) a) (fun _ => True) (fun inp p => p <= length inp)); auto.
  - intros x [Wx _]. exact Wx.
  - intros f q x _ [Wx [b Ix]]. pose proof (exec_post cfg E f q x b Wx Ix) as P.
    destruct (exec cfg E f q x); cbn in *; auto; destruct P as (_ & W' & a' & I' & _); split; eauto.
  - intros x t Hx St. eapply enter_step_wf_inv; eauto.
  - split; [exact W|exists a; exact I].
Qed.

Corollary run_state_max_position_le cfg E fuel p inp lim detail :
  res_all (fun s' => max_position s' <= length inp /\ input s' = inp) (run_state cfg E fuel p inp lim detail).
Proof.
  unfold run_state.
  assert (W : wf (init inp lim detail)) by (unfold wf; cbn; lia).
  assert (I : Inv (stack (init inp lim detail)) (@sempty (list byte))) by apply inv_empty.
  pose proof (max_position_le cfg E fuel p (init inp lim detail) _ W I (Nat.le_0_l _)) as H.
  pose proof (proj2 (exec_erase cfg E fuel p (init inp lim detail))) as D.
  destruct (exec cfg E fuel p (init inp lim detail)); cbn in *; auto; destruct D as (_ & _ & In); rewrite In in H; auto.
Qed.

(* (b) the reduction for "is a char boundary", in the two forms:
   - from an arbitrary state invariant that implies a boundary position (general form),
   - from the bare statement "exec keeps the position on a boundary" (the bare form). *)
Theorem max_position_boundary_from_invariant cfg E (Inv0 : pst -> Prop) (okp : prog -> Prop) :
  (forall s, Inv0 s -> pos_boundary_inv s) ->
  (forall fuel p s, okp p -> Inv0 s -> res_all Inv0 (exec cfg E fuel p s)) ->
  (forall s t, Inv0 s -> enter_step s t -> Inv0 t) ->
  (forall p q, okp p -> In q (children p) -> okp q) ->
  (forall f q, E f = Some q -> okp q) ->
  forall fuel p s, okp p -> Inv0 s -> max_boundary_inv s -> res_all max_boundary_inv (exec cfg E fuel p s).
Proof.
  intros H1 H2 H3 H4 H5 fuel p s Vp Is Ms.
  exact (max_position_Q cfg E Inv0 okp (fun inp q => boundaryb inp q = true) H1 H2 H3 H4 H5 fuel p s Vp Is Ms).
Qed.

Theorem max_position_boundary_from_pos_boundary cfg E :
  (forall fuel p s, pos_boundary_inv s -> res_all pos_boundary_inv (exec cfg E fuel p s)) ->
  forall fuel p s, pos_boundary_inv s -> max_boundary_inv s -> res_all max_boundary_inv (exec cfg E fuel p s).
Proof.
  intros H fuel p s Ps Ms.
  apply (max_position_boundary_from_invariant cfg E pos_boundary_inv (fun _ => True)); auto.
  intros x t Hx St. destruct (enter_step_core _ _ St) as (In & Po). unfold pos_boundary_inv in *. rewrite In, Po. exact Hx.
Qed.
