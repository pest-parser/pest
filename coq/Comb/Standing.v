(* What an induction over `exec` carries from the entry of a combinator to the entry of its body:
   well-formedness, the ghost model of the stack, and a state predicate U that looks only at input,
   position and stack contents (trivial in Wfq.v, the UTF-8 invariant in Utf8c.v). *)
From Coq Require Import List Arith Bool.
Require Import PV.Stack.Model PV.Stack.Proofs PV.Comb.PState PV.Comb.Bytes PV.Comb.Prog PV.Comb.Exec PV.Comb.ExecInd PV.Comb.Frame PV.Comb.Detail.

(* the ghost stack with which the body of a bracket starts: the three that set a checkpoint push a snapshot *)
Definition enter_ghost (p : prog) (a : sspec) : sspec :=
  match p with PSequence _ | PLookahead _ _ | PRestoreOnErr _ => ssnapshot a | _ => a end.

Section Standing.
Variable U : pst -> Prop.
Hypothesis U_same : forall s s',
  input s' = input s -> pos s' = pos s -> cache (stack s') = cache (stack s) -> U s -> U s'.

Definition ready (s : pst) (a : sspec) : Prop := wf s /\ Inv (stack s) a /\ U s.

Lemma ready_same s t a : input t = input s -> pos t = pos s -> stack t = stack s -> ready s a -> ready t a.
Proof.
  intros Ei Ep Es (W & I & Us). unfold ready, wf. rewrite Ei, Ep, Es.
  split; [exact W|split; [exact I|]]. apply (U_same s); congruence.
Qed.

Lemma ready_inc s s1 a : inc_call s = Some s1 -> ready s a -> ready s1 a.
Proof. intros Ei. destruct (inc_call_frame _ _ Ei) as (_ & St & Po & _ & In & _). now apply ready_same. Qed.

Lemma ready_rule_enter s a : ready s a -> ready (snd (rule_enter s)) a.
Proof.
  destruct (rule_enter_spec s) as (_ & _ & _ & _ & _ & SQ).
  apply ready_same; [exact (q_input _ _ SQ)|exact (q_pos _ _ SQ)|exact (q_stack _ _ SQ)].
Qed.

Lemma ready_checkpoint s a : ready s a -> ready (checkpoint s) (ssnapshot a).
Proof.
  intros (W & I & Us). split; [exact W|split; [now apply inv_snapshot|]]. now apply (U_same s).
Qed.

Lemma bracket_ready p b : bracket_of p = Some b -> forall s1 a, ready s1 a -> ready (b_enter b s1) (enter_ghost p a).
Proof.
  destruct p; try discriminate; intros [= <-] s1 g R; cbn [b_enter enter_ghost]; try exact R.
  - now apply ready_rule_enter.
  - now apply ready_checkpoint.
  - now apply ready_checkpoint, (ready_same s1).
  - destruct (negb _); [now apply (ready_same s1)|exact R].
  - now apply ready_checkpoint.
Qed.

Lemma ready_enter s t a : ready s a -> enter_step s t -> exists a', ready t a'.
Proof.
  intros R St. revert a R. destruct St as [s s1 Ei|s|s|s l|s x]; intros a R.
  - exists a. now apply (ready_inc s).
  - exists a. now apply ready_rule_enter.
  - exists (ssnapshot a). now apply ready_checkpoint.
  - exists a. now apply (ready_same s).
  - exists a. now apply (ready_same s).
Qed.

End Standing.
