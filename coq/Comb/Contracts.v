(* Layer C proofs, part 2: the documented contracts of the combinators (C03), as corollaries of
   the frame theorem: failed sequences and look-aheads restore position, tokens and stack;
   nothing is emitted under look-ahead; the rule contract.                                  *)
From Coq Require Import List Arith NArith ZArith Bool Lia.
Import ListNotations.
Require Import PV.Stack.Model PV.Stack.Proofs PV.Comb.PState PV.Comb.Bytes PV.Comb.Prog PV.Comb.Exec PV.Comb.ExecInd PV.Comb.Frame PV.Comb.Detail.

(* the equations of a same_but_queue / same_but_attempts hypothesis under the names `destruct` would give,
   the hypothesis kept *)
Ltac dsq SQ :=
  pose proof (q_input _ _ SQ) as q_input0; pose proof (q_pos _ _ SQ) as q_pos0; pose proof (q_la _ _ SQ) as q_la0;
  pose proof (q_at _ _ SQ) as q_at0; pose proof (q_stack _ _ SQ) as q_stack0; pose proof (q_calls _ _ SQ) as q_calls0;
  pose proof (q_lim _ _ SQ) as q_lim0; pose proof (q_en _ _ SQ) as q_en0; pose proof (q_cs _ _ SQ) as q_cs0;
  pose proof (q_mp _ _ SQ) as q_mp0.
Ltac dtr T :=
  pose proof (t_input _ _ T) as t_input0; pose proof (t_pos _ _ T) as t_pos0; pose proof (t_queue _ _ T) as t_queue0;
  pose proof (t_la _ _ T) as t_la0; pose proof (t_at _ _ T) as t_at0; pose proof (t_stack _ _ T) as t_stack0;
  pose proof (t_calls _ _ T) as t_calls0; pose proof (t_lim _ _ T) as t_lim0; pose proof (t_en _ _ T) as t_en0;
  pose proof (t_cs _ _ T) as t_cs0; pose proof (t_mp _ _ T) as t_mp0.

Lemma try_add_rule_to_stack_core s r c m y : try_add_rule_to_stack s r c m = Some y -> same_core s y.
Proof.
  unfold try_add_rule_to_stack. destruct (negb (atom_eqb (atomicity s) Atomic)); [|intros [= <-]; apply same_core_refl].
  unfold try_add_new_stack_rule. destruct (Nat.ltb (length (call_stacks s)) _); [discriminate|].
  match goal with |- context [if Nat.leb ?c ?d then _ else _] => destruct (Nat.leb c d) end; intros [= <-]; split; reflexivity.
Qed.

(* the attempt-tracking step: taken on Ok under negation, on Err outside it *)
Definition tracked (c : bool) (rule : nat) (fr : rule_frame) (s : pst) : pst :=
  if c then track s rule (rf_pos fr) (rf_pai fr) (rf_nai fr) (rf_attempts fr) else s.

Lemma tracked_same c rule fr s : same_but_attempts s (tracked c rule fr s).
Proof. destruct c; [apply track_same|split; reflexivity]. Qed.

Definition end_token (rule : nat) (fr : rule_frame) (s : pst) : option pst :=
  if emits s
  then option_map (fun q => set_queue s (QEnd (rf_index fr) rule None (pos s) :: q))
                  (set_start_end (queue s) (rf_index fr) (length (queue s)))
  else Some s.

Lemma add_rule_core s rule csn mx :
  match (if pa_enabled s then try_add_rule_to_stack s rule csn mx else Some s) with
  | Some y => same_core s y
  | None => True
  end.
Proof.
  destruct (pa_enabled s); [|apply same_core_refl].
  destruct (try_add_rule_to_stack s rule csn mx) as [y|] eqn:Ey; [|exact I]. exact (try_add_rule_to_stack_core _ _ _ _ _ Ey).
Qed.

Lemma rule_ok_shape rule fr s :
  match rule_ok rule fr s with
  | ROk y => exists sb, end_token rule fr (tracked (lk_eqb (lookahead s) LNeg) rule fr s) = Some sb /\ same_core sb y
  | RPanic k => k = PkInternal
  | _ => False
  end.
Proof.
  change (rule_ok rule fr s) with
    (match end_token rule fr (tracked (lk_eqb (lookahead s) LNeg) rule fr s) with
     | None => RPanic PkInternal
     | Some s2 => if pa_enabled s2 then lift ROk (try_add_rule_to_stack s2 rule (rf_csn fr) (rf_max fr)) else ROk s2
     end).
  destruct (end_token _ _ _) as [sb|]; [|reflexivity].
  pose proof (add_rule_core sb rule (rf_csn fr) (rf_max fr)) as C.
  destruct (pa_enabled sb); [destruct (try_add_rule_to_stack _ _ _ _); cbn [lift]; [|reflexivity]|]; eauto.
Qed.

Lemma rule_err_shape rule fr s :
  match rule_err rule fr s with
  | RErr y => exists sb, same_core (tracked (negb (lk_eqb (lookahead s) LNeg)) rule fr s) sb /\
                         y = if emits sb then set_queue sb (vtruncate (rf_index fr) (queue sb)) else sb
  | RPanic k => k = PkInternal
  | _ => False
  end.
Proof.
  unfold rule_err, tracked. destruct (negb (lk_eqb (lookahead s) LNeg)).
  - pose proof (add_rule_core (track s rule (rf_pos fr) (rf_pai fr) (rf_nai fr) (rf_attempts fr)) rule (rf_csn fr) (rf_max fr)) as C.
    cbv zeta. destruct (if pa_enabled _ then _ else _); [eauto|reflexivity].
  - eexists. split; [apply same_core_refl|reflexivity].
Qed.

Section Contracts.
Variable cfg : config.
Variable E : env.

(* what "exactly as they were" means for position, tokens (up to node tags, see tag_witness in
   props/C03.v) and stack contents *)
Definition restored (s s' : pst) : Prop :=
  pos s' = pos s /\ untagq (queue s') = untagq (queue s) /\ cache (stack s') = cache (stack s) /\
  lookahead s' = lookahead s /\ atomicity s' = atomicity s /\ input s' = input s.

Lemma inv_cache (st : stk (list byte)) (a : sspec) : Inv st a -> cache st = cur a.
Proof. intros [H _]. exact H. Qed.

(* leaving through restore_st, from a body run on a checkpoint of s1: only the stack of y changes,
   and its contents are again those of s1 *)
Lemma restore_exit s1 a y a2 k s' :
  (forall z, k z = ROk z \/ k z = RErr z) -> Inv (stack s1) a -> Inv (stack y) a2 -> snaps a2 = cur a :: snaps a ->
  (lift k (restore_st y) = ROk s' \/ lift k (restore_st y) = RErr s') ->
  exists st, s' = set_stack y st /\ cache st = cache (stack s1).
Proof.
  intros kk I I2 S2 H. unfold restore_st in H. destruct (inv_restore I2) as (st & Er & I3). rewrite Er in H. cbn [option_map lift] in H.
  exists st. split; [destruct (kk (set_stack y st)) as [K|K]; rewrite K in H; destruct H; congruence|].
  rewrite (inv_cache _ _ I3). unfold srestore. rewrite S2. symmetry. now apply inv_cache.
Qed.

Theorem sequence_err_restores fuel p s a s' :
  wf s -> Inv (stack s) a -> exec cfg E fuel (PSequence p) s = RErr s' -> restored s s'.
Proof.
  intros W I H. destruct fuel as [|fuel]; [discriminate|].
  rewrite (exec_bracket cfg E fuel (PSequence p) _ s eq_refl) in H. cbn [guard b_counted b_body b_enter b_ok b_err] in H.
  destruct (inc_call s) as [s1|] eqn:Ei; [|injection H as <-; repeat split; reflexivity].
  destruct (inc_call_frame _ _ Ei) as (F1 & St & Po & Qu & In & _).
  rewrite <- St in I.
  assert (W1 : wf (checkpoint s1)) by (unfold wf in *; cbn; congruence).
  pose proof (exec_post cfg E fuel p (checkpoint s1) (ssnapshot a) W1 (inv_snapshot I)) as P.
  destruct (exec cfg E fuel p (checkpoint s1)) as [s2|s2|k|]; cbn [bind] in H; try discriminate.
  - (* body Ok: the sequence cannot return Err *)
    destruct (checkpoint_ok s2); discriminate.
  - destruct P as (F & W2 & a2 & I2 & S2).
    destruct (restore_exit s1 a (set_queue (set_pos s2 (pos s1)) (vtruncate (length (queue s1)) (queue s2))) a2 RErr s'
                (fun z => or_intror eq_refl) I I2 S2 (or_intror H)) as (st & -> & Ec).
    destruct (f_queue _ _ F) as [new Eq]. destruct F, F1. cbn in *. repeat split; cbn; try congruence.
    rewrite <- Qu. eapply untagq_truncate_back; eauto.
Qed.

(* under look-ahead nothing touches the queue, not even a node tag *)
Definition quiet (s : pst) : res -> Prop := res_all (fun s' => queue s' = queue s).

Lemma emits_under_lookahead s : lookahead s <> LNone -> emits s = false.
Proof. unfold emits. destruct (lookahead s); [reflexivity|reflexivity|congruence]. Qed.

Lemma apply_pres_quiet s r t : quiet s (apply_pres s r t).
Proof.
  unfold quiet, apply_pres. destruct r as [p| |]; cbn [res_all]; [| |exact I];
    (destruct t as [tk|]; [destruct (pa_enabled s)|]; try reflexivity; exact (c_queue _ _ (proj1 (handle_token_core _ _ _ _)))).
Qed.

Lemma exec_prim_quiet o s : lookahead s <> LNone -> quiet s (exec_prim cfg o s).
Proof.
  intros L. rewrite exec_prim_act. destruct (prim_act cfg o (input s) (pos s) (stack s)) as [k|st r t|t]; cbn [run_act].
  - exact Logic.I.
  - exact (apply_pres_quiet (set_stack s st) r t).
  - unfold tag_node. destruct (lookahead s); try congruence; reflexivity.
Qed.

Lemma track_queue s r p pai nai prev : queue (track s r p pai nai prev) = queue s.
Proof. destruct (track_same s r p pai nai prev). auto. Qed.

Lemma bracket_quiet p b : bracket_of p = Some b -> forall s1, lookahead s1 <> LNone ->
  lookahead (b_enter b s1) <> LNone /\ queue (b_enter b s1) = queue s1 /\
  forall s', lookahead s' = lookahead (b_enter b s1) -> queue s' = queue s1 ->
    quiet s1 (b_ok b s1 s') /\ quiet s1 (b_err b s1 s').
Proof.
  destruct p; try discriminate; intros [= <-] s1 L; cbn [b_enter b_ok b_err].
  - (* PRule: does not emit under look-ahead *)
    destruct (rule_enter_spec s1) as (_ & _ & _ & _ & Q & SQ). rewrite (emits_under_lookahead s1 L) in Q.
    rewrite (q_la _ _ SQ). split; [exact L|]. split; [exact Q|]. intros s' L' Q'. split.
    + pose proof (rule_ok_shape r (fst (rule_enter s1)) s') as Sh.
      destruct (rule_ok _ _ s') as [y|y|k|]; cbn; auto; [|contradiction]. destruct Sh as (sb & Eb & C).
      destruct (tracked_same (lk_eqb (lookahead s') LNeg) r (fst (rule_enter s1)) s') as [].
      unfold end_token in Eb. rewrite emits_under_lookahead in Eb by congruence. injection Eb as <-.
      rewrite (c_queue _ _ C). congruence.
    + pose proof (rule_err_shape r (fst (rule_enter s1)) s') as Sh.
      destruct (rule_err _ _ s') as [y|y|k|]; cbn; auto; [contradiction|]. destruct Sh as (sb & C & ->).
      destruct (tracked_same (negb (lk_eqb (lookahead s') LNeg)) r (fst (rule_enter s1)) s') as [].
      rewrite emits_under_lookahead by (rewrite (c_la _ _ C); congruence).
      rewrite (c_queue _ _ C). congruence.
  - split; [exact L|]. split; [reflexivity|]. intros s' _ Q'. split.
    + unfold checkpoint_ok. destruct (clear_snapshot (stack s')); cbn; auto.
    + unfold restore_st. cbn [stack set_queue set_pos]. destruct (restore (stack s')); cbn; auto.
      rewrite Q'. unfold vtruncate. now rewrite Nat.ltb_irrefl.
  - split; [exact L|]. split; [reflexivity|]. intros s' _ Q'. split; exact Q'.
  - split; [exact L|]. split; [reflexivity|]. intros s' _ Q'. split; exact Q'.
  - split; [cbn; destruct positive, (lookahead s1); cbn; congruence|]. split; [reflexivity|]. intros s' _ Q'.
    unfold restore_st. cbn [stack set_lookahead set_pos]. destruct (restore (stack s')); destruct positive; cbn; auto.
  - destruct (negb (atom_eqb (atomicity s1) a)); (split; [exact L|]; split; [reflexivity|]; intros s' _ Q'; split; exact Q').
  - split; [exact L|]. split; [reflexivity|]. intros s' _ Q'. split; [|exact Q'].
    destruct (Nat.ltb (pos s') (pos s1)); cbn; auto.
  - split; [exact L|]. split; [reflexivity|]. intros s' _ Q'. split.
    + unfold checkpoint_ok. destruct (clear_snapshot (stack s')); cbn; auto.
    + unfold restore_st. destruct (restore (stack s')); cbn; auto.
Qed.

Lemma quiet_bind s a r kOk kErr : post s a r -> quiet s r ->
  (forall s' a', wf s' -> Inv (stack s') a' -> lookahead s' = lookahead s -> quiet s' (kOk s')) ->
  (forall s' a', wf s' -> Inv (stack s') a' -> lookahead s' = lookahead s -> quiet s' (kErr s')) ->
  quiet s (bind r kOk kErr).
Proof.
  intros P Q HO HE. destruct r as [s'|s'|k|]; cbn in P, Q |- *; auto;
    destruct P as (F & W & a' & I & _); [specialize (HO s' a' W I (f_la _ _ F))|specialize (HE s' a' W I (f_la _ _ F))];
    [destruct (kOk s')|destruct (kErr s')]; cbn in *; congruence.
Qed.

Lemma exec_quiet_all : forall fuel p s a, wf s -> Inv (stack s) a -> lookahead s <> LNone -> quiet s (exec cfg E fuel p s).
Proof.
  induction fuel as [|fuel IH]; intros p s a W I L; [exact Logic.I|].
  assert (IH' : forall q s' a', wf s' -> Inv (stack s') a' -> lookahead s' = lookahead s -> quiet s' (exec cfg E fuel q s'))
    by (intros; eapply IH; eauto; congruence).
  assert (R : forall s' a', wf s' -> Inv (stack s') a' -> lookahead s' = lookahead s -> quiet s' (ROk s')) by reflexivity.
  destruct (exec_step cfg E fuel p s) as [o|p q|p q|p|p q|f q _|f _|p b _ _|p b s1 B G].
  - now apply exec_prim_quiet.
  - apply (quiet_bind s a); [now apply exec_post|now apply (IH p s a)|apply IH'|exact R].
  - apply (quiet_bind s a); [now apply exec_post|now apply (IH p s a)|exact R|apply IH'].
  - apply (quiet_bind s a); [now apply exec_post|now apply (IH p s a)|apply IH'|exact R].
  - eapply IH; eauto.
  - eapply IH; eauto.
  - exact Logic.I.
  - reflexivity.
  - destruct (guard_frame _ _ _ G) as (F1 & St & Po & Qu & In & _).
    assert (L1 : lookahead s1 <> LNone) by (rewrite (f_la _ _ F1); exact L).
    destruct (bracket_post p b B s1 a) as (a2 & W2 & I2 & _); [unfold wf in *; congruence|now rewrite St|].
    destruct (bracket_quiet p b B s1 L1) as (L2 & Q2 & X).
    pose proof (exec_post cfg E fuel (b_body b) _ a2 W2 I2) as P. pose proof (IH (b_body b) _ a2 W2 I2 L2) as Q.
    unfold quiet. rewrite <- Qu.
    destruct (exec cfg E fuel (b_body b) (b_enter b s1)) as [s'|s'|k|]; cbn in P, Q |- *; auto;
      destruct P as (F & _); apply X; try congruence; exact (f_la _ _ F).
Qed.

Lemma exec_quiet fuel p s a s' : wf s -> Inv (stack s) a -> lookahead s <> LNone ->
  (exec cfg E fuel p s = ROk s' \/ exec cfg E fuel p s = RErr s') -> queue s' = queue s.
Proof. intros W I L H. pose proof (exec_quiet_all fuel p s a W I L) as Q. destruct H as [H|H]; rewrite H in Q; exact Q. Qed.

(* any look-ahead, whether it succeeds or fails, leaves position, tokens (exactly) and stack as they were *)
Theorem lookahead_restores fuel b p s a s' :
  wf s -> Inv (stack s) a ->
  (exec cfg E fuel (PLookahead b p) s = ROk s' \/ exec cfg E fuel (PLookahead b p) s = RErr s') ->
  restored s s' /\ queue s' = queue s.
Proof.
  intros W I H. destruct fuel as [|fuel]; [destruct H; discriminate|].
  rewrite (exec_bracket cfg E fuel (PLookahead b p) _ s eq_refl) in H. cbn [guard b_counted b_body b_enter b_ok b_err] in H.
  destruct (inc_call s) as [s1|] eqn:Ei; [|destruct H as [H|[= <-]]; [discriminate|repeat split; reflexivity]].
  destruct (inc_call_frame _ _ Ei) as (F1 & St & Po & Qu & In & _).
  rewrite <- St in I. set (s2 := checkpoint _) in *.
  assert (W1 : wf s2) by (unfold wf in *; cbn; congruence).
  assert (I1 : Inv (stack s2) (ssnapshot a)) by exact (inv_snapshot I).
  assert (L2 : lookahead s2 <> LNone) by (cbn; destruct b, (lookahead s1); cbn; congruence).
  pose proof (exec_post cfg E fuel p s2 _ W1 I1) as P. pose proof (exec_quiet_all fuel p s2 _ W1 I1 L2) as Qx.
  destruct (exec cfg E fuel p s2) as [x|x|k|]; cbn [bind] in H; try (destruct H; discriminate);
    destruct P as (F & _ & a2 & I2 & S2);
    (eapply restore_exit in H; [|intros z; destruct b; auto|exact I|exact I2|exact S2]);
    destruct H as (st & -> & Ec); destruct F, F1; cbn in *; unfold restored, untagq; repeat split; cbn; congruence.
Qed.

(* the contract in terms of s1, the state after counting the call *)
Lemma rule_shape fuel r p s s1 a :
  wf s -> Inv (stack s) a -> inc_call s = Some s1 ->
  match exec cfg E fuel p (snd (rule_enter s1)), exec cfg E (S fuel) (PRule r p) s with
  | ROk sb, ROk s' =>
      pos s' = pos sb /\
      (if emits s1
       then exists body, untagq (queue sb) = body ++ QStart 0 (pos s1) :: untagq (queue s1) /\
                         untagq (queue s') = QEnd (length (queue s1)) r None (pos s') :: body ++
                                            QStart (S (length body + length (queue s1))) (pos s1) :: untagq (queue s1)
       else queue s' = queue sb)
  | RErr sb, RErr s' =>
      pos s' = pos sb /\ (if emits s1 then untagq (queue s') = untagq (queue s1) else queue s' = queue sb)
  | RPanic k, RPanic k' => k = k'
  | ROutOfFuel, ROutOfFuel => True
  | _, _ => False
  end.
Proof.
  intros W I Ei. rewrite (exec_bracket cfg E fuel (PRule r p) _ s eq_refl). cbn [guard b_counted b_body b_enter b_ok b_err]. rewrite Ei.
  destruct (inc_call_frame _ _ Ei) as (_ & St & Po & _ & In & _).
  destruct (rule_enter_spec s1) as (_ & Ri & _ & _ & Q & SQ). dsq SQ.
  set (fr := fst (rule_enter s1)) in *. set (s2 := snd (rule_enter s1)) in *.
  assert (W2 : wf s2) by (unfold wf in *; congruence).
  assert (I2 : Inv (stack s2) a) by (rewrite q_stack0, St; exact I).
  pose proof (exec_post cfg E fuel p s2 a W2 I2) as P.
  destruct (exec cfg E fuel p s2) as [sb|sb|k|]; cbn [bind]; auto; destruct P as (F & Wb & ab & Ib & Sb).
  - pose proof (rule_ok_post r s1 sb a ab Wb F Ib Sb) as PO. pose proof (rule_ok_shape r fr sb) as Sh. fold fr in PO.
    (* no panic: the frame lemma gives k <> PkInternal, the shape lemma k = PkInternal *)
    destruct (rule_ok r fr sb) as [y|y|k|]; auto.
    destruct Sh as (sb' & Eb & C). pose proof (tracked_same (lk_eqb (lookahead sb) LNeg) r fr sb) as T.
    set (sa := tracked _ r fr sb) in *. dtr T. unfold end_token in Eb.
    replace (emits sa) with (emits s1) in Eb by (unfold emits; rewrite t_la0, t_at0, (f_la _ _ F), (f_at _ _ F), q_la0, q_at0; reflexivity).
    rewrite (c_pos _ _ C), (c_queue _ _ C).
    destruct (emits s1).
    + destruct (f_queue _ _ F) as [body Eq]. rewrite Q in Eq. cbn [untagq map untag] in Eq. fold (untagq (queue s1)) in Eq.
      rewrite <- t_queue0 in Eq.
      destruct (set_start_end_ok (queue sa) body 0 (pos s1) (untagq (queue s1)) (length (queue sa)) Eq) as (q' & E1 & E2 & _).
      rewrite untagq_length, <- Ri in E1. rewrite E1 in Eb. injection Eb as <-.
      split; [exact t_pos0|]. exists body. split; [now rewrite <- t_queue0|].
      cbn. fold (untagq q'). rewrite E2, Ri. repeat f_equal.
      rewrite <- (untagq_length (queue sa)), Eq, app_length. cbn [length]. rewrite untagq_length. lia.
    + injection Eb as <-. split; congruence.
  - pose proof (rule_err_post r s1 sb a ab Wb F Ib Sb) as PO. pose proof (rule_err_shape r fr sb) as Sh. fold fr in PO.
    destruct (rule_err r fr sb) as [y|y|k|]; auto.
    destruct Sh as (sb' & C & ->). pose proof (tracked_same (negb (lk_eqb (lookahead sb) LNeg)) r fr sb) as T.
    set (sa := tracked _ r fr sb) in *. dtr T.
    replace (emits sb') with (emits s1)
      by (unfold emits; rewrite (c_la _ _ C), (c_at _ _ C), t_la0, t_at0, (f_la _ _ F), (f_at _ _ F), q_la0, q_at0; reflexivity).
    destruct (emits s1); cbn; (split; [rewrite (c_pos _ _ C); exact t_pos0|]); [|rewrite (c_queue _ _ C); exact t_queue0].
    destruct (f_queue _ _ F) as [body Eq]. rewrite Q in Eq. cbn [untagq map untag] in Eq. fold (untagq (queue s1)) in Eq.
    rewrite (c_queue _ _ C), t_queue0.
    apply (untagq_truncate_back (queue s1) (queue sb) _ (body ++ [QStart 0 (pos s1)])); [|exact Ri].
    rewrite Eq, <- app_assoc. reflexivity.
Qed.

(* rule(r, f): with s2 the state handed to the body (s after counting the call and, when the rule
   emits, pushing its Start token) and rb the body's result:
     - the rule succeeds iff the body does, fails iff the body fails;
     - if it emits (outside look-ahead and atomic mode) and succeeds, the queue afterwards is
       [old tokens] Start(-> index of End, pos s) [body tokens] End(-> index of Start, r, pos s');
     - if it emits and fails, the queue is the old one;
     - if it does not emit, the queue is whatever the body left (the rule adds nothing).        *)
Theorem rule_contract fuel r p s a :
  wf s -> Inv (stack s) a -> limit_reached s = false ->
  exists s2, queue s2 = (if emits s then QStart 0 (pos s) :: queue s else queue s) /\ pos s2 = pos s /\
  match exec cfg E fuel p s2, exec cfg E (S fuel) (PRule r p) s with
  | ROk sb, ROk s' =>
      pos s' = pos sb /\
      (if emits s
       then exists body, untagq (queue sb) = body ++ QStart 0 (pos s) :: untagq (queue s) /\
                         untagq (queue s') = QEnd (length (queue s)) r None (pos s') :: body ++
                                            QStart (S (length body + length (queue s))) (pos s) :: untagq (queue s)
       else queue s' = queue sb)
  | RErr sb, RErr s' =>
      pos s' = pos sb /\ (if emits s then untagq (queue s') = untagq (queue s) else queue s' = queue sb)
  | RPanic k, RPanic k' => k = k'
  | ROutOfFuel, ROutOfFuel => True
  | _, _ => False
  end.
Proof.
  intros W I LR. assert (Ei : exists s1, inc_call s = Some s1) by (unfold inc_call; rewrite LR; destruct (limit s); eauto).
  destruct Ei as [s1 Ei].
  pose proof (rule_shape fuel r p s s1 a W I Ei) as RS.
  destruct (inc_call_frame _ _ Ei) as (F1 & _ & Po & Qu & _).
  destruct (rule_enter_spec s1) as (_ & _ & _ & _ & Q & SQ).
  rewrite (emits_frame s s1 (f_la _ _ F1) (f_at _ _ F1)), Po, Qu in RS, Q.
  exists (snd (rule_enter s1)). split; [exact Q|]. split; [now rewrite (q_pos _ _ SQ)|exact RS].
Qed.

End Contracts.
