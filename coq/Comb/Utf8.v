(* Layer C proofs: UTF-8.  Encoding of code points, decode1 (encode c ++ l), valid strings, and
   the char boundaries of a valid string as the partial sums of the encoded lengths.  Everything is
   unbounded; code points range over all of [0, 0x110000). *)
From Coq Require Import List Arith NArith Bool Lia ZifyN ZifyBool.
Import ListNotations.
Require Import PV.Comb.PState PV.Comb.Bytes PV.Comb.Frame.

Arguments N.land : simpl never.
Arguments N.shiftr : simpl never.
Arguments N.add : simpl never.
Arguments N.mul : simpl never.
Arguments N.div : simpl never.
Arguments N.modulo : simpl never.
Arguments N.ltb : simpl never.
Arguments N.leb : simpl never.
Arguments N.eqb : simpl never.

Definition encode (c : N) : list byte :=
  if (c <? 128)%N then [c]
  else if (c <? 2048)%N then [(192 + c / 64)%N; (128 + c mod 64)%N]
  else if (c <? 65536)%N then [(224 + c / 4096)%N; (128 + (c / 64) mod 64)%N; (128 + c mod 64)%N]
  else [(240 + c / 262144)%N; (128 + (c / 4096) mod 64)%N; (128 + (c / 64) mod 64)%N; (128 + c mod 64)%N].

(* Unicode scalar values: [0, 0xD800) and [0xE000, 0x10FFFF] *)
Definition scalar (c : N) : Prop := (c < 55296)%N \/ (57344 <= c <= 1114111)%N.
Definition scalarb (c : N) : bool := (c <? 55296)%N || ((57344 <=? c)%N && (c <=? 1114111)%N).

Lemma scalarb_spec c : scalarb c = true <-> scalar c.
Proof. unfold scalarb, scalar. lia. Qed.

Lemma scalar_lt c : scalar c -> (c < 1114112)%N.
Proof. unfold scalar. lia. Qed.

Definition valid_utf8 (l : list byte) : Prop := exists cs, Forall scalar cs /\ l = flat_map encode cs.

(* length of a char from its first byte, as decode1 reads it *)
Definition clen (b : byte) : nat :=
  if (b <? 128)%N then 1 else if (b <? 224)%N then 2 else if (b <? 240)%N then 3 else 4.

Lemma encode_length c : 1 <= length (encode c) <= 4.
Proof. unfold encode. destruct (c <? 128)%N, (c <? 2048)%N, (c <? 65536)%N; cbn; lia. Qed.

Lemma encode_nonempty c : encode c <> [].
Proof. pose proof (encode_length c). destruct (encode c); [cbn in *; lia|discriminate]. Qed.

(* a byte is a tag in the high bits plus a payload below 2^n: masking with 2^n - 1 gives the payload back *)
Lemma land_payload k n x : (x < 2 ^ n)%N -> N.land (k * 2 ^ n + x) (N.ones n) = x.
Proof.
  intros H. rewrite N.land_ones, N.add_comm, N.mod_add, N.mod_small by (try apply N.pow_nonzero; easy). reflexivity.
Qed.

Lemma cont_payload x : (x < 64)%N -> N.land (128 + x) 63 = x.
Proof. exact (land_payload 2 6 x). Qed.

(* decode1 on a well-formed sequence, in terms of the payloads of its bytes: the comparisons of the leading
   byte with 128, 192, 224, 240 are false up to the one that recognises its tag *)
Lemma decode1_1 c r : (c < 128)%N -> decode1 (c :: r) = Some (c, 1).
Proof. intros H. cbn [decode1]. now rewrite (proj2 (N.ltb_lt _ _) H). Qed.

Lemma decode1_2 q x r : (q < 32)%N -> (x < 64)%N ->
  decode1 ((192 + q) :: (128 + x) :: r)%N = Some ((q * 64 + x)%N, 2).
Proof.
  intros Q X. cbn [decode1]. rewrite (land_payload 6 5 q Q : N.land (192 + q) 31 = q), cont_payload by exact X.
  now rewrite 2!(proj2 (N.ltb_ge _ _)), (proj2 (N.ltb_lt _ _)) by lia.
Qed.

Lemma decode1_3 q x y r : (q < 16)%N -> (x < 64)%N -> (y < 64)%N ->
  decode1 ((224 + q) :: (128 + x) :: (128 + y) :: r)%N = Some (((q * 64 + x) * 64 + y)%N, 3).
Proof.
  intros Q X Y. cbn [decode1]. rewrite (land_payload 14 4 q Q : N.land (224 + q) 15 = q), !cont_payload by assumption.
  now rewrite 3!(proj2 (N.ltb_ge _ _)), (proj2 (N.ltb_lt _ _)) by lia.
Qed.

Lemma decode1_4 q x y z r : (q < 8)%N -> (x < 64)%N -> (y < 64)%N -> (z < 64)%N ->
  decode1 ((240 + q) :: (128 + x) :: (128 + y) :: (128 + z) :: r)%N =
  Some ((((q * 64 + x) * 64 + y) * 64 + z)%N, 4).
Proof.
  intros Q X Y Z. cbn [decode1]. rewrite (land_payload 30 3 q Q : N.land (240 + q) 7 = q), !cont_payload by assumption.
  now rewrite 4!(proj2 (N.ltb_ge _ _)) by lia.
Qed.

Lemma decode1_lead b0 r c n : decode1 (b0 :: r) = Some (c, n) -> is_cont b0 = false /\ n = clen b0.
Proof.
  unfold decode1, clen, is_cont.
  destruct (N.ltb_spec b0 128); [intros [= _ <-]; split; [lia|reflexivity]|].
  destruct (N.ltb_spec b0 192); [discriminate|]. destruct (N.ltb_spec b0 224), (N.ltb_spec b0 240);
    destruct r as [|? [|? [|? ?]]]; intros [= _ <-]; (split; [lia|reflexivity]).
Qed.

Lemma sextet x : (x / 64 * 64 + x mod 64 = x)%N.
Proof. rewrite N.mul_comm. symmetry. apply N.div_mod'. Qed.

Lemma sextet_lt x : (x mod 64 < 64)%N.
Proof. now apply N.mod_lt. Qed.

(* decode1 inverts encode on every code point below 0x110000 (surrogates included: decode1 does not look) *)
Theorem decode1_encode c l : (c < 1114112)%N -> decode1 (encode c ++ l) = Some (c, length (encode c)).
Proof.
  intros H. unfold encode.
  destruct (N.ltb_spec c 128) as [H1|_]; [now apply decode1_1|].
  destruct (N.ltb_spec c 2048) as [H2|_].
  { cbn [app length]. rewrite decode1_2, sextet; [reflexivity| |apply sextet_lt].
    apply N.div_lt_upper_bound; [discriminate|exact H2]. }
  (* c / 4096 = c / 64 / 64 and c / 262144 = c / 64 / 64 / 64: the digits come off one at a time *)
  change 262144%N with (64 * (64 * 64))%N. change 4096%N with (64 * 64)%N. rewrite <- !N.div_div by easy.
  destruct (N.ltb_spec c 65536) as [H3|_]; cbn [app length].
  - rewrite decode1_3, !sextet; [reflexivity| |apply sextet_lt..].
    repeat (apply N.div_lt_upper_bound; [discriminate|]). exact H3.
  - rewrite decode1_4, !sextet; [reflexivity| |apply sextet_lt..].
    repeat (apply N.div_lt_upper_bound; [discriminate|]). now apply (N.lt_trans _ _ _ H).
Qed.

Corollary decode1_encode_scalar c l : scalar c -> decode1 (encode c ++ l) = Some (c, length (encode c)).
Proof. intros H. apply decode1_encode. now apply scalar_lt. Qed.

Lemma is_cont_payload x : (x < 64)%N -> is_cont (128 + x)%N = true.
Proof. unfold is_cont. lia. Qed.

Lemma encode_shape c : (c < 1114112)%N ->
  exists b0 t, encode c = b0 :: t /\ is_cont b0 = false /\ forallb is_cont t = true /\ length (encode c) = clen b0.
Proof.
  intros H. pose proof (decode1_encode c [] H) as D. rewrite app_nil_r in D. revert D. unfold encode.
  destruct (c <? 128)%N; [|destruct (c <? 2048)%N; [|destruct (c <? 65536)%N]];
    intros D; apply decode1_lead in D; destruct D as [C L]; eexists _, _; (split; [reflexivity|]);
    cbn [forallb]; rewrite ?is_cont_payload by apply sextet_lt; auto.
Qed.

Lemma encode_first_not_cont c : (c < 1114112)%N -> is_cont (hd 0%N (encode c)) = false.
Proof. intros H. destruct (encode_shape c H) as (b0 & t & -> & Hb & _). exact Hb. Qed.

Lemma encode_rest_cont c : (c < 1114112)%N -> forallb is_cont (tl (encode c)) = true.
Proof. intros H. destruct (encode_shape c H) as (b0 & t & -> & _ & Ht & _). exact Ht. Qed.

Lemma encode_nth_cont c i : (c < 1114112)%N -> 0 < i < length (encode c) -> is_cont (nth i (encode c) 0%N) = true.
Proof.
  intros H Hi. destruct (encode_shape c H) as (b0 & t & E & _ & Ht & _). rewrite E in *.
  destruct i as [|i]; [lia|]. cbn [nth]. cbn [length] in Hi.
  rewrite forallb_forall in Ht. apply Ht. apply nth_In. lia.
Qed.

Lemma valid_nil : valid_utf8 [].
Proof. exists []. split; [constructor|reflexivity]. Qed.

Lemma valid_cons c l : scalar c -> valid_utf8 l -> valid_utf8 (encode c ++ l).
Proof. intros Hc (cs & F & ->). exists (c :: cs). split; [constructor; auto|reflexivity]. Qed.

Lemma valid_ascii l : Forall (fun b => (b < 128)%N) l -> valid_utf8 l.
Proof.
  intros H. exists l. split.
  - eapply Forall_impl; [|exact H]. intros b Hb. left. cbn in Hb. lia.
  - induction H as [|b l Hb _ IH]; [reflexivity|]. cbn [flat_map]. rewrite <- IH. unfold encode.
    destruct (N.ltb_spec b 128); [reflexivity|lia].
Qed.

Lemma valid_inv l : valid_utf8 l -> l = [] \/ exists c l', scalar c /\ l = encode c ++ l' /\ valid_utf8 l'.
Proof.
  intros (cs & F & ->). destruct cs as [|c cs]; [left; reflexivity|right].
  inversion F; subst. exists c, (flat_map encode cs). split; [auto|]. split; [reflexivity|]. exists cs; auto.
Qed.

Lemma valid_ind (P : list byte -> Prop) :
  P [] -> (forall c l, scalar c -> valid_utf8 l -> P l -> P (encode c ++ l)) -> forall l, valid_utf8 l -> P l.
Proof.
  intros H0 HS l (cs & F & ->). induction F as [|c cs Hc F IH]; [exact H0|].
  cbn [flat_map]. apply HS; auto. exists cs; auto.
Qed.

Lemma valid_app a b : valid_utf8 a -> valid_utf8 b -> valid_utf8 (a ++ b).
Proof.
  intros (ca & Fa & ->) (cb & Fb & ->). exists (ca ++ cb). split; [apply Forall_app; auto|].
  now rewrite flat_map_app.
Qed.

Lemma valid_first_not_cont l : valid_utf8 l -> l <> [] -> is_cont (hd 0%N l) = false.
Proof.
  intros V N. destruct (valid_inv l V) as [->|(c & l' & Hc & -> & _)]; [congruence|].
  destruct (encode_shape c (scalar_lt c Hc)) as (b0 & t & -> & Hb & _). exact Hb.
Qed.

Lemma boundaryb_spec inp p :
  boundaryb inp p = true <-> p = length inp \/ (p < length inp /\ is_cont (nth p inp 0%N) = false).
Proof.
  unfold boundaryb. destruct (Nat.compare_spec p (length inp)) as [H|H|H].
  - split; auto.
  - rewrite negb_true_iff. split; [intros E; right; auto|intros [E|[_ E]]; [lia|exact E]].
  - split; [discriminate|lia].
Qed.

Lemma boundaryb_le inp p : boundaryb inp p = true -> p <= length inp.
Proof. rewrite boundaryb_spec. lia. Qed.

Lemma boundaryb_0 inp : valid_utf8 inp -> boundaryb inp 0 = true.
Proof.
  intros V. apply boundaryb_spec. destruct inp as [|b r]; [left; reflexivity|right].
  split; [cbn; lia|]. apply (valid_first_not_cont (b :: r) V). discriminate.
Qed.

Lemma boundaryb_len inp : boundaryb inp (length inp) = true.
Proof. apply boundaryb_spec. left; reflexivity. Qed.

Lemma boundaryb_app_ge a l p : length a <= p -> boundaryb (a ++ l) p = boundaryb l (p - length a).
Proof.
  intros H. unfold boundaryb. rewrite app_length, app_nth2 by lia.
  destruct (Nat.compare_spec p (length a + length l)), (Nat.compare_spec (p - length a) (length l)); try lia; reflexivity.
Qed.

Lemma boundaryb_inside c l p : (c < 1114112)%N -> 0 < p < length (encode c) -> boundaryb (encode c ++ l) p = false.
Proof.
  intros Hc Hp. apply not_true_iff_false. rewrite boundaryb_spec, app_length. intros [E|[_ E]]; [lia|].
  rewrite app_nth1 in E by lia. rewrite encode_nth_cont in E by auto. discriminate.
Qed.

Theorem boundary_iff cs p : Forall scalar cs ->
  (boundaryb (flat_map encode cs) p = true <-> exists k, p = length (flat_map encode (firstn k cs))).
Proof.
  intros F. revert p. induction F as [|c cs Hc F IH]; intros p.
  - cbn [flat_map]. rewrite boundaryb_spec. cbn [length]. split.
    + intros [->|[H _]]; [exists 0; reflexivity|lia].
    + intros [k ->]. left. destruct k; reflexivity.
  - cbn [flat_map]. pose proof (scalar_lt c Hc) as Lc. pose proof (encode_length c) as Le.
    destruct (Nat.eq_dec p 0) as [->|P0].
    { split; [intros _; exists 0; reflexivity|intros _]. apply boundaryb_0. apply valid_cons; auto. exists cs; auto. }
    destruct (Nat.lt_ge_cases p (length (encode c))) as [Lt|Ge].
    { rewrite boundaryb_inside by (auto; lia). split; [discriminate|]. intros [[|k] E]; [rewrite firstn_O in E; cbn [flat_map length] in E; lia|].
      rewrite firstn_cons in E. cbn [flat_map] in E. rewrite app_length in E. lia. }
    rewrite boundaryb_app_ge by exact Ge. rewrite IH. split.
    + intros [k E]. exists (S k). rewrite firstn_cons. cbn [flat_map]. rewrite app_length. lia.
    + intros [[|k] E]; [rewrite firstn_O in E; cbn [flat_map length] in E; lia|]. exists k.
      rewrite firstn_cons in E. cbn [flat_map] in E. rewrite app_length in E. lia.
Qed.

Lemma Forall_firstn' {A} (P : A -> Prop) n l : Forall P l -> Forall P (firstn n l).
Proof. intros H. rewrite <- (firstn_skipn n l) in H. apply Forall_app in H. tauto. Qed.
Lemma Forall_skipn' {A} (P : A -> Prop) n l : Forall P l -> Forall P (skipn n l).
Proof. intros H. rewrite <- (firstn_skipn n l) in H. apply Forall_app in H. tauto. Qed.

Lemma firstn_app_exact {A} (a b : list A) : firstn (length a) (a ++ b) = a.
Proof. rewrite <- (Nat.add_0_r (length a)), firstn_app_2, firstn_O. apply app_nil_r. Qed.

Lemma skipn_app_exact {A} (a b : list A) : skipn (length a) (a ++ b) = b.
Proof. rewrite skipn_app, skipn_all, Nat.sub_diag, skipn_O. reflexivity. Qed.

Lemma skipn_add {A} (p k : nat) (l : list A) : skipn (p + k) l = skipn k (skipn p l).
Proof.
  revert l. induction p as [|p IH]; intros l; [reflexivity|].
  destruct l as [|x l]; cbn [Nat.add]; [now rewrite !skipn_nil|rewrite !skipn_cons; apply IH].
Qed.

Lemma flat_map_firstn_skipn cs k :
  firstn (length (flat_map encode (firstn k cs))) (flat_map encode cs) = flat_map encode (firstn k cs) /\
  skipn (length (flat_map encode (firstn k cs))) (flat_map encode cs) = flat_map encode (skipn k cs).
Proof.
  rewrite <- (firstn_skipn k cs) at 2 5. rewrite flat_map_app. split; [apply firstn_app_exact|apply skipn_app_exact].
Qed.

Lemma boundary_split inp p : valid_utf8 inp -> boundaryb inp p = true ->
  valid_utf8 (firstn p inp) /\ valid_utf8 (skipn p inp).
Proof.
  intros (cs & F & ->) B. apply (boundary_iff cs p F) in B. destruct B as [k ->].
  destruct (flat_map_firstn_skipn cs k) as [-> ->]. split; eexists; (split; [|reflexivity]).
  - now apply Forall_firstn'.
  - now apply Forall_skipn'.
Qed.

Lemma boundary_join a b : valid_utf8 b -> boundaryb (a ++ b) (length a) = true.
Proof.
  intros V. rewrite boundaryb_app_ge, Nat.sub_diag by lia. now apply boundaryb_0.
Qed.

Lemma boundary_shift inp p q : p <= length inp -> p <= q -> boundaryb inp q = boundaryb (skipn p inp) (q - p).
Proof.
  intros L H. rewrite <- (firstn_skipn p inp) at 1. rewrite boundaryb_app_ge; rewrite firstn_length_le by lia; auto.
Qed.

(* what stack_push stores: a slice between two boundaries *)
Lemma valid_slice inp p q : valid_utf8 inp -> boundaryb inp p = true -> boundaryb inp q = true -> p <= q ->
  valid_utf8 (firstn (q - p) (skipn p inp)).
Proof.
  intros V Bp Bq H. destruct (boundary_split inp p V Bp) as [_ V2].
  rewrite (boundary_shift inp p q (boundaryb_le _ _ Bp) H) in Bq. now apply (boundary_split _ _ V2 Bq).
Qed.

(* sanity: the standard encodings of U+0041, U+00E9, U+20AC, U+1F600, and the extremes of each length *)
Example encode_samples :
  encode 65 = [65]%N /\ encode 233 = [195; 169]%N /\ encode 8364 = [226; 130; 172]%N /\
  encode 128512 = [240; 159; 152; 128]%N /\ encode 127 = [127]%N /\ encode 128 = [194; 128]%N /\
  encode 2047 = [223; 191]%N /\ encode 2048 = [224; 160; 128]%N /\ encode 65535 = [239; 191; 191]%N /\
  encode 65536 = [240; 144; 128; 128]%N /\ encode 1114111 = [244; 143; 191; 191]%N.
Proof. vm_compute. repeat split. Qed.
