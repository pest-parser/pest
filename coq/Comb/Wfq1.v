(* C04, parser half, part 1: the bridge between the token queue of the parser state
   (PV.Comb.PState, a reversed list: head = last pushed token) and the token streams / forests of
   PV.Iter.Queue.

   The frame theorem and the rule contract of Frame.v/Contracts.v speak about queues up to node tags
   (`untagq`); hence `ustream`, the stream with every tag erased, and `retag`: erasing tags does not
   change the shape, so a stream whose tag-erasure is `tokens_at b f` is itself some `tokens_at b f'`.
   `D bnd s s'` ("delta"): between s and s' the queue grew by the tokens of a CLOSED forest f placed at
   absolute index |queue s| (old tokens changed at most in tags), the spans of f are nested inside
   [pos s, pos s'] and every position of f satisfies `bnd (input s)`.
   Names: after the imports below the short names qtoken/QStart/QEnd are those of PState; the Iter ones
   are written Queue.qtoken/Queue.QStart/Queue.QEnd. *)
From Coq Require Import List Arith NArith ZArith Bool Lia.
Import ListNotations.
Require Import PV.Iter.Queue PV.Iter.QueueFacts.
Require Import PV.Stack.Model PV.Stack.Proofs PV.Comb.PState PV.Comb.Bytes PV.Comb.Prog PV.Comb.Exec PV.Comb.ExecInd PV.Comb.Frame PV.Comb.Contracts PV.Comb.Detail PV.Comb.DetailProofs.

Arguments Nat.mul : simpl never.

Definition conv (t : qtoken) : Queue.qtoken :=
  match t with
  | QStart e p => Queue.QStart e p
  | QEnd si r tg p => Queue.QEnd si r tg p
  end.
Definition iuntag (t : Queue.qtoken) : Queue.qtoken :=
  match t with Queue.QEnd si r _ p => Queue.QEnd si r None p | x => x end.
Definition stream (q : list qtoken) : list Queue.qtoken := map conv (rev q).
Definition ustream (q : list qtoken) : list Queue.qtoken := map iuntag (stream q).

Lemma iuntag_conv_untag t : iuntag (conv (untag t)) = iuntag (conv t).
Proof. destruct t; reflexivity. Qed.

Lemma qpos_iuntag t : qpos (iuntag t) = qpos t.
Proof. destruct t; reflexivity. Qed.

Lemma ustream_untagq q : ustream (untagq q) = ustream q.
Proof.
  unfold ustream, stream, untagq. rewrite <- map_rev, !map_map. apply map_ext. intros t. apply iuntag_conv_untag.
Qed.

Lemma ustream_app a b : ustream (a ++ b) = ustream b ++ ustream a.
Proof. unfold ustream, stream. rewrite rev_app_distr, !map_app. reflexivity. Qed.

Lemma ustream_cons t q : ustream (t :: q) = ustream q ++ [iuntag (conv t)].
Proof. unfold ustream, stream. cbn [rev]. rewrite !map_app. reflexivity. Qed.

Lemma length_ustream q : length (ustream q) = length q.
Proof. unfold ustream, stream. rewrite !map_length, rev_length. reflexivity. Qed.

Lemma ustream_ueq q q' : untagq q = untagq q' -> ustream q = ustream q'.
Proof. intros H. rewrite <- (ustream_untagq q), H. apply ustream_untagq. Qed.

Lemma map_qpos_ustream q : map qpos (ustream q) = map qpos (stream q).
Proof. unfold ustream. rewrite map_map. apply map_ext. intros t. apply qpos_iuntag. Qed.

Lemma iuntag_start t e p : iuntag t = Queue.QStart e p -> t = Queue.QStart e p.
Proof. destruct t; cbn; congruence. Qed.

Lemma iuntag_end t si r tg p : iuntag t = Queue.QEnd si r tg p -> exists tg', t = Queue.QEnd si r tg' p.
Proof. destruct t; cbn; [discriminate|]. intros H. inversion H; subst. eexists; reflexivity. Qed.

Lemma retag f : forall b l, map iuntag l = tokens_at b f -> exists f', l = tokens_at b f'.
Proof.
  induction f as [|r tg s e ch f IHc IHf] using forest_ind; intros b l H.
  - cbn [tokens_at] in H. apply map_eq_nil in H. subst l. exists []. reflexivity.
  - rewrite tokens_at_cons in H.
    apply map_eq_cons in H. destruct H as (x & l1 & -> & Hx & H).
    apply map_eq_app in H. destruct H as (lc & l2 & -> & Hc & H).
    apply map_eq_cons in H. destruct H as (y & lf & -> & Hy & Hf).
    apply iuntag_start in Hx. subst x. apply iuntag_end in Hy. destruct Hy as [tg' ->].
    destruct (IHc _ _ Hc) as [ch' Ec]. destruct (IHf _ _ Hf) as [f' Ef]. subst lc lf.
    assert (L : fsize ch' = fsize ch).
    { apply (f_equal (@length _)) in Hc. rewrite map_length, !length_tokens_at in Hc. lia. }
    exists (Node r tg' s e ch' :: f'). rewrite tokens_at_cons, L. reflexivity.
Qed.

Lemma fnested_app a f1 b f2 c : fnested a f1 b -> fnested b f2 c -> fnested a (f1 ++ f2) c.
Proof.
  intros H1. revert c. induction H1 as [lo hi H|lo hi r tg s e ch f H Hc _ Hf IHf]; intros c H2.
  - cbn [app]. apply (fnested_weaken hi lo c c); [exact H|apply Nat.le_refl|exact H2].
  - cbn [app]. constructor; [exact H|exact Hc|apply IHf; exact H2].
Qed.

Lemma fnested_bounds lo f hi : fnested lo f hi -> Forall (fun x => lo <= x <= hi) (fposl f).
Proof.
  induction 1 as [lo hi H|lo hi r tg s e ch f H Hc IHc Hf IHf]; [constructor|].
  rewrite fposl_cons. pose proof (fnested_le _ _ _ Hc) as L1. pose proof (fnested_le _ _ _ Hf) as L2.
  constructor; [lia|]. apply Forall_app. split.
  - eapply Forall_impl; [|exact IHc]. cbn. intros x Hx; lia.
  - constructor; [lia|]. eapply Forall_impl; [|exact IHf]. cbn. intros x Hx; lia.
Qed.

Definition D (bnd : list byte -> nat -> bool) (s s' : pst) : Prop :=
  exists f, ustream (queue s') = ustream (queue s) ++ tokens_at (length (queue s)) f /\
            fnested (pos s) f (pos s') /\
            Forall (fun p => bnd (input s) p = true) (fposl f).

Lemma D_nil bnd s s' : untagq (queue s') = untagq (queue s) -> pos s <= pos s' -> D bnd s s'.
Proof.
  intros Q P. exists []. cbn [tokens_at fposl]. rewrite app_nil_r.
  split; [apply ustream_ueq; exact Q|]. split; constructor. exact P.
Qed.

(* D looks only at queue, position and input of the first state, queue and position of the second *)
Lemma D_ext bnd s t x y :
  queue s = queue t -> pos s = pos t -> input s = input t -> queue y = queue x -> pos y = pos x ->
  D bnd s x -> D bnd t y.
Proof. unfold D. now intros <- <- <- -> ->. Qed.

Lemma D_trans bnd s1 s2 s3 : D bnd s1 s2 -> D bnd s2 s3 -> input s2 = input s1 -> D bnd s1 s3.
Proof.
  intros (f1 & A1 & B1 & C1) (f2 & A2 & B2 & C2) I. exists (f1 ++ f2). split; [|split].
  - assert (L : length (queue s2) = length (queue s1) + 2 * fsize f1).
    { rewrite <- (length_ustream (queue s2)), A1, app_length, length_ustream, length_tokens_at. reflexivity. }
    rewrite A2, A1, L, tokens_at_app, <- app_assoc. reflexivity.
  - eapply fnested_app; [exact B1|exact B2].
  - rewrite fposl_app. apply Forall_app. split; [exact C1|rewrite <- I; exact C2].
Qed.

(* closing a rule: Start pushed at entry (s1 -> s2), closed forest `ch` emitted by the body (s2 -> sb),
   then the Start gets its End index and the End token is pushed (sb -> s'): one more tree *)
Lemma D_rule bnd s1 s2 sb s' r body :
  queue s2 = QStart 0 (pos s1) :: queue s1 -> pos s2 = pos s1 -> input s2 = input s1 ->
  D bnd s2 sb ->
  untagq (queue sb) = body ++ QStart 0 (pos s1) :: untagq (queue s1) ->
  untagq (queue s') = QEnd (length (queue s1)) r None (pos s') :: body ++
                      QStart (S (length body + length (queue s1))) (pos s1) :: untagq (queue s1) ->
  pos s' = pos sb -> bnd (input s1) (pos s1) = true -> bnd (input s1) (pos s') = true ->
  D bnd s1 s'.
Proof.
  intros Q2 P2 I2 (ch & A & B & C) Eb Es Ps B1 B2.
  assert (Hb : ustream body = tokens_at (S (length (queue s1))) ch).
  { rewrite <- (ustream_untagq (queue sb)), Eb in A. rewrite Q2 in A. cbn [length] in A.
    rewrite ustream_app, !ustream_cons, ustream_untagq in A.
    apply app_inv_head in A. exact A. }
  assert (Lb : length body = 2 * fsize ch).
  { rewrite <- (length_ustream body), Hb. apply length_tokens_at. }
  exists [Node r None (pos s1) (pos s') ch]. split; [|split].
  - rewrite <- (ustream_untagq (queue s')), Es.
    rewrite ustream_cons, ustream_app, ustream_cons, ustream_untagq, Hb, Lb.
    rewrite tokens_at_cons. cbn [tokens_at conv iuntag]. rewrite <- !app_assoc. cbn [app].
    replace (S (2 * fsize ch + length (queue s1))) with (S (length (queue s1)) + 2 * fsize ch) by lia.
    reflexivity.
  - constructor; [apply Nat.le_refl| |constructor; apply Nat.le_refl].
    rewrite <- P2, Ps. exact B.
  - rewrite fposl_cons. cbn [fposl]. constructor; [exact B1|]. apply Forall_app. split.
    + rewrite <- I2. exact C.
    + constructor; [exact B2|constructor].
Qed.

(* primitives never change the queue except for the tag of its last token *)
Lemma exec_prim_ueq cfg o s : res_all (fun x => untagq (queue x) = untagq (queue s)) (exec_prim cfg o s).
Proof.
  rewrite exec_prim_act. destruct (prim_act cfg o (input s) (pos s) (stack s)) as [k|st r t|t]; cbn [run_act].
  - exact I.
  - generalize (apply_pres_quiet (set_stack s st) r t). apply res_all_imp. cbn. now intros x ->.
  - unfold tag_node. destruct (negb (lk_eqb (lookahead s) LNone)); [reflexivity|].
    destruct (queue s) as [|[e p|si r tg p] q] eqn:Q0; cbn; rewrite ?Q0; reflexivity.
Qed.
