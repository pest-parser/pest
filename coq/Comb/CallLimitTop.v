(* Layer C proofs (C12): the statements of coq/props/C12.v, proved.
   The Definitions here are repeated verbatim in props/C12.v; the theorems of that file are closed
   by `exact` with the lemmas below. *)
From Coq Require Import List Arith NArith Bool.
Import ListNotations.
Require Import PV.Comb.PState PV.Comb.Bytes PV.Comb.Prog PV.Comb.Exec PV.Comb.CallComm PV.Comb.CallLimit.

Definition c12_case (cfg : config) (E : env) (p : prog) (inp : list byte) (detail : bool) (L f1 f2 : nat) : Prop :=
  let a := parse_with cfg E f1 p inp (Some L) detail in
  let b := parse_with cfg E f2 p inp None detail in
  a <> OOutOfFuel -> b <> OOutOfFuel ->
  (a = b \/ exists ap, a = OCallLimit ap) /\
  (completes a -> forall L' f3, L <= L' ->
     parse_with cfg E f3 p inp (Some L') detail <> OOutOfFuel ->
     parse_with cfg E f3 p inp (Some L') detail = a).

Definition absorbed_class cfg E p inp detail L f1 : Prop := absorbed cfg E f1 p inp L detail = true.
Definition panic_class cfg E p inp detail L f1 : Prop := parse_with cfg E f1 p inp (Some L) detail = OPanic.

Definition shipped : config := {| memchr := true; fixed3 := true; fixedlim := false |}.
Definition repaired : config := {| memchr := true; fixed3 := true; fixedlim := true |}.

(* rule 0 = repeat(rule 1 = match_string "x") on "xxxx" *)
Definition w_prog : prog := PRule 0 (PRepeat (PRule 1 (PPrim (MMatchString [120%N])))).
Definition w_input : list byte := [120; 120; 120; 120]%N.
Definition w_env : env := fun _ => None.
(* optional(optional(push_literal "a")) ; stack_pop   on "a" *)
Definition wp_prog : prog :=
  PAndThen (POptional (POptional (PPrim (MStackPushLit [97%N])))) (PPrim MStackPop).

(* repeat(or_else(sequence(push_literal "q" ; "a"), stack_match_peek)) on "aab": under limit 1 the sequence
   is refused, or_else falls through to stack_match_peek, which matches the empty stack without consuming:
   the loop never ends, although the unlimited parse does *)
Definition wd_prog : prog :=
  PRepeat (POrElse (PSequence (PAndThen (PPrim (MStackPushLit [113%N])) (PPrim (MMatchString [97%N])))) (PPrim MStackMatchPeek)).
Definition wd_input : list byte := [97; 97; 98]%N.

(* limit 3: Ok with one pair instead of four *)
Lemma c12_refuted :
  exists E p inp detail L f,
    let a := parse_with shipped E f p inp (Some L) detail in
    let b := parse_with shipped E f p inp None detail in
    completes a /\ completes b /\ a <> b.
Proof.
  exists w_env, w_prog, w_input, false, 3, 20. vm_compute.
  split; [exact I|split; [exact I|discriminate]].
Qed.

Lemma c12_shipped_not_statement :
  ~ (forall E p inp detail L f1 f2, c12_case shipped E p inp detail L f1 f2).
Proof.
  intros H. pose proof (H w_env w_prog w_input false 3 20 20) as H1. unfold c12_case in H1.
  assert (N1 : parse_with shipped w_env 20 w_prog w_input (Some 3) false <> OOutOfFuel) by (vm_compute; discriminate).
  assert (N2 : parse_with shipped w_env 20 w_prog w_input None false <> OOutOfFuel) by (vm_compute; discriminate).
  destruct (H1 N1 N2) as [[D|[ap D]] _]; vm_compute in D; discriminate.
Qed.

Lemma c12_shipped_outside_classes :
  forall cfg E p inp detail L f1 f2,
    ~ absorbed_class cfg E p inp detail L f1 -> ~ panic_class cfg E p inp detail L f1 ->
    c12_case cfg E p inp detail L f1 f2.
Proof.
  intros cfg E p inp detail L f1 f2 NA NP Ha Hb. unfold absorbed_class in NA. unfold panic_class in NP.
  apply not_true_is_false in NA. split.
  - destruct (limit_result_general cfg E p inp detail L f1 f2 Ha Hb) as [D|[D|[D|[_ D]]]]; auto; congruence.
  - intros Hc L' f3 HL Hf.
    apply (completion_stable_general cfg E p inp detail L (Some L') f1 f3); auto. split; auto.
Qed.

Lemma c12_repaired :
  forall cfg, fixedlim cfg = true ->
  forall E p inp detail L f1 f2,
    ~ panic_class cfg E p inp detail L f1 -> c12_case cfg E p inp detail L f1 f2.
Proof.
  intros cfg F E p inp detail L f1 f2 NP Ha Hb. unfold panic_class in NP. split.
  - destruct (limit_result_general cfg E p inp detail L f1 f2 Ha Hb) as [D|[D|[D|[D _]]]]; auto; congruence.
  - intros Hc L' f3 HL Hf.
    apply (completion_stable_general cfg E p inp detail L (Some L') f1 f3); auto.
    + split; auto.
    + now apply completes_not_absorbed.
Qed.

(* the same, as one disjunction without a class hypothesis *)
Lemma c12_repaired_trichotomy :
  forall cfg, fixedlim cfg = true ->
  forall E p inp detail L f1 f2,
    let a := parse_with cfg E f1 p inp (Some L) detail in
    let b := parse_with cfg E f2 p inp None detail in
    a <> OOutOfFuel -> b <> OOutOfFuel ->
    a = b \/ (exists ap, a = OCallLimit ap) \/ a = OPanic.
Proof.
  intros cfg F E p inp detail L f1 f2 a b Ha Hb.
  destruct (limit_result_general cfg E p inp detail L f1 f2 Ha Hb) as [D|[D|[D|[D _]]]]; auto; congruence.
Qed.

Lemma c12_panic_class_inhabited :
  exists E p inp detail L f,
    parse_with repaired E f p inp (Some L) detail = OPanic /\
    completes (parse_with repaired E f p inp None detail).
Proof. exists w_env, wp_prog, [97%N], false, 1, 20. vm_compute. split; [reflexivity|exact I]. Qed.

Lemma c12_lemmas :
  (forall cfg E fuel p s, res_cl s (exec cfg E fuel p s)) /\
  (forall cfg E fuel p s, limit_reached s = true -> res_reached (exec cfg E fuel p s)) /\
  (forall cfg E f f' p s, f <= f' -> exec cfg E f p s <> ROutOfFuel -> exec cfg E f' p s = exec cfg E f p s) /\
  (forall cfg E L l fuel p sA c, limit sA = Some L -> lax L (calls sA) c l ->
     simpost L l (exec cfg E fuel p sA) (exec cfg E fuel p (recl sA c l))).
Proof.
  split; [exact exec_cl|]. split; [exact refusal_sticky|]. split; [exact exec_mono|exact under_limit_simulation].
Qed.
