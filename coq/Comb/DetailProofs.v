(* Layer C, C15 part 2: proofs.
   exec_erase: for EVERY program, state and fuel, running on the erased state gives the erased result
   (the core never reads the detail fields; the detail bookkeeping never panics because the number of
   call stacks remembered by rule() is <= the current number unless max_position grew).            *)
From Coq Require Import List Arith NArith ZArith Bool Lia.
Import ListNotations.
Require Import PV.Stack.Model PV.Stack.Proofs PV.Comb.PState PV.Comb.Bytes PV.Comb.Prog PV.Comb.Exec PV.Comb.ExecInd PV.Comb.Frame PV.Comb.Detail.

Lemma res_all_imp (P R : pst -> Prop) r : (forall x, P x -> R x) -> res_all P r -> res_all R r.
Proof. destruct r; cbn; auto. Qed.

Lemma res_all_bind (P Q : pst -> Prop) r kOk kErr :
  res_all P r -> (forall s', P s' -> res_all Q (kOk s')) -> (forall s', P s' -> res_all Q (kErr s')) ->
  res_all Q (bind r kOk kErr).
Proof. destruct r; cbn; auto. Qed.

Lemma res_all_and (P Q : pst -> Prop) r : res_all P r -> res_all Q r -> res_all (fun s => P s /\ Q s) r.
Proof. destruct r; cbn; auto. Qed.

Lemma res_all_lift (P : pst -> Prop) (k : pst -> res) (o : option pst) :
  (forall x, k x = ROk x \/ k x = RErr x) -> (forall x, o = Some x -> P x) -> res_all P (lift k o).
Proof. intros K H. destruct o as [x|]; cbn; [|exact I]. destruct (K x) as [-> | ->]; cbn; auto. Qed.

(* dle: the detail order (switch and input constant, max_position and the call-stack count monotone as in
   frame); dpost: it holds of a result; dsame: the four observations are equal *)
Definition dle (s s' : pst) : Prop :=
  pa_enabled s' = pa_enabled s /\ pa_mono s s' /\ input s' = input s.
Definition dpost (s : pst) (r : res) : Prop := res_all (dle s) r.

Lemma dle_refl s : dle s s.
Proof. split; [reflexivity|split; [apply pa_mono_refl|reflexivity]]. Qed.

Lemma pa_mono_trans a b c : pa_mono a b -> pa_mono b c -> pa_mono a c.
Proof. unfold pa_mono. intros [H1 H2] [H3 H4]. split; [lia|]. intros H. assert (max_position b = max_position a) by lia.
  assert (max_position c = max_position b) by lia. specialize (H2 H0). specialize (H4 H5). lia. Qed.

Lemma dle_trans a b c : dle a b -> dle b c -> dle a c.
Proof. intros (A1 & A2 & A3) (B1 & B2 & B3). split; [congruence|split; [eapply pa_mono_trans; eauto|congruence]]. Qed.

Definition dsame (s s' : pst) : Prop :=
  pa_enabled s' = pa_enabled s /\ max_position s' = max_position s /\ call_stacks s' = call_stacks s /\ input s' = input s.
Lemma dsame_dle s s' : dsame s s' -> dle s s'.
Proof. intros (A & B & C & D). split; [auto|split; [|auto]]. split; [lia|]. intros _. rewrite C. lia. Qed.
Lemma dle_dsame_r a b c : dle a b -> dsame b c -> dle a c.
Proof. intros H1 H2. apply (dle_trans a b c); [exact H1|now apply dsame_dle]. Qed.
Lemma dle_dsame_l a b c : dsame a b -> dle b c -> dle a c.
Proof. intros H1 H2. apply (dle_trans a b c); [now apply dsame_dle|exact H2]. Qed.

Lemma same_core_erase s s' : same_core s s' -> erase_detail s' = erase_detail s.
Proof.
  intros [e1 e2 e3 e4 e5 e6 e7 e8 e9 e10 e11 _]. unfold erase_detail.
  rewrite e1, e2, e3, e4, e5, e6, e7, e8, e9, e10, e11. reflexivity.
Qed.

Lemma same_core_dle s s' : same_core s s' -> pa_mono s s' -> dle s s'.
Proof. intros [] M. split; [auto|split; auto]. Qed.

Lemma map_res_dpost s r : dpost s r -> forall s', r = ROk s' \/ r = RErr s' -> dle s s'.
Proof. intros D s' [-> | ->]; exact D. Qed.

Lemma inc_call_erase s : inc_call (erase_detail s) = option_map erase_detail (inc_call s).
Proof.
  unfold inc_call, limit_reached. cbn [erase_detail limit calls].
  destruct (limit s) as [l|]; [destruct (Nat.leb l (calls s))|]; reflexivity.
Qed.

Lemma inc_call_dsame s s1 : inc_call s = Some s1 -> dsame s s1.
Proof.
  unfold inc_call. destruct (limit_reached s); [discriminate|].
  destruct (limit s); intros [= <-]; repeat split.
Qed.

Lemma track_erase s r p a b c : track (erase_detail s) r p a b c = erase_detail (track s r p a b c).
Proof.
  unfold track, attempts_at. cbn [erase_detail atomicity attempt_pos pos_attempts neg_attempts lookahead].
  destruct (atom_eqb (atomicity s) Atomic); [reflexivity|].
  destruct (_ && _); [reflexivity|].
  destruct (Nat.eqb p (attempt_pos s)) eqn:E1; cbn; destruct (Nat.ltb (attempt_pos s) p) eqn:E2; cbn;
    try rewrite E1; try rewrite Nat.eqb_refl; cbn; destruct (lk_eqb (lookahead s) LNeg); reflexivity.
Qed.

Lemma track_dsame s r p a b c : dsame s (track s r p a b c).
Proof. destruct (track_same s r p a b c). repeat split; auto. Qed.

Lemma emits_erase s : emits (erase_detail s) = emits s.
Proof. reflexivity. Qed.

Lemma rule_enter_erase s :
  snd (rule_enter (erase_detail s)) = erase_detail (snd (rule_enter s)) /\
  fr_core_eq (fst (rule_enter s)) (fst (rule_enter (erase_detail s))).
Proof.
  unfold rule_enter, fr_core_eq. cbn [erase_detail pos attempt_pos pos_attempts neg_attempts queue].
  rewrite emits_erase.
  destruct (Nat.eqb (pos s) (attempt_pos s)); destruct (emits s); cbn; repeat split; reflexivity.
Qed.

Lemma rule_enter_dsame s : dsame s (snd (rule_enter s)).
Proof. destruct (rule_enter_spec s) as (_ & _ & _ & _ & _ & []). repeat split; auto. Qed.

Lemma handle_token_erase x sp tk b :
  erase_detail (handle_token_parse_result x sp tk b) = erase_detail x /\ dle x (handle_token_parse_result x sp tk b).
Proof.
  destruct (handle_token_core x sp tk b) as [C M]. split; [now apply same_core_erase|now apply same_core_dle].
Qed.

Lemma dsame_set_pos s p : dsame s (set_pos s p).
Proof. repeat split. Qed.
Lemma dsame_set_stack s st : dsame s (set_stack s st).
Proof. repeat split. Qed.
Lemma dsame_set_queue s q : dsame s (set_queue s q).
Proof. repeat split. Qed.
Lemma dsame_set_atomicity s a : dsame s (set_atomicity s a).
Proof. repeat split. Qed.
Lemma dsame_refl s : dsame s s.
Proof. repeat split. Qed.

Lemma apply_pres_erase s r t :
  map_res erase_detail (apply_pres s r t) = apply_pres (erase_detail s) r t /\ dpost s (apply_pres s r t).
Proof.
  unfold apply_pres. cbn [erase_detail pa_enabled pos]. destruct r as [p| |]; cbn [map_res dpost res_all].
  - destruct t as [tk|]; [destruct (pa_enabled s)|].
    + destruct (handle_token_erase (set_pos s p) (pos s) tk true) as [H1 H2]. rewrite H1. split; [reflexivity|].
      apply (dle_dsame_l s (set_pos s p)); [apply dsame_set_pos|exact H2].
    + split; [reflexivity|apply dsame_dle, dsame_set_pos].
    + split; [reflexivity|apply dsame_dle, dsame_set_pos].
  - destruct t as [tk|]; [destruct (pa_enabled s)|].
    + destruct (handle_token_erase s (pos s) tk false) as [H1 H2]. rewrite H1. split; [reflexivity|exact H2].
    + split; [reflexivity|apply dle_refl].
    + split; [reflexivity|apply dle_refl].
  - split; [reflexivity|exact I].
Qed.

Lemma dpost_dsame_l a b r : dsame a b -> dpost b r -> dpost a r.
Proof. intros H. destruct r; cbn; auto; intros D; eapply dle_dsame_l; eauto. Qed.

Lemma exec_prim_erase cfg o s :
  map_res erase_detail (exec_prim cfg o s) = exec_prim cfg o (erase_detail s) /\ dpost s (exec_prim cfg o s).
Proof.
  rewrite !exec_prim_act.
  change (prim_act cfg o (input (erase_detail s)) (pos (erase_detail s)) (stack (erase_detail s)))
    with (prim_act cfg o (input s) (pos s) (stack s)).
  destruct (prim_act cfg o (input s) (pos s) (stack s)) as [k|st r t|t]; cbn [run_act].
  - split; [reflexivity|exact I].
  - destruct (apply_pres_erase (set_stack s st) r t) as [H1 H2]. split; [exact H1|].
    eapply dpost_dsame_l; [apply dsame_set_stack|exact H2].
  - unfold tag_node. cbn [erase_detail lookahead queue].
    destruct (negb (lk_eqb (lookahead s) LNone)); [split; [reflexivity|apply dle_refl]|].
    destruct (queue s) as [|[e p|si r tg p] q]; (split; [reflexivity|]); try apply dle_refl.
    apply dsame_dle, dsame_set_queue.
Qed.

Definition csn_cond (fr : rule_frame) (s : pst) : Prop :=
  (if Nat.ltb (rf_max fr) (max_position s) then 0 else rf_csn fr) <= length (call_stacks s).

(* what rule_ok / rule_err guarantee about the detail fields of their result *)
Definition rule_exit (fr : rule_frame) (s' : pst) (r : res) : Prop :=
  res_all (fun x => pa_enabled x = pa_enabled s' /\ max_position x = max_position s' /\ input x = input s' /\ csn_cond fr x) r.

Lemma add_rule_good s rule fr : csn_cond fr s ->
  exists s3, (if pa_enabled s then try_add_rule_to_stack s rule (rf_csn fr) (rf_max fr) else Some s) = Some s3 /\
             erase_detail s3 = erase_detail s /\
             pa_enabled s3 = pa_enabled s /\ max_position s3 = max_position s /\ input s3 = input s /\ csn_cond fr s3.
Proof.
  intros H. destruct (add_rule_ok s rule (rf_csn fr) (rf_max fr) H) as (s3 & E & C & M & K).
  exists s3. split; [exact E|]. split; [now apply same_core_erase|]. destruct C.
  split; [auto|]. split; [auto|]. split; [auto|]. unfold csn_cond. rewrite M. exact K.
Qed.

Lemma rule_ok_erase rule fr fr' s' : fr_core_eq fr fr' -> csn_cond fr s' ->
  map_res erase_detail (rule_ok rule fr s') = rule_ok rule fr' (erase_detail s') /\ rule_exit fr s' (rule_ok rule fr s').
Proof.
  intros (Ep & Ei & Ea & En & Et) CS. unfold rule_ok. cbn [erase_detail lookahead].
  rewrite <- Ep, <- Ei, <- Ea, <- En, <- Et.
  set (sa := if lk_eqb (lookahead s') LNeg then track s' rule (rf_pos fr) (rf_pai fr) (rf_nai fr) (rf_attempts fr) else s').
  assert (Ha : (if lk_eqb (lookahead s') LNeg then track (erase_detail s') rule (rf_pos fr) (rf_pai fr) (rf_nai fr) (rf_attempts fr)
                else erase_detail s') = erase_detail sa).
  { unfold sa. destruct (lk_eqb (lookahead s') LNeg); [apply track_erase|reflexivity]. }
  rewrite Ha. clear Ha.
  assert (Da : dsame s' sa) by (unfold sa; destruct (lk_eqb (lookahead s') LNeg); [apply track_dsame|apply dsame_refl]).
  destruct Da as (D1 & D2 & D3 & D4).
  assert (CSa : csn_cond fr sa) by (unfold csn_cond in *; rewrite D2, D3; exact CS).
  rewrite emits_erase. cbn [erase_detail queue pos].
  destruct (emits sa).
  - destruct (set_start_end (queue sa) (rf_index fr) (length (queue sa))) as [q|]; [|split; [reflexivity|exact I]].
    set (sb := set_queue sa (QEnd (rf_index fr) rule None (pos sa) :: q)).
    change (set_queue (erase_detail sa) (QEnd (rf_index fr) rule None (pos sa) :: q)) with (erase_detail sb).
    cbn [erase_detail pa_enabled].
    change (pa_enabled sb) with (pa_enabled sa).
    destruct (add_rule_good sb rule fr CSa) as (s3 & E3 & Er & P3 & M3 & I3 & C3). change (pa_enabled sb) with (pa_enabled sa) in E3.
    replace (if pa_enabled sa then lift ROk (try_add_rule_to_stack sb rule (rf_csn fr) (rf_max fr)) else ROk sb) with (ROk s3)
      by (destruct (pa_enabled sa); [rewrite E3; reflexivity|congruence]).
    cbn [map_res]. rewrite Er. split; [reflexivity|].
    unfold sb in P3, M3, I3. cbn in P3, M3, I3. cbn. repeat split; try congruence; exact C3.
  - cbn [erase_detail pa_enabled].
    destruct (add_rule_good sa rule fr CSa) as (s3 & E3 & Er & P3 & M3 & I3 & C3).
    replace (if pa_enabled sa then lift ROk (try_add_rule_to_stack sa rule (rf_csn fr) (rf_max fr)) else ROk sa) with (ROk s3)
      by (destruct (pa_enabled sa); [rewrite E3; reflexivity|congruence]).
    cbn [map_res]. rewrite Er. split; [reflexivity|]. cbn. repeat split; try congruence; exact C3.
Qed.

Lemma rule_err_erase rule fr fr' s' : fr_core_eq fr fr' -> csn_cond fr s' ->
  map_res erase_detail (rule_err rule fr s') = rule_err rule fr' (erase_detail s') /\ rule_exit fr s' (rule_err rule fr s').
Proof.
  intros (Ep & Ei & Ea & En & Et) CS. unfold rule_err. cbn [erase_detail lookahead].
  rewrite <- Ep, <- Ei, <- Ea, <- En, <- Et. cbv zeta.
  (* the last step, from the state after tracking and call-stack bookkeeping *)
  assert (FIN : forall s3, pa_enabled s3 = pa_enabled s' -> max_position s3 = max_position s' -> input s3 = input s' ->
            csn_cond fr s3 ->
            let r := RErr (if emits s3 then set_queue s3 (vtruncate (rf_index fr) (queue s3)) else s3) in
            map_res erase_detail r =
              RErr (if emits (erase_detail s3) then set_queue (erase_detail s3) (vtruncate (rf_index fr) (queue (erase_detail s3)))
                    else erase_detail s3) /\ rule_exit fr s' r).
  { intros s3 P3 M3 I3 C3. cbv zeta. rewrite emits_erase. cbn [map_res erase_detail queue].
    destruct (emits s3); (split; [reflexivity|]); cbn; repeat split; try congruence; exact C3. }
  destruct (negb (lk_eqb (lookahead s') LNeg)); [|now apply FIN].
  rewrite track_erase. cbn [erase_detail pa_enabled].
  destruct (track_dsame s' rule (rf_pos fr) (rf_pai fr) (rf_nai fr) (rf_attempts fr)) as (D1 & D2 & D3 & D4).
  destruct (add_rule_good (track s' rule (rf_pos fr) (rf_pai fr) (rf_nai fr) (rf_attempts fr)) rule fr)
    as (s3 & -> & Er & P3 & M3 & I3 & C3); [unfold csn_cond in *; rewrite D2, D3; exact CS|].
  rewrite <- Er. apply FIN; congruence.
Qed.

Lemma csn_cond_enter s1 s' : dle s1 s' -> csn_cond (fst (rule_enter s1)) s'.
Proof.
  intros (_ & [M1 M2] & _).
  destruct (rule_enter_spec s1) as (_ & _ & Rc & Rm & _ & _).
  unfold csn_cond. rewrite Rc, Rm.
  destruct (Nat.ltb (max_position s1) (max_position s')) eqn:L; [lia|]. apply Nat.ltb_ge in L. apply M2. lia.
Qed.

Lemma rule_exit_dle s1 s' r : dle s1 s' -> rule_exit (fst (rule_enter s1)) s' r -> dpost s1 r.
Proof.
  intros (D1 & [M1 M2] & D3) X. destruct (rule_enter_spec s1) as (_ & _ & Rc & Rm & _ & _).
  apply (fun H => res_all_imp _ _ r H X). intros x (P & M & In & C). unfold csn_cond in C. rewrite Rc, Rm, M in C.
  split; [congruence|]. split; [|congruence]. split; [lia|]. intros Hx.
  destruct (Nat.ltb (max_position s1) (max_position s')) eqn:L; [apply Nat.ltb_lt in L; lia|exact C].
Qed.

Lemma restore_st_erase x : restore_st (erase_detail x) = option_map erase_detail (restore_st x).
Proof. unfold restore_st. cbn [erase_detail stack]. destruct (restore (stack x)); reflexivity. Qed.
Lemma checkpoint_ok_erase x : checkpoint_ok (erase_detail x) = option_map erase_detail (checkpoint_ok x).
Proof. unfold checkpoint_ok. cbn [erase_detail stack]. destruct (clear_snapshot (stack x)); reflexivity. Qed.
Lemma restore_st_dsame y x : restore_st y = Some x -> dsame y x.
Proof. unfold restore_st. destruct (restore (stack y)); cbn; [intros [= <-]; repeat split|discriminate]. Qed.
Lemma checkpoint_ok_dsame y x : checkpoint_ok y = Some x -> dsame y x.
Proof. unfold checkpoint_ok. destruct (clear_snapshot (stack y)); cbn; [intros [= <-]; repeat split|discriminate]. Qed.

(* exit glue: `lift k o` where k tags the state with Ok or Err *)
Lemma lift_erase (k : pst -> res) (o : option pst) (s0 y : pst) :
  (forall x, k x = ROk x) \/ (forall x, k x = RErr x) ->
  (forall x, o = Some x -> dsame y x) -> dle s0 y ->
  map_res erase_detail (lift k o) = lift k (option_map erase_detail o) /\ dpost s0 (lift k o).
Proof.
  intros K H D. destruct o as [x|]; cbn [lift option_map]; [|split; [reflexivity|exact I]].
  specialize (H x eq_refl). destruct K as [K|K]; rewrite !K; cbn; (split; [reflexivity|]); eapply dle_dsame_r; eauto.
Qed.

Lemma dpost_trans a b r : dle a b -> dpost b r -> dpost a r.
Proof. intros H. apply res_all_imp. intros x. now apply dle_trans. Qed.

Lemma guard_erase k s : guard k (erase_detail s) = option_map erase_detail (guard k s).
Proof. destruct k; [apply inc_call_erase|reflexivity]. Qed.

Lemma guard_dsame k s s1 : guard k s = Some s1 -> dsame s s1.
Proof. destruct k; [apply inc_call_dsame|intros [= <-]; apply dsame_refl]. Qed.

Lemma bracket_enter_dsame p b : bracket_of p = Some b -> forall s1, dsame s1 (b_enter b s1).
Proof.
  destruct p; try discriminate; intros [= <-] s1; cbn [b_enter]; try apply dsame_refl; try apply dsame_set_stack.
  - apply rule_enter_dsame.
  - repeat split.
  - destruct (negb _); [apply dsame_set_atomicity|apply dsame_refl].
Qed.

Lemma erase_bind s0 s r kOk kErr kOk' kErr' :
  dpost s r ->
  (forall s', dle s s' -> map_res erase_detail (kOk s') = kOk' (erase_detail s') /\ dpost s0 (kOk s')) ->
  (forall s', dle s s' -> map_res erase_detail (kErr s') = kErr' (erase_detail s') /\ dpost s0 (kErr s')) ->
  map_res erase_detail (bind r kOk kErr) = bind (map_res erase_detail r) kOk' kErr' /\ dpost s0 (bind r kOk kErr).
Proof. destruct r; cbn; auto. Qed.

Lemma bracket_erase p b : bracket_of p = Some b -> forall s1,
  b_enter b (erase_detail s1) = erase_detail (b_enter b s1) /\
  forall s', dle s1 s' ->
    (map_res erase_detail (b_ok b s1 s') = b_ok b (erase_detail s1) (erase_detail s') /\ dpost s1 (b_ok b s1 s')) /\
    (map_res erase_detail (b_err b s1 s') = b_err b (erase_detail s1) (erase_detail s') /\ dpost s1 (b_err b s1 s')).
Proof.
  destruct p; try discriminate; intros [= <-] s1; cbn [b_enter b_ok b_err].
  - destruct (rule_enter_erase s1) as [Es Ef]. split; [exact Es|]. intros s' D.
    pose proof (csn_cond_enter s1 s' D) as CS. split.
    + destruct (rule_ok_erase r _ _ s' Ef CS) as [H1 H2]. split; [exact H1|eapply rule_exit_dle; eauto].
    + destruct (rule_err_erase r _ _ s' Ef CS) as [H1 H2]. split; [exact H1|eapply rule_exit_dle; eauto].
  - split; [reflexivity|]. intros s' D. split.
    + rewrite checkpoint_ok_erase. apply lift_erase with (y := s'); auto. apply checkpoint_ok_dsame.
    + change (restore_st _) with (restore_st (erase_detail (set_queue (set_pos s' (pos s1)) (vtruncate (length (queue s1)) (queue s'))))) at 2.
      rewrite restore_st_erase. apply lift_erase with (y := set_queue (set_pos s' (pos s1)) (vtruncate (length (queue s1)) (queue s'))); auto.
      apply restore_st_dsame.
  - split; [reflexivity|]. intros s' D. split; (split; [reflexivity|exact D]).
  - split; [reflexivity|]. intros s' D. split; (split; [reflexivity|exact D]).
  - split; [reflexivity|]. intros s' D.
    assert (D' : dle s1 (set_lookahead (set_pos s' (pos s1)) (lookahead s1))) by (eapply dle_dsame_r; [exact D|]; repeat split).
    split; (change (restore_st _) with (restore_st (erase_detail (set_lookahead (set_pos s' (pos s1)) (lookahead s1)))) at 2;
            rewrite restore_st_erase; apply lift_erase with (y := set_lookahead (set_pos s' (pos s1)) (lookahead s1));
            [destruct positive; auto|apply restore_st_dsame|exact D']).
  - cbn [erase_detail atomicity]. destruct (negb (atom_eqb (atomicity s1) a)); (split; [reflexivity|]); intros s' D.
    + split; (split; [reflexivity|]); cbn; (eapply dle_dsame_r; [exact D|]; repeat split).
    + split; (split; [reflexivity|exact D]).
  - split; [reflexivity|]. intros s' D. cbn [erase_detail pos stack input]. split; [|split; [reflexivity|exact D]].
    destruct (Nat.ltb (pos s') (pos s1)); (split; [reflexivity|]); [exact I|].
    cbn. eapply dle_dsame_r; [exact D|]. repeat split.
  - split; [reflexivity|]. intros s' D. split.
    + rewrite checkpoint_ok_erase. apply lift_erase with (y := s'); auto. apply checkpoint_ok_dsame.
    + rewrite restore_st_erase. apply lift_erase with (y := s'); auto. apply restore_st_dsame.
Qed.

Section Erase.
Variable cfg : config.
Variable E : env.

Theorem exec_erase : forall fuel p s,
  map_res erase_detail (exec cfg E fuel p s) = exec cfg E fuel p (erase_detail s) /\ dpost s (exec cfg E fuel p s).
Proof.
  induction fuel as [|fuel IH]; intros p s; [split; [reflexivity|exact I]|].
  assert (IHk : forall q s0 s', dle s0 s' ->
            map_res erase_detail (exec cfg E fuel q s') = exec cfg E fuel q (erase_detail s') /\ dpost s0 (exec cfg E fuel q s')).
  { intros q s0 s' D. destruct (IH q s') as [C' D']. split; [exact C'|]. eapply dpost_trans; eauto. }
  destruct (exec_step cfg E fuel p s) as [o|p q|p q|p|p q|f q Ef|f Ef|p b B G|p b s1 B G].
  - apply exec_prim_erase.
  - cbn [exec]. rewrite <- (proj1 (IH p s)). apply (erase_bind s s); [apply IH|apply IHk|now split].
  - cbn [exec]. rewrite <- (proj1 (IH p s)). apply (erase_bind s s); [apply IH|now split|apply IHk].
  - cbn [exec]. rewrite <- (proj1 (IH p s)). apply (erase_bind s s); [apply IH|apply IHk|now split].
  - cbn [exec erase_detail atomicity]. destruct (atom_eqb (atomicity s) NonAtomic); apply IH.
  - cbn [exec]. rewrite Ef. apply IH.
  - cbn [exec]. rewrite Ef. split; [reflexivity|exact I].
  - rewrite (exec_bracket cfg E fuel p b _ B), guard_erase, G. split; [reflexivity|apply dle_refl].
  - rewrite (exec_bracket cfg E fuel p b _ B), guard_erase, G. cbn [option_map].
    destruct (bracket_erase p b B s1) as (En & X). rewrite En, <- (proj1 (IH _ _)).
    pose proof (guard_dsame _ _ _ G) as D1. pose proof (bracket_enter_dsame p b B s1) as D2.
    apply (erase_bind s s1); [eapply dpost_dsame_l; [exact D2|apply IH]| |];
      intros s' D; destruct (X s' D) as [[C1 P1] [C2 P2]]; (split; [assumption|]); eapply dpost_dsame_l; eauto.
Qed.

End Erase.

Theorem detail_transparent cfg E fuel p s :
  map_res erase_detail (exec cfg E fuel p s) = map_res erase_detail (exec cfg E fuel p (set_pa_enabled s false)).
Proof.
  rewrite (proj1 (exec_erase cfg E fuel p s)), (proj1 (exec_erase cfg E fuel p (set_pa_enabled s false))). reflexivity.
Qed.

Lemma outcome_of_erase cfg r : outcome_of cfg (map_res erase_detail r) = outcome_of cfg r.
Proof. destruct r; reflexivity. Qed.

Theorem parse_with_detail_irrelevant cfg E fuel p inp lim :
  parse_with cfg E fuel p inp lim true = parse_with cfg E fuel p inp lim false.
Proof.
  unfold parse_with, run_state.
  rewrite <- (outcome_of_erase cfg (exec cfg E fuel p (init inp lim true))).
  rewrite (proj1 (exec_erase cfg E fuel p (init inp lim true))). reflexivity.
Qed.

(* the same kind of result in both modes: in particular the same panics (none added by the bookkeeping) *)
Theorem detail_same_result_kind cfg E fuel p s :
  match exec cfg E fuel p s, exec cfg E fuel p (set_pa_enabled s false) with
  | ROk a, ROk b | RErr a, RErr b => erase_detail a = erase_detail b
  | RPanic k, RPanic k' => k = k'
  | ROutOfFuel, ROutOfFuel => True
  | _, _ => False
  end.
Proof.
  pose proof (detail_transparent cfg E fuel p s) as H.
  destruct (exec cfg E fuel p s), (exec cfg E fuel p (set_pa_enabled s false)); cbn in H; try discriminate; try congruence; auto.
Qed.

Theorem detail_no_internal_panic cfg E fuel p s a :
  wf s -> Inv (stack s) a -> exec cfg E fuel p s <> RPanic PkInternal.
Proof. intros W I H. pose proof (exec_post cfg E fuel p s a W I) as P. rewrite H in P. cbn in P. congruence. Qed.

(* a detail-off run ends with the switch still off *)
Lemma detail_off_untouched cfg E fuel p s : pa_enabled s = false ->
  res_all (fun s' => pa_enabled s' = false) (exec cfg E fuel p s).
Proof.
  intros H. pose proof (proj2 (exec_erase cfg E fuel p s)) as D.
  destruct (exec cfg E fuel p s); cbn in *; auto; destruct D as (D1 & _); congruence.
Qed.

Lemma push_token_mp s t neg : max_position (push_token s t neg) = max_position s /\ pos (push_token s t neg) = pos s.
Proof. unfold push_token. destruct neg; split; reflexivity. Qed.

Lemma try_add_new_token_mp s t sp p neg :
  max_position (try_add_new_token s t sp p neg) = max_position s \/ max_position (try_add_new_token s t sp p neg) = p.
Proof.
  unfold try_add_new_token. destruct (Nat.ltb (max_position s) p).
  - destruct (neg && Nat.ltb (max_position s) sp); [left; reflexivity|].
    destruct neg; [left; apply push_token_mp|right; reflexivity].
  - destruct (Nat.eqb p (max_position s)); [left; cbn; apply push_token_mp|left; reflexivity].
Qed.

Lemma handle_token_mp x sp tk b :
  max_position (handle_token_parse_result x sp tk b) = max_position x \/
  max_position (handle_token_parse_result x sp tk b) = pos x.
Proof.
  unfold handle_token_parse_result. destruct b.
  - destruct (lk_eqb (lookahead x) LNeg); [apply try_add_new_token_mp|].
    destruct (Nat.ltb (max_position x) (pos x)); [right; reflexivity|left; reflexivity].
  - destruct (negb (lk_eqb (lookahead x) LNeg)); [apply try_add_new_token_mp|left; reflexivity].
Qed.

Definition mp_step (s : pst) (r : res) : Prop :=
  res_all (fun s' => max_position s' = max_position s \/ max_position s' = pos s') r.

Lemma apply_pres_mp s r t : mp_step s (apply_pres s r t).
Proof.
  unfold apply_pres, mp_step. destruct r as [p| |]; cbn [res_all]; [| |exact I].
  - destruct t as [tk|]; [destruct (pa_enabled s)|]; try (left; reflexivity).
    destruct (handle_token_core (set_pos s p) (pos s) tk true) as [C _]. rewrite (c_pos _ _ C).
    apply (handle_token_mp (set_pos s p) (pos s) tk true).
  - destruct t as [tk|]; [destruct (pa_enabled s)|]; try (left; reflexivity).
    destruct (handle_token_core s (pos s) tk false) as [C _]. rewrite (c_pos _ _ C).
    apply (handle_token_mp s (pos s) tk false).
Qed.

Lemma exec_prim_mp cfg o s : mp_step s (exec_prim cfg o s).
Proof.
  rewrite exec_prim_act. destruct (prim_act cfg o (input s) (pos s) (stack s)) as [k|st r t|t]; cbn [run_act].
  - exact I.
  - exact (apply_pres_mp (set_stack s st) r t).
  - unfold tag_node. destruct (negb (lk_eqb (lookahead s) LNone)); [left; reflexivity|].
    destruct (queue s) as [|[e p|si r tg p] q]; left; reflexivity.
Qed.
