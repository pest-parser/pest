(* Layer C proofs, part 1: the frame invariant of `exec`.
   For every program, every well-formed state and every fuel:
     - input, lookahead, atomicity, limit, the detail switch are preserved (both outcomes);
     - the call counter, the position and max_position never decrease, pos <= |input|;
     - the token queue only grows, and earlier tokens change at most in their tag;
     - the snapshot structure of the stack (ghost naive model of C11) is preserved;
     - no internal panic (Vec index, splice, drain, usize underflow, unreachable!) ever happens. *)
From Coq Require Import List Arith NArith ZArith Bool Lia.
Import ListNotations.
Require Import PV.Stack.Model PV.Stack.Proofs PV.Comb.PState PV.Comb.Bytes PV.Comb.Prog PV.Comb.Exec PV.Comb.ExecInd.

Arguments Nat.sub : simpl never.
Arguments Nat.ltb : simpl never.
Arguments Nat.leb : simpl never.
Arguments Nat.eqb : simpl never.
Arguments skipn : simpl never.
Arguments firstn : simpl never.

Definition untag (t : qtoken) : qtoken :=
  match t with QEnd s r _ p => QEnd s r None p | x => x end.
Definition untagq (q : list qtoken) := map untag q.

Notation sspec := (spec (list byte)).

(* f_cs: the number of call stacks does not shrink unless max_position grew; this is what makes every
   splice of try_add_new_stack_rule safe *)
Record frame (s s' : pst) : Prop := {
  f_input : input s' = input s;
  f_la : lookahead s' = lookahead s;
  f_at : atomicity s' = atomicity s;
  f_lim : limit s' = limit s;
  f_en : pa_enabled s' = pa_enabled s;
  f_calls : calls s <= calls s';
  f_pos : pos s <= pos s';
  f_mp : max_position s <= max_position s';
  f_cs : max_position s' = max_position s -> length (call_stacks s) <= length (call_stacks s');
  f_queue : exists new, untagq (queue s') = new ++ untagq (queue s)
}.

Definition wf (s : pst) : Prop := pos s <= length (input s).

Definition post (s : pst) (a : sspec) (r : res) : Prop :=
  match r with
  | ROk s' | RErr s' => frame s s' /\ wf s' /\ exists a', Inv (stack s') a' /\ snaps a' = snaps a
  | RPanic k => k <> PkInternal
  | ROutOfFuel => True
  end.

Lemma frame_refl s : frame s s.
Proof. split; auto. exists []; reflexivity. Qed.

Lemma frame_trans s1 s2 s3 : frame s1 s2 -> frame s2 s3 -> frame s1 s3.
Proof.
  intros [a1 a2 a3 a4 a5 a6 a7 a8 a9 [n1 E1]] [b1 b2 b3 b4 b5 b6 b7 b8 b9 [n2 E2]].
  split; try congruence; try lia.
  exists (n2 ++ n1). rewrite E2, E1, app_assoc. reflexivity.
Qed.

Lemma prefixb_length a b : prefixb a b = true -> length a <= length b.
Proof.
  revert b; induction a as [|x a IH]; intros [|y b]; cbn; intros H; try lia; try discriminate.
  apply andb_true_iff in H. destruct H as [_ H]. apply IH in H. lia.
Qed.

Lemma skipn_length_le {A} n (l : list A) : n <= length l -> length (skipn n l) = length l - n.
Proof. intros. rewrite skipn_length. reflexivity. Qed.

Lemma decode1_length l c n : decode1 l = Some (c, n) -> 1 <= n <= length l.
Proof.
  unfold decode1. destruct l as [|b0 r]; [discriminate|].
  destruct (b0 <? 128)%N; [intros [= <- <-]; cbn; lia|].
  destruct (b0 <? 192)%N; [discriminate|].
  destruct (b0 <? 224)%N. { destruct r as [|b1 r]; [discriminate|]. intros [= <- <-]; cbn; lia. }
  destruct (b0 <? 240)%N. { destruct r as [|b1 [|b2 r]]; try discriminate. intros [= <- <-]; cbn; lia. }
  destruct r as [|b1 [|b2 [|b3 r]]]; try discriminate. intros [= <- <-]; cbn; lia.
Qed.

Lemma skip_len_le l n k : skip_len l n = Some k -> k <= length l.
Proof.
  revert l k; induction n as [|n IH]; intros l k; cbn [skip_len].
  - intros [= <-]. lia.
  - destruct (decode1 l) as [[c m]|] eqn:D; [|discriminate].
    destruct (skip_len (skipn m l) n) as [t|] eqn:S1; [|discriminate]. intros [= <-].
    apply decode1_length in D. apply IH in S1. rewrite skipn_length in S1. lia.
Qed.

Definition moved_ok (inp : list byte) (p : nat) (r : pres) : Prop :=
  match r with PMoved p' => p <= p' <= length inp | _ => True end.

Lemma match_string_ok inp p s : p <= length inp -> moved_ok inp p (match_string inp p s).
Proof.
  intros H. unfold match_string. destruct (prefixb s (skipn p inp)) eqn:E; cbn; auto.
  apply prefixb_length in E. rewrite skipn_length in E. lia.
Qed.

Lemma prefixb_ci_length a b : prefixb_ci a b = true -> length a <= length b.
Proof.
  revert b; induction a as [|x a IH]; intros [|y b]; cbn; intros H; try lia; try discriminate.
  apply andb_true_iff in H. destruct H as [_ H]. apply IH in H. lia.
Qed.

Lemma match_insensitive_ok inp p s : p <= length inp -> moved_ok inp p (match_insensitive inp p s).
Proof.
  intros H. unfold match_insensitive. destruct (boundaryb inp p); cbn; auto.
  destruct (boundaryb inp (p + length s) && prefixb_ci s (skipn p inp)) eqn:E; cbn; auto.
  apply andb_true_iff in E. destruct E as [_ E]. apply prefixb_ci_length in E. rewrite skipn_length in E. lia.
Qed.

Lemma char_at_ok inp p c n : p <= length inp -> char_at inp p = Some (Some (c, n)) -> p <= p + n <= length inp.
Proof.
  unfold char_at. intros H. destruct (boundaryb inp p); [|discriminate]. intros [= E].
  apply decode1_length in E. rewrite skipn_length in E. lia.
Qed.

Lemma match_range_ok inp p lo hi : p <= length inp -> moved_ok inp p (match_range inp p lo hi).
Proof.
  intros H. unfold match_range. destruct (char_at inp p) as [[[c n]|]|] eqn:E; cbn; auto.
  destruct (_ && _); cbn; auto. eapply char_at_ok; eauto.
Qed.

Lemma match_char_by_ok inp p rs : p <= length inp -> moved_ok inp p (match_char_by inp p rs).
Proof.
  intros H. unfold match_char_by. destruct (char_at inp p) as [[[c n]|]|] eqn:E; cbn; auto.
  destruct (in_ranges rs c); cbn; auto. eapply char_at_ok; eauto.
Qed.

Lemma skip_ok inp p n : p <= length inp -> moved_ok inp p (skip inp p n).
Proof.
  intros H. unfold skip. destruct (boundaryb inp p); cbn; auto.
  destruct (skip_len (skipn p inp) n) as [k|] eqn:E; cbn; auto.
  apply skip_len_le in E. rewrite skipn_length in E. lia.
Qed.

Lemma skip_until_basic_from_ok inp ss from count :
  from + count = length inp -> from <= skip_until_basic_from inp ss from count <= length inp.
Proof.
  revert from; induction count as [|c IH]; intros from H; cbn [skip_until_basic_from]; [lia|].
  destruct (_ && _); [lia|]. specialize (IH (S from)). lia.
Qed.

Lemma skip_until_basic_ok inp p ss : p <= length inp -> p <= skip_until_basic inp p ss <= length inp.
Proof. intros H. unfold skip_until_basic. apply skip_until_basic_from_ok. lia. Qed.

Lemma memmem_from_ok inp needle from count f :
  from + count = length inp -> memmem_from inp needle from count = Some f -> from <= f <= length inp.
Proof.
  revert from; induction count as [|c IH]; intros from H; cbn [memmem_from].
  - destruct (prefixb _ _); [|discriminate]. intros [= <-]. lia.
  - destruct (prefixb _ _); [intros [= <-]; lia|]. intros E. apply IH in E; lia.
Qed.

Lemma memchr_scan_ok inp firsts ss from count f :
  from + count = length inp -> memchr_scan inp firsts ss from count = Some (Some f) -> from <= f <= length inp.
Proof.
  revert from; induction count as [|c IH]; intros from H; cbn [memchr_scan]; [discriminate|].
  destruct (existsb (N.eqb (nth from inp 0%N)) firsts).
  - destruct (boundaryb inp from); [|discriminate].
    destruct (existsb (fun s => prefixb s (skipn from inp)) ss); [intros [= <-]; lia|]. intros E. apply IH in E; lia.
  - intros E. apply IH in E; lia.
Qed.

Lemma skip_until_ok cfg inp p ss f : p <= length inp -> skip_until cfg inp p ss = Some f -> p <= f <= length inp.
Proof.
  intros H. unfold skip_until. destruct (memchr cfg); [|intros [= <-]; now apply skip_until_basic_ok].
  unfold skip_until_memchr.
  assert (B : forall x, Some (skip_until_basic inp p ss) = Some x -> p <= x <= length inp)
    by (intros x [= <-]; now apply skip_until_basic_ok).
  destruct ss as [|s1 [|s2 [|s3 [|s4 r]]]]; auto.
  - intros [= <-]; lia.
  - destruct (memmem_from _ _ _ _) eqn:E; intros [= <-]; [|lia]. eapply memmem_from_ok in E; lia.
  - destruct (_ && _); auto. destruct (memchr_scan _ _ _ _ _) as [[x|]|] eqn:E; intros [= <-]; [|lia].
    eapply memchr_scan_ok in E; lia.
  - destruct (_ && _); auto. destruct (memchr_scan _ _ _ _ _) as [[x|]|] eqn:E; intros [= <-]; [|lia].
    eapply memchr_scan_ok in E; lia.
Qed.

Record same_core (s s' : pst) : Prop := {
  c_input : input s' = input s; c_pos : pos s' = pos s; c_queue : queue s' = queue s;
  c_la : lookahead s' = lookahead s; c_pa : pos_attempts s' = pos_attempts s; c_na : neg_attempts s' = neg_attempts s;
  c_ap : attempt_pos s' = attempt_pos s; c_at : atomicity s' = atomicity s; c_stack : stack s' = stack s;
  c_calls : calls s' = calls s; c_lim : limit s' = limit s; c_en : pa_enabled s' = pa_enabled s
}.
(* f_mp and f_cs of frame on their own *)
Definition pa_mono (s s' : pst) : Prop :=
  max_position s <= max_position s' /\
  (max_position s' = max_position s -> length (call_stacks s) <= length (call_stacks s')).

Lemma same_core_refl s : same_core s s. Proof. split; reflexivity. Qed.
Lemma pa_mono_refl s : pa_mono s s. Proof. split; auto. Qed.

Lemma same_core_frame s s' : same_core s s' -> pa_mono s s' -> frame s s'.
Proof.
  intros [] [M1 M2]. split; try congruence; try lia; auto.
  exists []. cbn. congruence.
Qed.

Lemma push_token_core s t neg : same_core s (push_token s t neg) /\ max_position (push_token s t neg) = max_position s
  /\ call_stacks (push_token s t neg) = call_stacks s.
Proof. unfold push_token. destruct neg; (split; [split; reflexivity|split; reflexivity]). Qed.

Lemma try_add_new_token_core s t sp p neg :
  same_core s (try_add_new_token s t sp p neg) /\ pa_mono s (try_add_new_token s t sp p neg).
Proof.
  unfold try_add_new_token.
  destruct (Nat.ltb (max_position s) p) eqn:L.
  - destruct (neg && Nat.ltb (max_position s) sp); [split; [apply same_core_refl|apply pa_mono_refl]|].
    destruct (push_token_core s t neg) as [C [M K]].
    destruct neg.
    + split; auto. split; [lia|]. intros _. rewrite K. lia.
    + apply Nat.ltb_lt in L. destruct C. split; [split; cbn; auto|]. split; cbn; lia.
  - destruct (Nat.eqb p (max_position s)); [|split; [apply same_core_refl|apply pa_mono_refl]].
    destruct (push_token_core s t neg) as [C [M K]]. destruct C.
    split; [split; cbn; auto|]. split; cbn; [lia|]. rewrite K. lia.
Qed.

Lemma handle_token_core s sp t ok :
  same_core s (handle_token_parse_result s sp t ok) /\ pa_mono s (handle_token_parse_result s sp t ok).
Proof.
  unfold handle_token_parse_result. destruct ok.
  - destruct (lk_eqb (lookahead s) LNeg); [apply try_add_new_token_core|].
    destruct (Nat.ltb (max_position s) (pos s)) eqn:L; [|split; [apply same_core_refl|apply pa_mono_refl]].
    apply Nat.ltb_lt in L. split; [split; reflexivity|]. split; cbn; lia.
  - destruct (negb (lk_eqb (lookahead s) LNeg)); [apply try_add_new_token_core|].
    split; [apply same_core_refl|apply pa_mono_refl].
Qed.

Lemma post_ok_same s a s' : frame s s' -> wf s' -> stack s' = stack s -> Inv (stack s) a -> post s a (ROk s').
Proof. intros F W E I. cbn. split; [auto|split; [auto|exists a; rewrite E; auto]]. Qed.
Lemma post_err_same s a s' : frame s s' -> wf s' -> stack s' = stack s -> Inv (stack s) a -> post s a (RErr s').
Proof. exact (post_ok_same s a s'). Qed.

Lemma post_ret s a : wf s -> Inv (stack s) a -> post s a (ROk s) /\ post s a (RErr s).
Proof. intros W I. split; apply post_ok_same; auto; apply frame_refl. Qed.

Lemma frame_set_pos s p : pos s <= p -> frame s (set_pos s p).
Proof. intros. split; cbn; auto. exists []; reflexivity. Qed.

Lemma apply_pres_post s a r t :
  wf s -> Inv (stack s) a -> moved_ok (input s) (pos s) r -> post s a (apply_pres s r t).
Proof.
  intros W I M. unfold apply_pres. destruct r as [p| |]; cbn in M.
  - assert (F0 : frame s (set_pos s p)) by (apply frame_set_pos; lia).
    destruct t as [tk|]; [destruct (pa_enabled s)|].
    + destruct (handle_token_core (set_pos s p) (pos s) tk true) as [C P].
      apply post_ok_same; auto.
      * eapply frame_trans; [exact F0|]. now apply same_core_frame.
      * unfold wf. destruct C. rewrite c_pos0, c_input0. cbn. lia.
      * destruct C. rewrite c_stack0. reflexivity.
    + apply post_ok_same; auto. unfold wf; cbn; lia.
    + apply post_ok_same; auto. unfold wf; cbn; lia.
  - destruct t as [tk|]; [destruct (pa_enabled s)|].
    + destruct (handle_token_core s (pos s) tk false) as [C P].
      apply post_err_same; auto.
      * now apply same_core_frame.
      * unfold wf. destruct C. rewrite c_pos0, c_input0. exact W.
      * destruct C. auto.
    + now apply post_ret.
    + now apply post_ret.
  - discriminate.
Qed.

Lemma post_trans s a s1 a1 r :
  frame s s1 -> snaps a1 = snaps a -> post s1 a1 r -> post s a r.
Proof.
  intros F E P. destruct r as [s'|s'|k|]; cbn in *; auto.
  - destruct P as (F' & W & a' & I & S). split; [eapply frame_trans; eauto|]. split; auto. exists a'. split; auto. congruence.
  - destruct P as (F' & W & a' & I & S). split; [eapply frame_trans; eauto|]. split; auto. exists a'. split; auto. congruence.
Qed.

Lemma frame_set_stack s st : frame s (set_stack s st).
Proof. split; cbn; auto. exists []; reflexivity. Qed.

Lemma spop_snaps (a : sspec) : snaps (fst (spop a)) = snaps a.
Proof. unfold spop. destruct (cur a); reflexivity. Qed.

Lemma match_all_ok inp p l p' : p <= length inp -> match_all inp p l = Some p' -> p <= p' <= length inp.
Proof.
  revert p; induction l as [|x l IH]; intros p H; cbn [match_all].
  - intros [= <-]. lia.
  - pose proof (match_string_ok inp p x H) as M. destruct (match_string inp p x) as [q| |]; try discriminate.
    cbn in M. intros E. apply IH in E; lia.
Qed.

Lemma match_pop_loop_ok fuel inp st p a st' p' b :
  p <= length inp -> Inv st a -> match_pop_loop fuel inp st p = Some (st', p', b) ->
  p <= p' <= length inp /\ exists a', Inv st' a' /\ snaps a' = snaps a.
Proof.
  revert st p a; induction fuel as [|f IH]; intros st p a H I; cbn [match_pop_loop].
  - intros [= <- <- <-]. split; [lia|]. exists a; auto.
  - destruct (inv_pop I) as [I1 O1]. destruct (pop st) as [st1 o] eqn:Ep. cbn in I1, O1.
    destruct o as [x|].
    + pose proof (match_string_ok inp p x H) as M. destruct (match_string inp p x) as [q| |].
      * cbn in M. intros E. assert (Hq : q <= length inp) by lia. apply (IH _ _ _ Hq I1) in E. destruct E as [E1 (a' & E2 & E3)].
        split; [lia|]. exists a'. split; auto. rewrite E3. apply spop_snaps.
      * intros [= <- <- <-]. split; [lia|]. eexists; split; [exact I1|apply spop_snaps].
      * intros [= <- <- <-]. split; [lia|]. eexists; split; [exact I1|apply spop_snaps].
    + intros [= <- <- <-]. split; [lia|]. eexists; split; [exact I1|apply spop_snaps].
Qed.

Lemma match_pop_loop_some f inp (st : stk (list byte)) p : match_pop_loop f inp st p <> None.
Proof.
  revert st p; induction f as [|f IH]; intros st p; cbn [match_pop_loop]; [discriminate|].
  destruct (pop st) as [st1 [x|]]; [|discriminate]. destruct (match_string inp p x); try discriminate. apply IH.
Qed.

Lemma untag_idem_head si r t t' p q : untagq (QEnd si r t p :: q) = untagq (QEnd si r t' p :: q).
Proof. reflexivity. Qed.

Lemma slice_pres_ok inp p st i j d : p <= length inp -> moved_ok inp p (slice_pres inp p st i j d).
Proof.
  intros H. unfold slice_pres. destruct (constrain_idxs _ _ _) as [[x y]|]; [|exact I].
  destruct (Nat.leb y x); [cbn; lia|]. cbv zeta. destruct (match_all _ _ _) eqn:E; [|exact I]. now apply match_all_ok in E.
Qed.

Lemma prim_act_ok cfg o inp p st a : p <= length inp -> Inv st a ->
  match prim_act cfg o inp p st with
  | APanic k => k <> PkInternal
  | APres st' r _ => moved_ok inp p r /\ exists a', Inv st' a' /\ snaps a' = snaps a
  | ATag _ => True
  end.
Proof.
  intros W I. assert (S0 : exists a', Inv st a' /\ snaps a' = snaps a) by eauto.
  assert (M0 : moved_ok inp p (PMoved p)) by (cbn; lia).
  destruct o; cbn [prim_act];
    auto using match_string_ok, match_insensitive_ok, match_range_ok, match_char_by_ok, skip_ok, slice_pres_ok.
  - split; [exact Logic.I|exact S0].
  - split; [|exact S0]. destruct (skip_until cfg inp p ss) eqn:E; [now apply skip_until_ok in E|exact Logic.I].
  - split; [destruct (Nat.eqb p 0); [exact M0|exact Logic.I]|exact S0].
  - split; [destruct (Nat.eqb p (length inp)); [exact M0|exact Logic.I]|exact S0].
  - split; [exact M0|]. exists (spush a s). split; [now apply inv_push|reflexivity].
  - rewrite (inv_peek I). destruct (speek a); [|discriminate]. split; [now apply match_string_ok|exact S0].
  - destruct (inv_pop I) as [I1 O1]. destruct (pop st) as [st1 [str|]]; cbn in I1; [|discriminate].
    split; [now apply match_string_ok|]. exists (fst (spop a)). split; [exact I1|apply spop_snaps].
  - destruct (inv_pop I) as [I1 O1]. destruct (pop st) as [st1 [str|]]; cbn in I1; [|split; [exact Logic.I|exact S0]].
    split; [exact M0|]. exists (fst (spop a)). split; [exact I1|apply spop_snaps].
  - destruct (match_pop_loop _ _ _ _) as [[[st' q] b]|] eqn:E; [|now apply match_pop_loop_some in E].
    eapply match_pop_loop_ok in E; eauto. destruct E as [E1 S1]. destruct b; (split; [cbn; auto|exact S1]).
Qed.

Lemma exec_prim_post cfg o s a : wf s -> Inv (stack s) a -> post s a (exec_prim cfg o s).
Proof.
  intros W I. rewrite exec_prim_act. pose proof (prim_act_ok cfg o _ _ _ a W I) as K.
  destruct (prim_act cfg o (input s) (pos s) (stack s)) as [k|st r t|t]; cbn [run_act].
  - exact K.
  - destruct K as (M & a' & I' & S').
    apply (post_trans s a (set_stack s st) a'); [apply frame_set_stack|exact S'|]. now apply apply_pres_post.
  - unfold tag_node. destruct (negb (lk_eqb (lookahead s) LNone)); [now apply post_ret|].
    destruct (queue s) as [|[e p|si r tg p] q] eqn:Q; try (now apply post_ret).
    apply post_ok_same; auto. split; cbn; auto. exists []. rewrite Q. reflexivity.
Qed.

Lemma inc_call_frame s s1 : inc_call s = Some s1 ->
  frame s s1 /\ stack s1 = stack s /\ pos s1 = pos s /\ queue s1 = queue s /\ input s1 = input s
  /\ call_stacks s1 = call_stacks s /\ max_position s1 = max_position s.
Proof.
  unfold inc_call. destruct (limit_reached s); [discriminate|].
  destruct (limit s); intros [= <-]; cbn; repeat split; cbn; auto; try lia; try (exists []; reflexivity).
Qed.

Lemma post_okerr s a s' : post s a (RErr s') -> post s a (ROk s').
Proof. auto. Qed.
Lemma post_errok s a s' : post s a (ROk s') -> post s a (RErr s').
Proof. auto. Qed.

Lemma untagq_length q : length (untagq q) = length q.
Proof. apply map_length. Qed.

Lemma vtruncate_app {A} (l1 l2 : list A) n : length l2 = n -> vtruncate n (l1 ++ l2) = l2.
Proof.
  intros <-. unfold vtruncate. rewrite app_length.
  destruct (Nat.ltb (length l2) (length l1 + length l2)) eqn:L.
  - replace (length l1 + length l2 - length l2) with (length l1 + 0) by lia.
    rewrite skipn_app. rewrite Nat.add_0_r, skipn_all. replace (length l1 - length l1) with 0 by lia. reflexivity.
  - apply Nat.ltb_ge in L. destruct l1; [reflexivity|cbn in L; lia].
Qed.

Lemma untagq_vtruncate n q : untagq (vtruncate n q) = vtruncate n (untagq q).
Proof.
  unfold vtruncate. rewrite untagq_length. destruct (Nat.ltb n (length q)); [|reflexivity].
  unfold untagq. now rewrite skipn_map.
Qed.

Lemma untagq_truncate_back q0 q n new : untagq q = new ++ untagq q0 -> n = length q0 ->
  untagq (vtruncate n q) = untagq q0.
Proof. intros E ->. rewrite untagq_vtruncate, E. apply vtruncate_app. apply untagq_length. Qed.

Record same_but_attempts (s s' : pst) : Prop := {
  t_input : input s' = input s; t_pos : pos s' = pos s; t_queue : queue s' = queue s;
  t_la : lookahead s' = lookahead s; t_at : atomicity s' = atomicity s; t_stack : stack s' = stack s;
  t_calls : calls s' = calls s; t_lim : limit s' = limit s; t_en : pa_enabled s' = pa_enabled s;
  t_cs : call_stacks s' = call_stacks s; t_mp : max_position s' = max_position s;
  t_ex : expected s' = expected s; t_un : unexpected s' = unexpected s
}.
Lemma track_same s r p pai nai prev : same_but_attempts s (track s r p pai nai prev).
Proof.
  unfold track. destruct (atom_eqb _ _); [split; reflexivity|].
  destruct (_ && _); [split; reflexivity|].
  destruct (Nat.eqb p (attempt_pos s)); cbn;
    match goal with |- context [Nat.ltb ?a ?b] => destruct (Nat.ltb a b) end; cbn;
    match goal with |- context [Nat.eqb ?a ?b] => destruct (Nat.eqb a b) end; cbn;
    try (match goal with |- context [negb ?x] => destruct x end); cbn; split; reflexivity.
Qed.

Lemma try_add_new_stack_rule_ok s r k : k <= length (call_stacks s) ->
  exists s', try_add_new_stack_rule s r k = Some s' /\ same_core s s' /\ max_position s' = max_position s
             /\ k <= length (call_stacks s').
Proof.
  intros H. unfold try_add_new_stack_rule.
  destruct (Nat.ltb (length (call_stacks s)) k) eqn:L; [apply Nat.ltb_lt in L; lia|].
  set (tail := firstn (length (call_stacks s) - k) (call_stacks s)).
  set (keep := skipn (length (call_stacks s) - k) (call_stacks s)).
  assert (K : length keep = k) by (unfold keep; rewrite skipn_length; lia).
  match goal with |- context [Nat.leb _ (length ?x)] => set (nt := x) end.
  destruct (Nat.leb CALL_STACK_CHILDREN_THRESHOLD (length nt)).
  - eexists. split; [reflexivity|]. split; [split; reflexivity|]. split; [reflexivity|]. cbn. lia.
  - eexists. split; [reflexivity|]. split; [split; reflexivity|]. split; [reflexivity|]. cbn.
    rewrite app_length. lia.
Qed.

Lemma untag_start x e p : untag x = QStart e p -> x = QStart e p.
Proof. destruct x; cbn; congruence. Qed.

Lemma set_start_end_exact new e p old ni :
  set_start_end (new ++ QStart e p :: old) (length old) ni = Some (new ++ QStart ni p :: old).
Proof.
  unfold set_start_end. rewrite app_length. cbn [length].
  destruct (Nat.ltb (length old) (length new + S (length old))) eqn:L; [|apply Nat.ltb_ge in L; lia].
  replace (length new + S (length old) - 1 - length old) with (length new) by lia.
  rewrite nth_error_app2 by lia. rewrite Nat.sub_diag. cbn [nth_error]. f_equal.
  rewrite firstn_app, firstn_all, Nat.sub_diag. cbn [firstn]. rewrite app_nil_r. f_equal.
  replace (S (length new)) with (length new + 1) by lia. rewrite skipn_app.
  rewrite skipn_all2 by lia. replace (length new + 1 - length new) with 1 by lia. reflexivity.
Qed.

Lemma set_start_end_ok q new e p old ni :
  untagq q = new ++ QStart e p :: old ->
  exists q', set_start_end q (length old) ni = Some q' /\ untagq q' = new ++ QStart ni p :: old /\ length q' = length q.
Proof.
  intros H. unfold untagq in H. apply map_eq_app in H. destruct H as (qn & r & -> & Hn & Hr).
  apply map_eq_cons in Hr. destruct Hr as (x & qo & -> & Hx & Ho). apply untag_start in Hx. subst x.
  exists (qn ++ QStart ni p :: qo). replace (length old) with (length qo) by (rewrite <- Ho; symmetry; apply map_length).
  split; [apply set_start_end_exact|]. split; [|now rewrite !app_length].
  unfold untagq. rewrite map_app. cbn [map untag]. now rewrite Hn, Ho.
Qed.

Record same_but_queue (s s' : pst) : Prop := {
  q_input : input s' = input s; q_pos : pos s' = pos s;
  q_la : lookahead s' = lookahead s; q_at : atomicity s' = atomicity s; q_stack : stack s' = stack s;
  q_calls : calls s' = calls s; q_lim : limit s' = limit s; q_en : pa_enabled s' = pa_enabled s;
  q_cs : call_stacks s' = call_stacks s; q_mp : max_position s' = max_position s;
  q_pa : pos_attempts s' = pos_attempts s; q_na : neg_attempts s' = neg_attempts s; q_ap : attempt_pos s' = attempt_pos s
}.

Lemma rule_enter_spec s1 :
  let fr := fst (rule_enter s1) in let s2 := snd (rule_enter s1) in
  rf_pos fr = pos s1 /\ rf_index fr = length (queue s1) /\ rf_csn fr = length (call_stacks s1) /\ rf_max fr = max_position s1 /\
  queue s2 = (if emits s1 then QStart 0 (pos s1) :: queue s1 else queue s1) /\ same_but_queue s1 s2.
Proof.
  unfold rule_enter. destruct (Nat.eqb (pos s1) (attempt_pos s1)); destruct (emits s1); cbn;
    repeat split; reflexivity.
Qed.

Lemma emits_frame s s' : lookahead s' = lookahead s -> atomicity s' = atomicity s -> emits s' = emits s.
Proof. unfold emits. intros -> ->. reflexivity. Qed.

Lemma frame_rule_enter s1 : frame s1 (snd (rule_enter s1)).
Proof.
  destruct (rule_enter_spec s1) as (_ & _ & _ & _ & Q & []).
  split; try congruence; try lia.
  - intros _. rewrite q_cs0. lia.
  - rewrite Q. destruct (emits s1); [exists [QStart 0 (pos s1)]|exists []]; reflexivity.
Qed.

Lemma csn_ok s2 s' : frame s2 s' ->
  (if Nat.ltb (max_position s2) (max_position s') then 0 else length (call_stacks s2)) <= length (call_stacks s').
Proof.
  intros F. destruct (Nat.ltb (max_position s2) (max_position s')) eqn:L; [lia|].
  apply Nat.ltb_ge in L. destruct F. apply f_cs0. lia.
Qed.

Lemma try_add_rule_to_stack_ok s r csn mx : 
  (if Nat.ltb mx (max_position s) then 0 else csn) <= length (call_stacks s) ->
  exists s3, try_add_rule_to_stack s r csn mx = Some s3 /\ same_core s s3 /\ max_position s3 = max_position s /\
    ((if Nat.ltb mx (max_position s) then 0 else csn) <= length (call_stacks s3)).
Proof.
  intros H. unfold try_add_rule_to_stack. destruct (negb (atom_eqb (atomicity s) Atomic)).
  - apply try_add_new_stack_rule_ok. exact H.
  - exists s. split; [reflexivity|]. split; [apply same_core_refl|]. auto.
Qed.

Lemma add_rule_ok s r csn mx :
  (if Nat.ltb mx (max_position s) then 0 else csn) <= length (call_stacks s) ->
  exists s3, (if pa_enabled s then try_add_rule_to_stack s r csn mx else Some s) = Some s3 /\ same_core s s3 /\
    max_position s3 = max_position s /\ (if Nat.ltb mx (max_position s) then 0 else csn) <= length (call_stacks s3).
Proof.
  intros H. destruct (pa_enabled s); [now apply try_add_rule_to_stack_ok|].
  exists s. split; [reflexivity|]. split; [apply same_core_refl|auto].
Qed.

(* the postcondition of a rule from that of its body (ending in s'), for a final state s3 that differs
   from s' in attempts, queue and call stacks only *)
Lemma rule_finish_post s1 s' s3 a a' :
  wf s' -> frame (snd (rule_enter s1)) s' -> Inv (stack s') a' -> snaps a' = snaps a ->
  input s3 = input s' -> lookahead s3 = lookahead s' -> atomicity s3 = atomicity s' -> limit s3 = limit s' ->
  pa_enabled s3 = pa_enabled s' -> calls s3 = calls s' -> pos s3 = pos s' -> stack s3 = stack s' ->
  max_position s3 = max_position s' ->
  (if Nat.ltb (max_position s1) (max_position s') then 0 else length (call_stacks s1)) <= length (call_stacks s3) ->
  (exists new, untagq (queue s3) = new ++ untagq (queue s1)) ->
  post s1 a (ROk s3).
Proof.
  intros W F I S. destruct (rule_enter_spec s1) as (_ & _ & _ & _ & Q & []). destruct F.
  intros ? ? ? ? ? ? ? Es ? K ?.
  split; [|split; [unfold wf in *; congruence|exists a'; split; [congruence|exact S]]].
  split; try congruence; try lia.
  intros E'. destruct (Nat.ltb (max_position s1) (max_position s')) eqn:L; [apply Nat.ltb_lt in L|]; lia.
Qed.

Lemma rule_ok_post rule s1 s' a a' :
  wf s' -> frame (snd (rule_enter s1)) s' -> Inv (stack s') a' -> snaps a' = snaps a ->
  post s1 a (rule_ok rule (fst (rule_enter s1)) s').
Proof.
  intros W F I S.
  destruct (rule_enter_spec s1) as (Rp & Ri & Rc & Rm & Q & SQ). destruct SQ.
  set (fr := fst (rule_enter s1)) in *. set (s2 := snd (rule_enter s1)) in *.
  unfold rule_ok.
  set (sa := if lk_eqb (lookahead s') LNeg then track s' rule (rf_pos fr) (rf_pai fr) (rf_nai fr) (rf_attempts fr) else s').
  assert (T : same_but_attempts s' sa).
  { unfold sa. destruct (lk_eqb (lookahead s') LNeg); [apply track_same|split; reflexivity]. }
  destruct T. pose proof F as F0. destruct F0.
  replace (emits sa) with (emits s1) by (unfold emits; rewrite t_la0, t_at0, f_la0, f_at0, q_la0, q_at0; reflexivity).
  pose proof (csn_ok s2 s' F) as CS. rewrite q_cs0, q_mp0 in CS.
  (* the End token, when the rule emits its pair *)
  assert (EB : exists sb,
    (if emits s1 then match set_start_end (queue sa) (rf_index fr) (length (queue sa)) with
                      | None => None
                      | Some q => Some (set_queue sa (QEnd (rf_index fr) rule None (pos sa) :: q))
                      end
     else Some sa) = Some sb /\ same_but_queue sa sb /\ exists nw, untagq (queue sb) = nw ++ untagq (queue s1)).
  { destruct f_queue0 as [new Eq]. rewrite Q in Eq. destruct (emits s1).
    - cbn [untagq map untag] in Eq. fold (untagq (queue s1)) in Eq. rewrite <- t_queue0 in Eq.
      destruct (set_start_end_ok (queue sa) new 0 (pos s1) (untagq (queue s1)) (length (queue sa)) Eq) as (q' & E1 & E2 & _).
      rewrite untagq_length in E1. rewrite Ri, E1. eexists. split; [reflexivity|]. split; [split; reflexivity|].
      exists (QEnd (length (queue s1)) rule None (pos sa) :: new ++ [QStart (length (queue sa)) (pos s1)]).
      cbn. fold (untagq q'). rewrite E2, <- app_assoc. reflexivity.
    - exists sa. split; [reflexivity|]. split; [split; reflexivity|]. exists new. congruence. }
  destruct EB as (sb & -> & [] & QB).
  destruct (add_rule_ok sb rule (rf_csn fr) (rf_max fr)) as (s3 & E3 & C & M & K);
    [rewrite Rc, Rm, q_mp1, q_cs1, t_mp0, t_cs0; exact CS|].
  assert (E3' : (if pa_enabled sb then lift ROk (try_add_rule_to_stack sb rule (rf_csn fr) (rf_max fr)) else ROk sb) = ROk s3)
    by (destruct (pa_enabled sb); [rewrite E3; reflexivity|congruence]).
  rewrite E3'. destruct C.
  apply (rule_finish_post s1 s' s3 a a' W F I S); try congruence;
    [rewrite Rc, Rm, q_mp1, t_mp0 in K; exact K|rewrite c_queue0; exact QB].
Qed.

Lemma rule_err_post rule s1 s' a a' :
  wf s' -> frame (snd (rule_enter s1)) s' -> Inv (stack s') a' -> snaps a' = snaps a ->
  post s1 a (rule_err rule (fst (rule_enter s1)) s').
Proof.
  intros W F I S.
  destruct (rule_enter_spec s1) as (Rp & Ri & Rc & Rm & Q & SQ). destruct SQ.
  set (fr := fst (rule_enter s1)) in *. set (s2 := snd (rule_enter s1)) in *.
  unfold rule_err. pose proof F as F0. destruct F0.
  pose proof (csn_ok s2 s' F) as CS. rewrite q_cs0, q_mp0 in CS.
  (* the state after the optional tracking step *)
  assert (R1 : exists s3,
     (if negb (lk_eqb (lookahead s') LNeg)
      then let t := track s' rule (rf_pos fr) (rf_pai fr) (rf_nai fr) (rf_attempts fr) in
           if pa_enabled t then try_add_rule_to_stack t rule (rf_csn fr) (rf_max fr) else Some t
      else Some s') = Some s3 /\
     input s3 = input s' /\ pos s3 = pos s' /\ queue s3 = queue s' /\ lookahead s3 = lookahead s' /\
     atomicity s3 = atomicity s' /\ stack s3 = stack s' /\ calls s3 = calls s' /\ limit s3 = limit s' /\
     pa_enabled s3 = pa_enabled s' /\ max_position s3 = max_position s' /\
     (if Nat.ltb (max_position s1) (max_position s') then 0 else length (call_stacks s1)) <= length (call_stacks s3)).
  { destruct (negb (lk_eqb (lookahead s') LNeg)); [|exists s'; repeat split; auto].
    cbv zeta. destruct (track_same s' rule (rf_pos fr) (rf_pai fr) (rf_nai fr) (rf_attempts fr)).
    destruct (add_rule_ok (track s' rule (rf_pos fr) (rf_pai fr) (rf_nai fr) (rf_attempts fr)) rule (rf_csn fr) (rf_max fr))
      as (s3 & E3 & [] & M & K); [rewrite Rc, Rm, t_mp0, t_cs0; exact CS|].
    exists s3. rewrite Rc, Rm, t_mp0 in K. repeat split; congruence. }
  destruct R1 as (s3 & E & H1 & H2 & H3 & H4 & H5 & H6 & H7 & H8 & H9 & H10 & H11).
  cbv zeta in E. rewrite E.
  replace (emits s3) with (emits s1) by (unfold emits; rewrite H4, H5, f_la0, f_at0, q_la0, q_at0; reflexivity).
  destruct f_queue0 as [new Eq]. rewrite Q in Eq.
  apply post_errok. destruct (emits s1).
  - apply (rule_finish_post s1 s' _ a a' W F I S); cbn; try congruence.
    exists []. cbn [untagq map untag] in Eq. fold (untagq (queue s1)) in Eq. rewrite H3, Ri.
    apply (untagq_truncate_back (queue s1) (queue s') (length (queue s1)) (new ++ [QStart 0 (pos s1)])); auto.
    rewrite Eq, <- app_assoc. reflexivity.
  - apply (rule_finish_post s1 s' s3 a a' W F I S); try congruence. exists new. congruence.
Qed.

Lemma snaps_ssnapshot (a : sspec) : snaps (ssnapshot a) = cur a :: snaps a.
Proof. reflexivity. Qed.

Lemma checkpoint_ok_post s0 a0 s' a' (k : pst -> res) (kk : forall x, k x = ROk x \/ k x = RErr x) :
  frame s0 s' -> wf s' -> Inv (stack s') a' -> snaps a' = cur a0 :: snaps a0 ->
  post s0 a0 (lift k (checkpoint_ok s')).
Proof.
  intros F W I S. unfold checkpoint_ok. destruct (inv_clear I) as (st & E & I2). rewrite E. cbn [option_map lift].
  assert (P : post s0 a0 (ROk (set_stack s' st))).
  { cbn. split; [eapply frame_trans; [exact F|apply frame_set_stack]|]. split; [exact W|].
    exists (sclear a'). split; [exact I2|]. cbn. rewrite S. reflexivity. }
  destruct (kk (set_stack s' st)) as [-> | ->]; exact P.
Qed.

Lemma restore_post s0 a0 s' a' (k : pst -> res) (kk : forall x, k x = ROk x \/ k x = RErr x) :
  frame s0 s' -> wf s' -> Inv (stack s') a' -> snaps a' = cur a0 :: snaps a0 ->
  post s0 a0 (lift k (restore_st s')).
Proof.
  intros F W I S. unfold restore_st. destruct (inv_restore I) as (st & E & I2). rewrite E. cbn [option_map lift].
  assert (P : post s0 a0 (ROk (set_stack s' st))).
  { cbn. split; [eapply frame_trans; [exact F|apply frame_set_stack]|]. split; [exact W|].
    exists (srestore a'). split; [exact I2|]. unfold srestore. rewrite S. reflexivity. }
  destruct (kk (set_stack s' st)) as [-> | ->]; exact P.
Qed.

Lemma guard_frame k s s1 : guard k s = Some s1 ->
  frame s s1 /\ stack s1 = stack s /\ pos s1 = pos s /\ queue s1 = queue s /\ input s1 = input s
  /\ call_stacks s1 = call_stacks s /\ max_position s1 = max_position s.
Proof. destruct k; [apply inc_call_frame|]. intros [= <-]. split; [apply frame_refl|repeat split]. Qed.

Lemma post_bind s a r kOk kErr :
  post s a r ->
  (forall s' a', wf s' -> Inv (stack s') a' -> post s' a' (kOk s')) ->
  (forall s' a', wf s' -> Inv (stack s') a' -> post s' a' (kErr s')) ->
  post s a (bind r kOk kErr).
Proof. destruct r; cbn [bind]; auto; intros (F & W & a' & I & S) HO HE; eapply post_trans; eauto. Qed.

Lemma bracket_post p b : bracket_of p = Some b -> forall s1 a, wf s1 -> Inv (stack s1) a ->
  exists a2, wf (b_enter b s1) /\ Inv (stack (b_enter b s1)) a2 /\
    forall r, post (b_enter b s1) a2 r -> post s1 a (bind r (b_ok b s1) (b_err b s1)).
Proof.
  destruct p; try discriminate; intros [= <-] s1 g W I; cbn [b_enter b_ok b_err].
  - destruct (rule_enter_spec s1) as (_ & _ & _ & _ & _ & []).
    exists g. split; [unfold wf in *; congruence|]. split; [congruence|].
    intros [s'|s'|k|] P; cbn [bind]; auto; destruct P as (F & W' & a' & I' & S');
      [eapply rule_ok_post|eapply rule_err_post]; eauto.
  - exists (ssnapshot g). split; [exact W|]. split; [now apply inv_snapshot|].
    assert (Fc : frame s1 (checkpoint s1)) by apply frame_set_stack.
    intros [s'|s'|k|] P; cbn [bind]; auto; destruct P as (F & W' & a' & I' & S').
    + apply (checkpoint_ok_post s1 g s' a' ROk); auto. eapply frame_trans; eauto.
    + apply (restore_post s1 g _ a' RErr); auto.
      * destruct F. split; cbn in *; try congruence; try lia.
        exists []. cbn. destruct f_queue0 as [new Eq]. eapply untagq_truncate_back; eauto.
      * unfold wf in *. cbn. destruct F. cbn in *. congruence.
  - exists g. split; [exact W|]. split; [exact I|]. intros r P. now rewrite bind_ret.
  - exists g. split; [exact W|]. split; [exact I|]. intros [s'|s'|k|] P; exact P.
  - exists (ssnapshot g). split; [exact W|]. split; [now apply inv_snapshot|].
    intros [s'|s'|k|] P; cbn [bind]; auto; destruct P as (F & W' & a' & I' & S');
      (apply (restore_post s1 g _ a'); auto;
       [intros x; destruct positive; auto
       |destruct F; split; cbn in *; try congruence; try lia; destruct f_queue0 as [new Eq]; exists new; exact Eq
       |unfold wf in *; cbn; destruct F; cbn in *; congruence]).
  - exists g. destruct (negb (atom_eqb (atomicity s1) a)).
    + split; [exact W|]. split; [exact I|].
      intros [s'|s'|k|] P; cbn [bind]; auto; destruct P as (F & W' & a' & I' & S');
        (split; [|split; [exact W'|exists a'; split; [exact I'|exact S']]];
         destruct F; cbn in *; split; cbn; try congruence; try lia; exact f_queue0).
    + split; [exact W|]. split; [exact I|]. intros [s'|s'|k|] P; exact P.
  - exists g. split; [exact W|]. split; [exact I|].
    intros [s'|s'|k|] P; cbn [bind]; auto. destruct P as (F & W' & a' & I' & S').
    destruct (Nat.ltb (pos s') (pos s1)) eqn:L; [apply Nat.ltb_lt in L; destruct F; lia|].
    split; [eapply frame_trans; [exact F|apply frame_set_stack]|]. split; [exact W'|].
    eexists. split; [apply inv_push; exact I'|exact S'].
  - exists (ssnapshot g). split; [exact W|]. split; [now apply inv_snapshot|].
    assert (Fc : frame s1 (checkpoint s1)) by apply frame_set_stack.
    intros [s'|s'|k|] P; cbn [bind]; auto; destruct P as (F & W' & a' & I' & S');
      [apply (checkpoint_ok_post s1 g s' a' ROk)|apply (restore_post s1 g s' a' RErr)]; auto; eapply frame_trans; eauto.
Qed.

Section FrameTheorem.
Variable cfg : config.
Variable E : env.

Theorem exec_post : forall fuel p s a, wf s -> Inv (stack s) a -> post s a (exec cfg E fuel p s).
Proof.
  induction fuel as [|fuel IH]; intros p s a W I; [exact Logic.I|].
  destruct (exec_step cfg E fuel p s) as [o|p q|p q|p|p q|f q _|f _|p b _ _|p b s1 B G].
  - now apply exec_prim_post.
  - apply post_bind; [now apply IH|intros; now apply IH|intros; now apply post_ret].
  - apply post_bind; [now apply IH|intros; now apply post_ret|intros; now apply IH].
  - apply post_bind; [now apply IH|intros; now apply IH|intros; now apply post_ret].
  - now apply IH.
  - now apply IH.
  - discriminate.
  - now apply post_ret.
  - destruct (guard_frame _ _ _ G) as (F1 & St & Po & _ & In & _).
    destruct (bracket_post p b B s1 a) as (a2 & W2 & I2 & X); [unfold wf in *; congruence|now rewrite St|].
    eapply post_trans; [exact F1|reflexivity|]. apply X, IH; assumption.
Qed.

End FrameTheorem.
