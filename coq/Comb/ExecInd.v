(* One step of `exec`, classified.
   Eight combinators share one shape: count the call (all but PRestoreOnErr), transform the state,
   run the body, hand its Ok or Err result to an exit that does not recurse.  `bracket_of` names the
   three state transformers of each; `exec_step` delivers a step of the interpreter with the call
   counted and the shape recognised, so that an induction over `exec` has one case for all eight. *)
From Coq Require Import List Arith ZArith Bool.
Import ListNotations.
Require Import PV.Stack.Model PV.Comb.PState PV.Comb.Bytes PV.Comb.Prog PV.Comb.Exec.

(* Every primitive but the node tag replaces the stack and then reports a position result: it is
   `apply_pres` on the state with the new stack.  `prim_act` computes stack, result and token from
   input, position and stack alone, so a property of `exec_prim` is one of `apply_pres`, of the node
   tag, and of the three arguments. *)
Inductive pact :=
| APanic (k : pkind)
| APres (st : stk (list byte)) (r : pres) (t : option ptoken)
| ATag (t : nat).

Definition slice_pres (inp : list byte) (p : nat) (st : stk (list byte)) (i : Z) (j : option Z) (d : dir) : pres :=
  match constrain_idxs i j (length (cache st)) with
  | None => PStay
  | Some (a, b) =>
    if Nat.leb b a then PMoved p else
    let sl := vslice a b (cache st) in
    match match_all inp p (match d with BottomToTop => sl | TopToBottom => rev sl end) with
    | Some q => PMoved q
    | None => PStay
    end
  end.

Definition prim_act (cfg : config) (o : prim) (inp : list byte) (p : nat) (st : stk (list byte)) : pact :=
  match o with
  | MOk => APres st (PMoved p) None
  | MErr => APres st PStay None
  | MMatchString str => APres st (match_string inp p str) (Some (TSens str))
  | MMatchInsens str => APres st (match_insensitive inp p str) (Some (TInsens str))
  | MMatchRange lo hi => APres st (match_range inp p lo hi) (Some (TRange lo hi))
  | MMatchCharBy rs => APres st (match_char_by inp p rs) (Some TBuiltin)
  | MSkip n => APres st (skip inp p n) None
  | MSkipUntil ss => APres st (match skip_until cfg inp p ss with None => PPanic | Some q => PMoved q end) None
  | MSoi => APres st (if Nat.eqb p 0 then PMoved p else PStay) None
  | MEoi => APres st (if Nat.eqb p (length inp) then PMoved p else PStay) None
  | MStackPushLit str => APres (push st str) (PMoved p) None
  | MStackPeek =>
      match peek st with None => APanic PkEmptyStack | Some str => APres st (match_string inp p str) (Some (TSens str)) end
  | MStackPop =>
      match pop st with
      | (_, None) => APanic PkEmptyStack
      | (st', Some str) => APres st' (match_string inp p str) (Some (TSens str))
      end
  | MStackDrop => match pop st with (_, None) => APres st PStay None | (st', Some _) => APres st' (PMoved p) None end
  | MStackMatchPeek => APres st (slice_pres inp p st 0%Z None TopToBottom) None
  | MPeekSlice i j d => APres st (slice_pres inp p st i j d) None
  | MStackMatchPop =>
      match match_pop_loop (S (length (cache st))) inp st p with
      | None => APanic PkInternal
      | Some (st', q, true) => APres st' (PMoved q) None
      | Some (st', _, false) => APres st' PStay None
      end
  | MTagNode t => ATag t
  end.

Definition tag_node (s : pst) (t : nat) : res :=
  if negb (lk_eqb (lookahead s) LNone) then ROk s else
  match queue s with
  | QEnd si r _ p :: q => ROk (set_queue s (QEnd si r (Some t) p :: q))
  | _ => ROk s
  end.

Definition run_act (s : pst) (a : pact) : res :=
  match a with
  | APanic k => RPanic k
  | APres st r t => apply_pres (set_stack s st) r t
  | ATag t => tag_node s t
  end.

Lemma set_stack_id s : set_stack s (stack s) = s.
Proof. destruct s; reflexivity. Qed.
Lemma set_pos_id s : set_pos s (pos s) = s.
Proof. destruct s; reflexivity. Qed.

Lemma exec_prim_act cfg o s : exec_prim cfg o s = run_act s (prim_act cfg o (input s) (pos s) (stack s)).
Proof.
  destruct o; cbn [exec_prim prim_act run_act]; unfold st_match_string, peek_slice, slice_pres;
    rewrite ?set_stack_id; try reflexivity.
  - cbn [apply_pres]. now rewrite set_pos_id.
  - destruct (skip_until cfg (input s) (pos s) ss); reflexivity.
  - destruct (Nat.eqb (pos s) 0); cbn [apply_pres]; now rewrite ?set_pos_id.
  - destruct (Nat.eqb (pos s) (length (input s))); cbn [apply_pres]; now rewrite ?set_pos_id.
  - destruct (peek (stack s)); cbn [run_act]; now rewrite ?set_stack_id.
  - destruct (pop (stack s)) as [st' [str|]]; reflexivity.
  - destruct (pop (stack s)) as [st' [str|]]; cbn [run_act]; now rewrite ?set_stack_id.
  - destruct (constrain_idxs _ _ _) as [[a b]|]; [|reflexivity].
    destruct (Nat.leb b a); [cbn [apply_pres]; now rewrite set_pos_id|]. cbv zeta. destruct (match_all _ _ _); reflexivity.
  - destruct (match_pop_loop _ _ _ _) as [[[st' q] [|]]|]; reflexivity.
  - destruct (constrain_idxs _ _ _) as [[a b]|]; [|reflexivity].
    destruct (Nat.leb b a); [cbn [apply_pres]; now rewrite set_pos_id|]. cbv zeta. destruct (match_all _ _ _); reflexivity.
Qed.

Definition bind (r : res) (kOk kErr : pst -> res) : res :=
  match r with ROk s => kOk s | RErr s => kErr s | RPanic k => RPanic k | ROutOfFuel => ROutOfFuel end.

Lemma bind_ret r : bind r ROk RErr = r.
Proof. destruct r; reflexivity. Qed.

(* b_ok and b_err take the state at entry (after counting) and the state the body ended in *)
Record bracket := {
  b_counted : bool;
  b_body : prog;
  b_enter : pst -> pst;
  b_ok : pst -> pst -> res;
  b_err : pst -> pst -> res }.

Definition guard (counted : bool) (s : pst) : option pst := if counted then inc_call s else Some s.

Definition bracket_of (p : prog) : option bracket :=
  match p with
  | PRule r q => Some
      {| b_counted := true; b_body := q; b_enter := fun s1 => snd (rule_enter s1);
         b_ok := fun s1 => rule_ok r (fst (rule_enter s1)); b_err := fun s1 => rule_err r (fst (rule_enter s1)) |}
  | PSequence q => Some
      {| b_counted := true; b_body := q; b_enter := checkpoint;
         b_ok := fun _ s' => lift ROk (checkpoint_ok s');
         b_err := fun s1 s' => lift RErr (restore_st (set_queue (set_pos s' (pos s1)) (vtruncate (length (queue s1)) (queue s')))) |}
  | PRepeat q => Some
      {| b_counted := true; b_body := PRepeatLoop q; b_enter := fun s1 => s1; b_ok := fun _ => ROk; b_err := fun _ => RErr |}
  | POptional q => Some
      {| b_counted := true; b_body := q; b_enter := fun s1 => s1; b_ok := fun _ => ROk; b_err := fun _ => ROk |}
  | PLookahead positive q => Some
      {| b_counted := true; b_body := q;
         b_enter := fun s1 => checkpoint (set_lookahead s1 (enter_lookahead positive (lookahead s1)));
         b_ok := fun s1 s' => lift (fun x => if positive then ROk x else RErr x)
                                   (restore_st (set_lookahead (set_pos s' (pos s1)) (lookahead s1)));
         b_err := fun s1 s' => lift (fun x => if positive then RErr x else ROk x)
                                    (restore_st (set_lookahead (set_pos s' (pos s1)) (lookahead s1))) |}
  | PAtomic a q => Some
      {| b_counted := true; b_body := q;
         b_enter := fun s1 => if negb (atom_eqb (atomicity s1) a) then set_atomicity s1 a else s1;
         b_ok := fun s1 s' => ROk (if negb (atom_eqb (atomicity s1) a) then set_atomicity s' (atomicity s1) else s');
         b_err := fun s1 s' => RErr (if negb (atom_eqb (atomicity s1) a) then set_atomicity s' (atomicity s1) else s') |}
  | PStackPush q => Some
      {| b_counted := true; b_body := q; b_enter := fun s1 => s1;
         b_ok := fun s1 s' => if Nat.ltb (pos s') (pos s1) then RPanic PkInternal
                              else ROk (set_stack s' (push (stack s') (firstn (pos s' - pos s1) (skipn (pos s1) (input s')))));
         b_err := fun _ => RErr |}
  | PRestoreOnErr q => Some
      {| b_counted := false; b_body := q; b_enter := checkpoint;
         b_ok := fun _ s' => lift ROk (checkpoint_ok s'); b_err := fun _ s' => lift RErr (restore_st s') |}
  | _ => None
  end.

Section Step.
Variable cfg : config.
Variable E : env.

Inductive step (n : nat) (s : pst) : prog -> res -> Prop :=
| step_prim o : step n s (PPrim o) (exec_prim cfg o s)
| step_then p q : step n s (PAndThen p q) (bind (exec cfg E n p s) (exec cfg E n q) RErr)
| step_else p q : step n s (POrElse p q) (bind (exec cfg E n p s) ROk (exec cfg E n q))
| step_loop p : step n s (PRepeatLoop p) (bind (exec cfg E n p s) (exec cfg E n (PRepeatLoop p)) ROk)
| step_if p q : step n s (PIfNonAtomic p q) (exec cfg E n (if atom_eqb (atomicity s) NonAtomic then p else q) s)
| step_call f q : E f = Some q -> step n s (PCall f) (exec cfg E n q s)
| step_undefined f : E f = None -> step n s (PCall f) (RPanic PkUndefined)
| step_refused p b : bracket_of p = Some b -> guard (b_counted b) s = None -> step n s p (RErr s)
| step_bracket p b s1 : bracket_of p = Some b -> guard (b_counted b) s = Some s1 ->
    step n s p (bind (exec cfg E n (b_body b) (b_enter b s1)) (b_ok b s1) (b_err b s1)).

Lemma exec_bracket n p b s : bracket_of p = Some b ->
  exec cfg E (S n) p s = match guard (b_counted b) s with
                         | None => RErr s
                         | Some s1 => bind (exec cfg E n (b_body b) (b_enter b s1)) (b_ok b s1) (b_err b s1)
                         end.
Proof.
  destruct p; try discriminate; intros [= <-]; cbn; try (destruct (inc_call s); reflexivity).
  - destruct (inc_call s) as [s1|]; [|reflexivity]. destruct (rule_enter s1). reflexivity.
  - destruct (inc_call s); [symmetry; apply bind_ret|reflexivity].
Qed.

Lemma exec_step n p s : step n s p (exec cfg E (S n) p s).
Proof.
  destruct (bracket_of p) as [b|] eqn:B.
  - rewrite (exec_bracket n p b s B).
    destruct (guard (b_counted b) s) eqn:G; [eapply step_bracket|eapply step_refused]; eassumption.
  - destruct p; try discriminate; cbn [exec].
    + apply step_prim.
    + apply step_loop.
    + apply step_then.
    + apply step_else.
    + pose proof (step_if n s p1 p2) as H. destruct (atom_eqb (atomicity s) NonAtomic); exact H.
    + destruct (E f) as [q|] eqn:Ef; [apply step_call|apply step_undefined]; exact Ef.
Qed.

End Step.
