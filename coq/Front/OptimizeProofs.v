(* C09: the optimizer step.  With the unroller ranges repaired (fixes/C09-4) the passes never panic on what the
   reader delivers (it refuses the counts 0 of e{0}, e{,0}, e{m,0}); with the ranges as shipped the same holds when
   every count is at most 2^32 - 3 (bound_ok, optimize_no_panic), and fails at 2^32 - 2 (see props/C09.v). *)
From Coq Require Import List Arith NArith ZArith Bool Lia String.
Import ListNotations.
Require Import PV.Pos.Model PV.Front.Shape PV.Front.Consume PV.Front.Validate PV.Front.Optimize PV.Front.ConsumeProofs
               PV.Front.OptimizeFuel.
Open Scope list_scope.

(* no count that the unroller cannot handle: nonzero where the fold would be empty, and (B given) bounded *)
Fixpoint nzb (B : option N) (e : aexpr) : bool :=
  let le k := match B with Some b => (k <=? b)%N | None => true end in
  match e with
  | APosPred x | ANegPred x | AOpt x | ARep x | ARepOnce x | APush x | ANodeTag x _ => nzb B x
  | ARepMin x k => nzb B x && le k
  | ARepExact x k | ARepMax x k => nzb B x && negb (k =? 0)%N && le k
  | ARepMinMax x _ k => nzb B x && negb (k =? 0)%N && le k
  | ASeq a b | AChoice a b => nzb B a && nzb B b
  | _ => true
  end.

Lemma convert_nz text n : node_ok text n -> nzb None (convert_node n) = true.
Proof.
  induction n; cbn [node_ok convert_node nzb]; intros H; auto; try (apply IHn; tauto);
    try (rewrite IHn1, IHn2 by tauto; reflexivity);
    try (destruct H as (_ & H1 & H2); rewrite IHn by exact H1; apply N.eqb_neq in H2; rewrite H2; reflexivity).
  rewrite IHn by tauto. reflexivity.
Qed.

(* conjunctions of nzb / optimizable facts, as propositions *)
Ltac bool_tac := repeat (rewrite ?andb_true_iff in *; cbn [nzb optimizable] in * ); intuition auto.

(* One level of a top-down map keeps nzb / optimizable when g does: with map_td_keeps, so does the whole map.
   P is a conjunction over the children and the counts of the node; H : map_kids g e = Some e' says that g is defined on
   every child c, N : P e = true that P c = true, so P holds of g's result; the counts are those of e. *)
Ltac kids_keep P g Hg N H :=
  repeat match type of H with context [g ?c] =>
    let E := fresh "E" in let Nc := fresh "N" in
    destruct (g c) eqn:E; [cbn [omap obnd] in H|discriminate H];
    destruct (P c) eqn:Nc; [apply (Hg _ _ Nc) in E|rewrite ?andb_false_r in N; discriminate N]
  end;
  injection H as <-; cbn [nzb optimizable];
  repeat match goal with E : P _ = true |- _ => rewrite E; clear E end; exact N.

Section TD.
Variable B : option N.
Variable ex : bool.
Variable f : aexpr -> option aexpr.
Lemma map_kids_nz g e e' : (forall x y, nzb B x = true -> g x = Some y -> nzb B y = true) ->
  nzb B e = true -> map_kids g e = Some e' -> nzb B e' = true.
Proof. intros Hg N H. destruct e; cbn [map_kids] in H; cbn [nzb] in N; kids_keep (nzb B) g Hg N H. Qed.
Lemma map_kids_opt g e e' : (forall x y, optimizable ex x = true -> g x = Some y -> optimizable ex y = true) ->
  optimizable ex e = true -> map_kids g e = Some e' -> optimizable ex e' = true.
Proof.
  intros Hg N H. destruct e; cbn [map_kids] in H; cbn [optimizable] in N; try discriminate N; kids_keep (optimizable ex) g Hg N H.
Qed.
Lemma map_bu_opt : (forall x, optimizable ex x = true -> exists y, f x = Some y /\ optimizable ex y = true) ->
  forall e, optimizable ex e = true -> exists e', map_bu f e = Some e' /\ optimizable ex e' = true.
Proof.
  (* per constructor: each induction hypothesis gives the image of a child and rewrites it into the goal; f on the rebuilt node is left *)
  intros Hf. induction e; intros N; cbn [map_bu]; try (apply Hf; exact N); cbn [optimizable] in N; try discriminate;
    repeat rewrite andb_true_iff in N;
    repeat match goal with
    | IH : optimizable ex ?x = true -> exists _, map_bu f ?x = Some _ /\ _ |- _ =>
        let y := fresh "y" in let E := fresh "E" in let O := fresh "O" in
        destruct IH as (y & E & O); [intuition auto|]; rewrite E; cbn [obnd]
    end; apply Hf; cbn [optimizable]; repeat rewrite andb_true_iff; intuition auto.
Qed.
End TD.

Lemma rotate_internal_nz B : forall fuel e y, nzb B e = true -> rotate_internal fuel e = Some y -> nzb B y = true.
Proof.
  induction fuel as [|k IH]; intros e y N H; [discriminate|]. cbn [rotate_internal] in H.
  destruct e; try (inversion H; subst; exact N).
  - destruct e1; try (inversion H; subst; exact N). apply IH in H; [exact H|]. bool_tac.
  - destruct e1; try (inversion H; subst; exact N). apply IH in H; [exact H|]. bool_tac.
Qed.
Lemma populate_choices_skip : forall fuel map e c y, populate_choices fuel map e c = Some (Some y) -> exists ss, y = ASkip ss.
Proof.
  induction fuel as [|k IH]; intros map e c y H; [discriminate|]. cbn [populate_choices] in H.
  destruct e; try discriminate.
  - inversion H. eauto.
  - destruct (alookup map n); [eauto|discriminate].
  - destruct e1; try discriminate; [eauto|].
    destruct (alookup map n); [|discriminate].
    destruct (populate_choices k map a []) as [[[]|]|]; cbn [obnd] in H; try discriminate. eauto.
Qed.
Lemma skip_fn_nz B fuel map x y : nzb B x = true -> skip_fn fuel map x = Some y -> nzb B y = true.
Proof.
  intros N H. unfold skip_fn in H.
  destruct x; try (inversion H; subst; exact N).
  destruct x; try (inversion H; subst; exact N).
  destruct x1; try (inversion H; subst; exact N).
  destruct x2; try (inversion H; subst; exact N).
  destruct (str_eqb n (lit "ANY")); [|inversion H; subst; exact N].
  destruct (populate_choices fuel map x1 []) as [[z|]|] eqn:E; cbn [obnd] in H; try discriminate; inversion H; subst; [|exact N].
  destruct (populate_choices_skip _ _ _ _ _ E) as (ss & ->). reflexivity.
Qed.

Lemma seq_of_opt ex : forall l, l <> [] -> Forall (fun x => optimizable ex x = true) l ->
  exists y, seq_of l = Some y /\ optimizable ex y = true.
Proof.
  induction l as [|e l IH]; intros Hne F; [congruence|]. inversion F as [|? ? Fe Fl]; subst.
  destruct l as [|e2 l2]; [exists e; auto|].
  destruct IH as (y & E & O); [discriminate|exact Fl|].
  cbn [seq_of] in *. rewrite E. exists (ASeq e y). cbn. rewrite Fe, O. auto.
Qed.
Lemma repeat_forall {A} (P : A -> Prop) x n : P x -> Forall P (repeat x n).
Proof. intros H. induction n; cbn; constructor; auto. Qed.
Lemma repeat_ne {A} (x : A) n : n <> 0 -> repeat x n <> [].
Proof. destruct n; [congruence|discriminate]. Qed.

Definition bound_ok (fixed : bool) (B : option N) : Prop :=
  fixed = true \/ exists b, B = Some b /\ (b + 2 <= u32_max)%N.

Lemma unroll_fn_ok ex fixed B x : bound_ok fixed B ->
  (* the children are already unrolled *)
  (match x with
   | APosPred c | ANegPred c | AOpt c | ARep c | ARepOnce c | ARepExact c _ | ARepMin c _ | ARepMax c _ | ARepMinMax c _ _ | APush c | ANodeTag c _ => optimizable ex c = true
   | ASeq a b | AChoice a b => optimizable ex a = true /\ optimizable ex b = true
   | _ => True end) ->
  (match x with
   | ARepMin _ k => match B with Some b => (k <= b)%N | None => True end
   | ARepExact _ k | ARepMax _ k | ARepMinMax _ _ k => k <> 0%N /\ match B with Some b => (k <= b)%N | None => True end
   | _ => True end) ->
  exists y, unroll_fn ex fixed x = Some y /\ optimizable ex y = true.
Proof.
  intros BO K C.
  assert (FIT : forall k d, (d <= 2)%N -> match B with Some b => (k <= b)%N | None => True end -> fixed || u32_fits (k + d) = true).
  { intros k d Hd Hk. destruct BO as [->|(b & -> & Hb)]; [reflexivity|]. apply orb_true_iff. right. unfold u32_fits. apply N.leb_le. lia. }
  destruct x; cbn [unroll_fn]; try (eexists; split; [reflexivity|]; cbn [optimizable]; try destruct K; auto; bool_tac; fail).
  - destruct ex; eexists; (split; [reflexivity|]); cbn; rewrite ?K; auto.
  - destruct C as (Cz & Cb). rewrite (FIT n 1%N) by (auto; lia).
    apply seq_of_opt; [apply repeat_ne; lia|apply repeat_forall; exact K].
  - rewrite (FIT n 2%N) by (auto; lia).
    apply seq_of_opt; [destruct (repeat x (N.to_nat n)); discriminate|]. apply Forall_app. split; [apply repeat_forall; exact K|]. constructor; [cbn; exact K|constructor].
  - destruct C as (Cz & Cb). rewrite (FIT n 1%N) by (auto; lia).
    apply seq_of_opt; [apply repeat_ne; lia|apply repeat_forall; cbn; exact K].
  - destruct C as (Cz & Cb). rewrite (FIT n 1%N) by (auto; lia).
    apply seq_of_opt.
    + intros E. apply (f_equal (@List.length _)) in E. rewrite app_length, !repeat_length in E. cbn in E. lia.
    + apply Forall_app. split; apply repeat_forall; cbn; exact K.
Qed.

Lemma unroll_ok ex fixed B : bound_ok fixed B -> forall e, nzb B e = true ->
  exists e', map_bu (unroll_fn ex fixed) e = Some e' /\ optimizable ex e' = true.
Proof.
  (* as in map_bu_opt, with unroll_fn_ok for the rebuilt node *)
  intros BO. induction e; intros N; cbn [map_bu]; cbn [nzb] in N; repeat rewrite andb_true_iff in N;
    repeat match goal with
    | IH : nzb B ?x = true -> exists _, map_bu _ ?x = Some _ /\ _ |- _ =>
        let y := fresh "y" in let E := fresh "E" in let O := fresh "O" in
        destruct IH as (y & E & O); [intuition auto|]; rewrite E; cbn [obnd]
    end; apply (unroll_fn_ok ex fixed B); auto; cbn; auto;
    repeat match goal with
    | H : _ /\ _ |- _ => destruct H
    | H : negb (_ =? 0)%N = true |- _ => apply negb_true_iff, N.eqb_neq in H
    end; repeat split; auto; destruct B; auto; apply N.leb_le; auto.
Qed.

(* concatenate, factor, list keep `optimizable` (they only rearrange Seq / Choice / Opt / Rep / Str nodes) *)
Lemma concat_fn_ok ex ty x : optimizable ex x = true -> exists y, concat_fn ty x = Some y /\ optimizable ex y = true.
Proof.
  intros O. unfold concat_fn. destruct ty; try (eexists; split; [reflexivity|exact O]).
  destruct x; try (eexists; split; [reflexivity|exact O]).
  destruct x1; try (eexists; split; [reflexivity|exact O]); destruct x2; try (eexists; split; [reflexivity|exact O]); eexists; split; reflexivity.
Qed.
Lemma list_fn_ok ex x : optimizable ex x = true -> exists y, list_fn x = Some y /\ optimizable ex y = true.
Proof.
  intros O. unfold list_fn. destruct x; try (eexists; split; [reflexivity|exact O]).
  destruct x1; try (eexists; split; [reflexivity|exact O]). destruct x1; try (eexists; split; [reflexivity|exact O]).
  destruct (aeqb x1_1 x2); (eexists; split; [reflexivity|]); [|exact O]. bool_tac.
Qed.
Lemma factor_fn_opt ex ty x y : optimizable ex x = true -> factor_fn ty x = Some y -> optimizable ex y = true.
Proof.
  intros O H. destruct (factor_fn_factored ty x) as (y' & E & F). rewrite E in H. injection H as <-.
  destruct F; bool_tac.
Qed.

Theorem optimize_rule_no_panic ex fixed B fuel map r : bound_ok fixed B -> nzb B (abody r) = true ->
  optimize_rule ex fixed fuel map r <> OptPanic.
Proof.
  intros BO N. unfold optimize_rule.
  destruct (map_td fuel (rotate_internal fuel) (abody r)) as [e1|] eqn:E1; [|discriminate].
  pose proof (map_td_keeps _ (map_kids_nz B)) as KN.
  assert (N1 : nzb B e1 = true) by (eapply KN; [apply rotate_internal_nz|exact N|exact E1]).
  destruct (match aty r with TAtomic => map_td fuel (skip_fn fuel map) e1 | _ => Some e1 end) as [e2|] eqn:E2; [|discriminate].
  assert (N2 : nzb B e2 = true).
  { destruct (aty r); try (inversion E2; subst; exact N1). eapply KN; [apply skip_fn_nz|exact N1|exact E2]. }
  destruct (unroll_ok ex fixed B BO e2 N2) as (e3 & -> & O3).
  destruct (map_bu_opt ex (concat_fn (aty r)) (concat_fn_ok ex (aty r)) e3 O3) as (e4 & -> & O4).
  destruct (map_td (asize e4) (factor_fn (aty r)) e4) as [e5|] eqn:E5; [|discriminate].
  assert (O5 : optimizable ex e5 = true)
    by (eapply (map_td_keeps _ (map_kids_opt ex)); [apply factor_fn_opt|exact O4|exact E5]).
  destruct (map_bu_opt ex list_fn (list_fn_ok ex) e5 O5) as (e6 & -> & O6). rewrite O6. discriminate.
Qed.
Theorem optimize_no_panic ex fixed B fuel map : bound_ok fixed B -> forall rs,
  Forall (fun r => nzb B (abody r) = true) rs -> optimize ex fixed fuel map rs <> OptPanic.
Proof.
  intros BO. induction rs as [|r rs IH]; intros F; [discriminate|]. inversion F; subst. cbn [optimize].
  pose proof (optimize_rule_no_panic ex fixed B fuel map r BO H1) as P.
  destruct (optimize_rule ex fixed fuel map r); auto; congruence.
Qed.
