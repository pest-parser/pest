(* C09: str_eqb (the derived PartialEq on rule names) decides equality; `mem` is list membership. *)
From Coq Require Import List NArith Bool.
Import ListNotations.
Require Import PV.Pos.Model PV.Front.Validate.

Lemma str_eqb_refl s : str_eqb s s = true.
Proof. induction s; cbn; auto. rewrite N.eqb_refl. exact IHs. Qed.
Lemma str_eqb_eq a : forall b, str_eqb a b = true -> a = b.
Proof. induction a; destruct b; cbn; intros H; try discriminate; auto. apply andb_prop in H as [H1 H2]. apply N.eqb_eq in H1. f_equal; auto. Qed.
Lemma mem_false x T : mem x T = false <-> ~ In x T.
Proof.
  unfold mem. split.
  - intros H I. assert (X : existsb (str_eqb x) T = true) by (apply existsb_exists; exists x; split; [exact I|apply str_eqb_refl]). congruence.
  - intros H. destruct (existsb (str_eqb x) T) eqn:E; [|reflexivity]. apply existsb_exists in E as (y & I & E). apply str_eqb_eq in E. subst y. contradiction.
Qed.
