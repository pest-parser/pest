(* C09, part 1: the token forest of the meta-grammar (what `parser::parse(Rule::grammar_rules, text)`
   returns) and its SHAPE invariant.

   The front end (validate_pairs, consume_rules, docs::consume) walks over this forest with
   `pairs.next().unwrap()`, `unreachable!()`, `as_str()[1..]` ...; what discharges them is the shape of
   the forest, which is fixed by meta/src/grammar.pest:

     (R) the rules of the children of a node of rule r form a word of the regular language denoted by
         r's expression (silent rules inlined; rules inside atomic rules produce no token);
     (L) the first / last characters that r's expression fixes literally ("#" of tag_id, the quotes of
         string / character, "^" of insensitive_string followed by blank, comment or the quote);
     (S) spans are nested and ordered and lie on char boundaries of the text (any Pairs, property C04).

   `shape_ok` is the executable conjunction of (R), (L), (S); it is checked on every real parse by the
   correspondence harness.  (R) is stated with a generic regular-expression matcher (Brzozowski
   derivatives) proved equivalent to the declarative semantics `matches`.                         *)
From Coq Require Import List Arith NArith Bool Lia.
Import ListNotations.
Require Import PV.Pos.Model.

(* the variants of pest_meta::parser::Rule that can label a token *)
Inductive mrule :=
| r_EOI | r_grammar_rule | r_assignment_operator | r_opening_brace | r_closing_brace | r_opening_paren | r_closing_paren
| r_opening_brack | r_closing_brack | r_silent_modifier | r_atomic_modifier | r_compound_atomic_modifier
| r_non_atomic_modifier | r_tag_id | r_expression | r_term | r_positive_predicate_operator | r_negative_predicate_operator
| r_sequence_operator | r_choice_operator | r_optional_operator | r_repeat_operator | r_repeat_once_operator
| r_repeat_exact | r_repeat_min | r_repeat_max | r_repeat_min_max | r_number | r_integer | r_comma | r_push | r_push_literal
| r_peek_slice | r_identifier | r_string | r_insensitive_string | r_range | r_character | r_inner_str | r_inner_chr
| r_quote | r_single_quote | r_range_operator | r_grammar_doc | r_line_doc | r_inner_doc
| r_other.   (* any other variant (silent rules, rules inside atomic rules): never labels a token *)

Definition mrule_code (r : mrule) : nat :=
  match r with
  | r_EOI => 0 | r_grammar_rule => 1 | r_assignment_operator => 2 | r_opening_brace => 3 | r_closing_brace => 4
  | r_opening_paren => 5 | r_closing_paren => 6 | r_opening_brack => 7 | r_closing_brack => 8 | r_silent_modifier => 9
  | r_atomic_modifier => 10 | r_compound_atomic_modifier => 11 | r_non_atomic_modifier => 12 | r_tag_id => 13
  | r_expression => 14 | r_term => 15 | r_positive_predicate_operator => 16 | r_negative_predicate_operator => 17
  | r_sequence_operator => 18 | r_choice_operator => 19 | r_optional_operator => 20 | r_repeat_operator => 21
  | r_repeat_once_operator => 22 | r_repeat_exact => 23 | r_repeat_min => 24 | r_repeat_max => 25 | r_repeat_min_max => 26
  | r_number => 27 | r_integer => 28 | r_comma => 29 | r_push => 30 | r_push_literal => 31 | r_peek_slice => 32
  | r_identifier => 33 | r_string => 34 | r_insensitive_string => 35 | r_range => 36 | r_character => 37
  | r_inner_str => 38 | r_inner_chr => 39 | r_quote => 40 | r_single_quote => 41 | r_range_operator => 42
  | r_grammar_doc => 43 | r_line_doc => 44 | r_inner_doc => 45 | r_other => 46
  end.
Definition mrule_eqb (a b : mrule) : bool := Nat.eqb (mrule_code a) (mrule_code b).
(* mrule_code has a left inverse: the n-th variant *)
Definition mrules : list mrule :=
  [r_EOI; r_grammar_rule; r_assignment_operator; r_opening_brace; r_closing_brace; r_opening_paren; r_closing_paren;
   r_opening_brack; r_closing_brack; r_silent_modifier; r_atomic_modifier; r_compound_atomic_modifier;
   r_non_atomic_modifier; r_tag_id; r_expression; r_term; r_positive_predicate_operator; r_negative_predicate_operator;
   r_sequence_operator; r_choice_operator; r_optional_operator; r_repeat_operator; r_repeat_once_operator;
   r_repeat_exact; r_repeat_min; r_repeat_max; r_repeat_min_max; r_number; r_integer; r_comma; r_push; r_push_literal;
   r_peek_slice; r_identifier; r_string; r_insensitive_string; r_range; r_character; r_inner_str; r_inner_chr;
   r_quote; r_single_quote; r_range_operator; r_grammar_doc; r_line_doc; r_inner_doc].
Lemma nth_mrule_code r : nth (mrule_code r) mrules r_other = r.
Proof. destruct r; reflexivity. Qed.
Lemma mrule_eqb_eq a b : mrule_eqb a b = true <-> a = b.
Proof.
  unfold mrule_eqb. rewrite Nat.eqb_eq. split; [|intros ->; reflexivity].
  intros H. rewrite <- (nth_mrule_code a), H. apply nth_mrule_code.
Qed.
Lemma mrule_eqb_refl a : mrule_eqb a a = true.
Proof. apply mrule_eqb_eq. reflexivity. Qed.

(* a Pair: rule, span (byte offsets), children *)
Inductive tok := Tok (r : mrule) (s e : nat) (kids : list tok).
Definition trule (t : tok) : mrule := match t with Tok r _ _ _ => r end.
Definition tstart (t : tok) : nat := match t with Tok _ s _ _ => s end.
Definition tend (t : tok) : nat := match t with Tok _ _ e _ => e end.
Definition tkids (t : tok) : list tok := match t with Tok _ _ _ k => k end.
Definition word (l : list tok) : list mrule := map trule l.

(* ------------------------------------------------------------------ regular expressions over mrule *)
Inductive re :=
| REmpty                     (* no word *)
| REps
| RSym (r : mrule)
| RCat (a b : re)
| RAlt (a b : re)
| RStar (a : re).
Definition ROpt (a : re) : re := RAlt a REps.

Inductive matches : re -> list mrule -> Prop :=
| m_eps : matches REps []
| m_sym r : matches (RSym r) [r]
| m_cat a b u v : matches a u -> matches b v -> matches (RCat a b) (u ++ v)
| m_alt_l a b u : matches a u -> matches (RAlt a b) u
| m_alt_r a b u : matches b u -> matches (RAlt a b) u
| m_star_nil a : matches (RStar a) []
| m_star_cons a u v : matches a u -> matches (RStar a) v -> matches (RStar a) (u ++ v).

Fixpoint nullable (a : re) : bool :=
  match a with
  | REmpty => false | REps => true | RSym _ => false
  | RCat x y => nullable x && nullable y
  | RAlt x y => nullable x || nullable y
  | RStar _ => true
  end.
Fixpoint deriv (c : mrule) (a : re) : re :=
  match a with
  | REmpty => REmpty | REps => REmpty
  | RSym r => if mrule_eqb r c then REps else REmpty
  | RCat x y => if nullable x then RAlt (RCat (deriv c x) y) (deriv c y) else RCat (deriv c x) y
  | RAlt x y => RAlt (deriv c x) (deriv c y)
  | RStar x => RCat (deriv c x) (RStar x)
  end.
Fixpoint re_matchb (a : re) (w : list mrule) : bool :=
  match w with [] => nullable a | c :: w' => re_matchb (deriv c a) w' end.

(* ------------------------------------------------------------------ grammar.pest, rule by rule *)
Definition sy := RSym.
Fixpoint cat (l : list re) : re := match l with [] => REps | [a] => a | a :: r => RCat a (cat r) end.
Fixpoint alt (l : list re) : re := match l with [] => REmpty | [a] => a | a :: r => RAlt a (alt r) end.

(* modifier = _{ silent_modifier | atomic_modifier | compound_atomic_modifier | non_atomic_modifier } *)
Definition re_modifier := alt [sy r_silent_modifier; sy r_atomic_modifier; sy r_compound_atomic_modifier; sy r_non_atomic_modifier].
(* node_tag = _{ tag_id ~ assignment_operator } *)
Definition re_node_tag := cat [sy r_tag_id; sy r_assignment_operator].
Definition re_prefix := alt [sy r_positive_predicate_operator; sy r_negative_predicate_operator].
Definition re_infix := alt [sy r_sequence_operator; sy r_choice_operator].
Definition re_postfix := alt [sy r_optional_operator; sy r_repeat_operator; sy r_repeat_once_operator; sy r_repeat_exact;
                              sy r_repeat_min; sy r_repeat_max; sy r_repeat_min_max].
(* terminal = _{ _push_literal | _push | peek_slice | identifier | string | insensitive_string | range } *)
Definition re_terminal := alt [sy r_push_literal; sy r_push; sy r_peek_slice; sy r_identifier; sy r_string; sy r_insensitive_string; sy r_range].
(* node = _{ opening_paren ~ expression ~ closing_paren | terminal } *)
Definition re_node := RAlt (cat [sy r_opening_paren; sy r_expression; sy r_closing_paren]) re_terminal.

Definition rule_re (r : mrule) : re :=
  match r with
  (* grammar_rule = { identifier ~ assignment_operator ~ modifier? ~ opening_brace ~ expression ~ closing_brace | line_doc } *)
  | r_grammar_rule => RAlt (cat [sy r_identifier; sy r_assignment_operator; ROpt re_modifier; sy r_opening_brace; sy r_expression; sy r_closing_brace])
                           (sy r_line_doc)
  (* expression = { choice_operator? ~ term ~ (infix_operator ~ term)* } *)
  | r_expression => cat [ROpt (sy r_choice_operator); sy r_term; RStar (RCat re_infix (sy r_term))]
  (* term = { node_tag? ~ prefix_operator* ~ node ~ postfix_operator* } *)
  | r_term => cat [ROpt re_node_tag; RStar re_prefix; re_node; RStar re_postfix]
  | r_repeat_exact => cat [sy r_opening_brace; sy r_number; sy r_closing_brace]
  | r_repeat_min => cat [sy r_opening_brace; sy r_number; sy r_comma; sy r_closing_brace]
  | r_repeat_max => cat [sy r_opening_brace; sy r_comma; sy r_number; sy r_closing_brace]
  | r_repeat_min_max => cat [sy r_opening_brace; sy r_number; sy r_comma; sy r_number; sy r_closing_brace]
  (* _push = { "PUSH" ~ opening_paren ~ expression ~ closing_paren } *)
  | r_push => cat [sy r_opening_paren; sy r_expression; sy r_closing_paren]
  | r_push_literal => cat [sy r_opening_paren; sy r_string; sy r_closing_paren]
  (* peek_slice = { "PEEK" ~ opening_brack ~ integer? ~ range_operator ~ integer? ~ closing_brack } *)
  | r_peek_slice => cat [sy r_opening_brack; ROpt (sy r_integer); sy r_range_operator; ROpt (sy r_integer); sy r_closing_brack]
  (* string = ${ quote ~ inner_str ~ quote } ; insensitive_string = { "^" ~ string } *)
  | r_string => cat [sy r_quote; sy r_inner_str; sy r_quote]
  | r_insensitive_string => sy r_string
  (* range = { character ~ range_operator ~ character } ; character = ${ single_quote ~ inner_chr ~ single_quote } *)
  | r_range => cat [sy r_character; sy r_range_operator; sy r_character]
  | r_character => cat [sy r_single_quote; sy r_inner_chr; sy r_single_quote]
  (* grammar_doc = ${ "//!" ~ space? ~ inner_doc } ; line_doc = ${ "///" ~ space? ~ inner_doc } *)
  | r_grammar_doc => sy r_inner_doc
  | r_line_doc => sy r_inner_doc
  | r_other => REmpty
  (* every other rule is a literal or atomic: no children *)
  | _ => REps
  end.
(* grammar_rules = _{ SOI ~ grammar_doc* ~ grammar_rule* ~ EOI }  (silent: its children are the top-level forest) *)
Definition top_re : re := cat [RStar (sy r_grammar_doc); RStar (sy r_grammar_rule); sy r_EOI].

(* ------------------------------------------------------------------ (L): literal first / last characters *)
Definition ch_hash : char := 35%N.      (* hash *)
Definition ch_dquote : char := 34%N.    (* double quote *)
Definition ch_squote : char := 39%N.    (* single quote *)
Definition ch_caret : char := 94%N.     (* caret *)
Definition ch_bslash : char := 92%N.    (* backslash *)

Definition last_is (c : char) (s : str) : bool := match rev s with x :: _ => ceq x c | [] => false end.
Definition lex_okb (r : mrule) (s : str) : bool :=
  match r with
  | r_tag_id => match s with c :: _ => ceq c ch_hash | [] => false end
  | r_string => match s with c :: (_ :: _) as rest => ceq c ch_dquote && last_is ch_dquote rest | _ => false end
  | r_character => match s with c :: (_ :: _) as rest => ceq c ch_squote && last_is ch_squote rest | _ => false end
  (* "^" then (implicit whitespace / comment)* then the string: the second char is a blank, '/' or the quote *)
  | r_insensitive_string =>
      match s with
      | c :: d :: (_ :: _) as rest => ceq c ch_caret && (d <? 128)%N && negb (ceq d ch_bslash) && last_is ch_dquote rest
      | _ => false
      end
  | _ => true
  end.

(* ------------------------------------------------------------------ (S) + (R) + (L) *)
(* children ordered, non-overlapping, inside [lo, hi]; every offset a char boundary (slice <> None) *)
Definition span_okb (text : str) (a b : nat) : bool := match slice text a b with Some _ => true | None => false end.

Fixpoint tok_okb (text : str) (t : tok) {struct t} : bool :=
  match t with
  | Tok r s e kids =>
      span_okb text s e
      && re_matchb (rule_re r) (word kids)
      && (match slice text s e with Some w => lex_okb r w | None => false end)
      && (fix go (lo : nat) (l : list tok) {struct l} : bool :=
            match l with
            | [] => Nat.leb lo e
            | k :: l' => Nat.leb lo (tstart k) && tok_okb text k && go (tend k) l'
            end) s kids
  end.
Fixpoint forest_okb (text : str) (lo hi : nat) (l : list tok) : bool :=
  match l with
  | [] => Nat.leb lo hi
  | k :: l' => Nat.leb lo (tstart k) && tok_okb text k && forest_okb text (tend k) hi l'
  end.
Definition shape_ok (text : str) (f : list tok) : bool :=
  re_matchb top_re (word f) && forest_okb text 0 (blen text) f.

(* nesting depth of a forest: the fuel of the walks over it *)
Fixpoint tdepth (t : tok) : nat :=
  match t with Tok _ _ _ kids => S ((fix go (l : list tok) : nat := match l with [] => 0 | k :: l' => Nat.max (tdepth k) (go l') end) kids) end.
Fixpoint fdepth (l : list tok) : nat := match l with [] => 0 | k :: l' => Nat.max (tdepth k) (fdepth l') end.
