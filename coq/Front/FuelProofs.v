(* C09: the fuel of the model is an artefact.
   - validate_ast: more fuel than there are rules always suffices (a rule on the trace is never entered again);
   - consume_rules_with_spans: more fuel than the nesting depth of the token forest always suffices. *)
From Coq Require Import List Arith NArith ZArith Bool Lia.
Import ListNotations.
Require Import PV.Pos.Model PV.Front.Shape PV.Front.Consume PV.Front.Validate PV.Front.StrEq PV.Front.UnescapeProofs.
Require PV.Pratt.Syntax PV.Pratt.Model PV.Pratt.Proofs.
Open Scope list_scope.

Section VF.
Variable rules : list prule.
Let names := map pname rules.

Lemma lookup_name : forall rs n r, lookup rs n = Some r -> In n (map pname rs).
Proof.
  induction rs as [|x rs IH]; intros n r H; [discriminate|]. cbn in H |- *.
  destruct (lookup rs n) eqn:E; [right; eapply IH; eauto|].
  destruct (str_eqb (pname x) n) eqn:S; [|discriminate]. left. apply str_eqb_eq. exact S.
Qed.

Definition no_fuel {A} (v : vres A) : Prop := match v with VFuel => False | _ => True end.
Lemma vtick_nf {A} (v : vres A) : no_fuel v -> no_fuel (vtick v).
Proof. destruct v; auto. Qed.
Lemma vbind_nf {A B} (v : vres A) (f : A -> vres B) : no_fuel v -> (forall a, no_fuel (f a)) -> no_fuel (vbind v f).
Proof. destruct v; cbn; auto. intros _ H. specialize (H a). destruct (f a); auto. Qed.

(* entering rule id extends the pushed part of the trace (Q, newest first) by a new name *)
Lemma push_ok T0 Q id r : NoDup Q -> incl Q names -> mem id (T0 ++ rev Q) = false -> lookup rules id = Some r ->
  NoDup (id :: Q) /\ incl (id :: Q) names /\ length Q < length names.
Proof.
  intros ND IN M L. apply mem_false in M.
  assert (NI : ~ In id Q) by (intros X; apply M, in_or_app; right; apply in_rev in X; exact X).
  assert (I : In id names) by (eapply lookup_name; eauto).
  assert (ND' : NoDup (id :: Q)) by (constructor; auto).
  assert (IN' : incl (id :: Q) names) by (intros x [<-|X]; auto).
  repeat split; auto. pose proof (NoDup_incl_length ND' IN') as Le. cbn in Le. lia.
Qed.

(* the two predicates have the same shape: one walk for both *)
Lemma nfail_nprog_nf : forall fuel T0 Q e, NoDup Q -> incl Q names -> length names - length Q < fuel ->
  no_fuel (nfail rules fuel (T0 ++ rev Q) e) /\ no_fuel (nprog rules fuel (T0 ++ rev Q) e).
Proof.
  induction fuel as [|f IH]; intros T0 Q e ND IN Lf; [lia|]. cbn [nfail nprog].
  split; induction e; cbn; auto;
    repeat (first [apply vtick_nf | apply vbind_nf | intros [] | exact I | assumption
      | match goal with |- no_fuel (if ?b then _ else _) => destruct b eqn:? end
      | match goal with |- no_fuel (match ?o with Some _ => _ | None => _ end) => destruct o eqn:? end ]).
  (* the rule is entered *)
  all: match goal with H : negb (mem ?id _) = true |- _ => apply negb_true_iff in H; destruct (push_ok T0 Q id _ ND IN H ltac:(eassumption)) as (A1 & A2 & A3) end.
  all: rewrite <- app_assoc; change (rev Q ++ [n]) with (rev (n :: Q)); apply IH; auto; cbn [length]; lia.
Qed.

Variable fuel0 : nat.
Variables lrf tgf : bool.
Hypothesis F0 : length names < fuel0.

Lemma nfail0_nf T e : no_fuel (nfail rules fuel0 T e).
Proof. rewrite <- (app_nil_r T). change (@nil str) with (rev (@nil str)). apply nfail_nprog_nf; [constructor|intros x []|cbn; lia]. Qed.
Lemma nprog0_nf T e : no_fuel (nprog rules fuel0 T e).
Proof. rewrite <- (app_nil_r T). change (@nil str) with (rev (@nil str)). apply nfail_nprog_nf; [constructor|intros x []|cbn; lia]. Qed.

Lemma check_expr_nf : forall fuel Q e, NoDup Q -> incl Q names -> length names - length Q < fuel ->
  no_fuel (check_expr rules fuel0 lrf fuel (rev Q) e).
Proof.
  induction fuel as [|f IH]; intros Q e ND IN Lf; [lia|]. cbn [check_expr].
  assert (OR : forall (v : vres (option err)) (g : vres (option err)), no_fuel v -> no_fuel g ->
            no_fuel (vbind v (fun x => match x with Some er => VOk (Some er) 0 | None => g end))).
  { intros v g Hv Hg. destruct v as [[er|] n| |]; cbn; auto. destruct g; cbn; auto. }
  induction e; try exact I; try (apply vtick_nf; exact IHe); try (destruct lrf; [apply vtick_nf; exact IHe|exact I]).
  - destruct (rev Q) as [|t0 tr] eqn:R; [exact I|].
    destruct (str_eqb t0 n); [exact I|]. destruct (negb (mem n (t0 :: tr))) eqn:M; [|exact I].
    destruct (lookup rules n) eqn:L; [|exact I]. apply vtick_nf.
    apply negb_true_iff in M. rewrite <- R in M |- *.
    destruct (push_ok [] Q n _ ND IN M L) as (A1 & A2 & A3).
    change (rev Q ++ [n]) with (rev (n :: Q)). apply IH; auto. cbn [length]. lia.
  - destruct (rev (rev Q)); [exact I|]. destruct lrf.
    + apply vtick_nf. apply OR; [exact IHe1|]. apply vbind_nf; [apply nfail0_nf|]. intros b1.
      apply vbind_nf; [destruct b1; [exact I|apply nprog0_nf]|]. intros [|]; [assumption|exact I].
    + apply vtick_nf. apply vbind_nf; [apply nfail0_nf|]. intros b1.
      apply vbind_nf; [destruct b1; [exact I|apply nprog0_nf]|]. intros [|]; assumption.
  - apply vtick_nf. apply OR; assumption.
Qed.

Lemma collect_nf chk l : (forall n, no_fuel (chk n)) -> no_fuel (collect chk l).
Proof. intros H. induction l; cbn [collect]; [exact I|]. apply vbind_nf; [apply H|]. intros x. apply vbind_nf; [exact IHl|]. intros; exact I. Qed.
Lemma over_rules_nf chk rs : (forall n, no_fuel (chk n)) -> no_fuel (over_rules tgf chk rs).
Proof. intros H. induction rs; cbn [over_rules]; [exact I|]. apply vbind_nf; [apply collect_nf; exact H|]. intros a0. apply vbind_nf; [exact IHrs|]. intros; exact I. Qed.

Lemma ws_rules_nf : forall rs, no_fuel (ws_rules rules fuel0 rs).
Proof.
  induction rs as [|r rs IHr]; cbn [ws_rules]; [exact I|]. apply vbind_nf.
  - unfold ws_check. destruct (_ || _); [|exact I]. apply vbind_nf; [apply nfail0_nf|]. intros [|]; [exact I|]. apply vbind_nf; [apply nprog0_nf|]. intros; exact I.
  - intros x. apply vbind_nf; [exact IHr|]. intros; exact I.
Qed.
Lemma lr_rules_nf : forall rs seen, no_fuel (lr_rules rules fuel0 lrf seen rs).
Proof.
  induction rs as [|r rs IHr]; intros seen; cbn [lr_rules]; [exact I|].
  destruct (mem (pname r) seen); [apply IHr|]. destruct (lookup rules (pname r)) as [r'|] eqn:L; [|apply IHr].
  apply vbind_nf; [|intros x; apply vbind_nf; [apply IHr|intros; exact I]].
  change [pname r] with (rev [pname r]). apply check_expr_nf; [repeat constructor; intros []|intros x [<-|[]]; eapply lookup_name; eauto|cbn [length]; lia].
Qed.

Theorem validate_ast_nf builtins ex : no_fuel (validate_ast rules fuel0 lrf tgf builtins ex).
Proof.
  unfold validate_ast.
  apply vbind_nf; [apply over_rules_nf|]. { intros n. unfold rep_check. destruct n; try exact I; (apply vbind_nf; [apply nfail0_nf|]; intros [|]; [exact I|]; apply vbind_nf; [apply nprog0_nf|]; intros; exact I). }
  intros e1. apply vbind_nf; [apply over_rules_nf|]. { intros n. unfold choice_check. destruct n; try exact I. apply vbind_nf; [apply nfail0_nf|]. intros; exact I. }
  intros e2. apply vbind_nf; [apply ws_rules_nf|].
  intros e3. apply vbind_nf; [apply lr_rules_nf|].
  intros e4. apply vbind_nf; [destruct ex; [apply over_rules_nf; intros n; unfold tag_check; destruct n; exact I|exact I]|].
  intros e5. destruct (sort_errors _); exact I.
Qed.
End VF.

Import PV.Pratt.Syntax PV.Pratt.Model PV.Pratt.Proofs.

Lemma tdepth_kids t : tdepth t = S (fdepth (tkids t)).
Proof. destruct t as [r s e kids]. reflexivity. Qed.
Lemma fdepth_in : forall l x, In x l -> tdepth x <= fdepth l.
Proof. induction l; intros x []; cbn [fdepth]; [subst; lia|]. specialize (IHl _ H). lia. Qed.

Definition nofuel {A} (o : out A) : Prop := match o with OFuel => False | _ => True end.
Lemma obind_nofuel_if {A B} (P : A -> Prop) (o : out A) (f : A -> out B) :
  match o with ODone a => P a | OFuel => False | _ => True end -> (forall a, P a -> nofuel (f a)) -> nofuel (obind o f).
Proof. destruct o; cbn; auto. Qed.
Lemma obind_nofuel {A B} (o : out A) (f : A -> out B) : nofuel o -> (forall a, nofuel (f a)) -> nofuel (obind o f).
Proof. intros Ho Hf. apply (obind_nofuel_if (fun _ => True)); [destruct o; auto|auto]. Qed.

Section CF.
Variable fl : flags.
Variable text : str.

Lemma number_of_nofuel t : nofuel (number_of text t).
Proof. unfold number_of. destruct (as_str text t); [destruct (parse_u32 s)|]; exact I. Qed.
Lemma nonzero_nofuel t n : nofuel (nonzero t n).
Proof. unfold nonzero. destruct (n =? 0)%N; exact I. Qed.
Lemma post_step_nofuel node p : nofuel (post_step text node p).
Proof.
  unfold post_step. destruct (trule p); try exact I;
    repeat (first [exact I | apply obind_nofuel | apply number_of_nofuel | apply nonzero_nofuel | intros ?
                  | match goal with |- nofuel (match ?l with [] => _ | _ :: _ => _ end) => destruct l end]).
Qed.
Lemma fold_post_nofuel : forall l node, nofuel (fold_post text node l).
Proof. induction l; intros node; cbn [fold_post]; [exact I|]. apply obind_nofuel; [apply post_step_nofuel|auto]. Qed.
Lemma unescaped_nofuel t : nofuel (unescaped fl text t).
Proof. unfold unescaped. destruct (as_str text t); [|exact I]. pose proof (unescape_fuel s) as U. destruct (unescape s); [exact I|destruct (fix_escape fl); exact I|congruence]. Qed.
Lemma stripped_nofuel a s : nofuel (stripped a s).
Proof. unfold stripped. destruct (strip a s); exact I. Qed.
Lemma peek_index_nofuel t : nofuel (peek_index fl text t).
Proof. unfold peek_index. destruct (as_str text t); [destruct (parse_i32 s); [|destruct (fix_peek fl)]|]; exact I. Qed.

(* the readers of one token: every bind, list match and rule match on the way keeps `nofuel` *)
Ltac nf_tac :=
  repeat (first [exact I | apply obind_nofuel | apply unescaped_nofuel | apply stripped_nofuel | apply peek_index_nofuel | intros ?
                | match goal with |- nofuel (match ?l with [] => _ | _ :: _ => _ end) => destruct l end
                | match goal with |- nofuel (match trule ?t with _ => _ end) => destruct (trule t) end
                | match goal with |- nofuel (let '(_, _) := ?p in _) => destruct p end ]).
Lemma peek_slice_nofuel p : nofuel (peek_slice_node fl text p).
Proof. unfold peek_slice_node. nf_tac. Qed.
Lemma range_nofuel p : nofuel (range_node fl text p).
Proof. unfold range_node. nf_tac. Qed.

Section Rec.
Variable rec : list Shape.tok -> out pnode.
Variable d : nat.
Hypothesis RN : forall ks, fdepth ks < d -> nofuel (rec ks).

Lemma atom_nofuel p : tdepth p <= d -> nofuel (atom fl text rec p).
Proof.
  intros D. rewrite tdepth_kids in D. unfold atom. destruct (trule p); try exact I.
  - apply RN. lia.
  - pose proof (fdepth_in (tkids p)) as IN. destruct (tkids p) as [|a [|x l]]; try exact I. apply obind_nofuel; [|intros; exact I]. apply RN.
    specialize (IN x (or_intror (or_introl eq_refl))). rewrite tdepth_kids in IN. lia.
  - destruct (extras fl); [|exact I]. nf_tac.
  - apply peek_slice_nofuel.
  - destruct (as_str text p); exact I.
  - nf_tac.
  - destruct (fix_insens fl); nf_tac.
  - apply range_nofuel.
Qed.
Lemma core_nofuel p rest r tag : tdepth p <= d -> nofuel r -> nofuel (core fl text rec p rest r tag).
Proof.
  intros D R. unfold core. apply obind_nofuel.
  - destruct (trule p); try (apply obind_nofuel; [apply atom_nofuel; exact D|intros; apply fold_post_nofuel]);
      (apply obind_nofuel; [exact R|intros; exact I]).
  - intros n. unfold add_tag. destruct tag as [[t st]|]; [destruct (extras fl)|]; exact I.
Qed.
Lemma un_nofuel_len : forall n l, length l <= n -> Forall (fun p => tdepth p <= d) l -> nofuel (un fl text rec l).
Proof.
  induction n as [|n IH]; intros l L F.
  - destruct l; [exact I|cbn in L; lia].
  - destruct l as [|pt l1]; [exact I|]. cbn [un]. cbn [length] in L.
    inversion F as [|? ? Fp F1]; subst.
    destruct l1 as [|nx l2]; [apply core_nofuel; [exact Fp|exact I]|].
    inversion F1 as [|? ? Fn F2]; subst. cbn [length] in L.
    destruct (is_rule r_assignment_operator nx).
    + destruct l2 as [|pr l3]; [exact I|]. inversion F2 as [|? ? Fr F3]; subst. cbn [length] in L.
      destruct (as_str text pt); [|exact I]. destruct (slice s 1 (blen s)); [|exact I].
      apply core_nofuel; [exact Fr|]. apply IH; [lia|exact F3].
    + apply core_nofuel; [exact Fp|]. apply IH; [cbn [length]; lia|exact F1].
Qed.
Lemma un_nofuel l : Forall (fun p => tdepth p <= d) l -> nofuel (un fl text rec l).
Proof. apply (un_nofuel_len (length l)). apply le_n. Qed.
Lemma ev_nofuel : forall t, Forall (fun a => tdepth (snd a) <= S d) (yield t) -> nofuel (ev fl text rec t).
Proof.
  induction t as [a|o t IH|t IH o|l IHl o r IHr]; intros F; cbn [ev]; try exact I.
  - cbn in F. inversion F as [|? ? Fa _]; subst. apply un_nofuel. rewrite tdepth_kids in Fa.
    apply Forall_forall. intros p Hp. pose proof (fdepth_in _ _ Hp). lia.
  - cbn [yield] in F. apply Forall_app in F as [Fl F]. inversion F as [|? ? _ Fr]; subst.
    specialize (IHl Fl). specialize (IHr Fr).
    destruct (ev fl text rec l), (ev fl text rec r); try exact I; try contradiction.
    unfold infix_node. destruct (trule (snd o)); exact I.
Qed.
End Rec.

Theorem cexpr_nofuel : forall d kids, fdepth kids < d -> nofuel (cexpr fl text d kids).
Proof.
  induction d as [|d IH]; intros kids D; [lia|]. cbn [cexpr]. unfold cexpr_body.
  set (kids' := if fix_choice fl then skip_choice kids else kids).
  assert (INC : incl kids' kids).
  { subst kids'. destruct (fix_choice fl); [|apply incl_refl]. unfold skip_choice. destruct kids as [|k r]; [apply incl_refl|].
    destruct (is_rule r_choice_operator k); [apply incl_tl|]; apply incl_refl. }
  pose proof (pratt_parse_fuel pratt_maps pratt_table (ptoks kids')) as PF.
  unfold pratt_parse in *.
  destruct (expr pratt_maps pratt_table (2 * length (ptoks kids') + 2) (ptoks kids') 0) as [t rest| |] eqn:E; [|exact I|congruence].
  (* every token of the tree is one of the input tokens *)
  apply (proj1 (ok_yield _ _ _ _)) in E.
  apply (ev_nofuel _ d IH). apply Forall_forall. intros a Ha.
  assert (Hi : In a (ptoks kids')) by (rewrite E; apply in_or_app; left; exact Ha).
  unfold ptoks in Hi. apply in_map_iff in Hi as (k & <- & Hk).
  cbn [snd]. apply INC in Hk. pose proof (fdepth_in _ _ Hk). lia.
Qed.

Lemma consume_rule_nofuel d t : tdepth t <= d -> nofuel (consume_rule fl text d t).
Proof.
  intros D. rewrite tdepth_kids in D. unfold consume_rule. pose proof (fdepth_in (tkids t)) as IN0.
  destruct (tkids t) as [|nm l1]; [exact I|]. destruct (as_str text nm); [|exact I].
  destruct l1 as [|a l2]; [exact I|]. destruct l2 as [|m l3]; [exact I|].
  (* the expression pair is one of the children, whatever the modifier *)
  apply (obind_nofuel_if (fun tr => incl (snd tr) (m :: l3))).
  - destruct (negb (is_rule r_opening_brace m)); [destruct (trule m); try exact I; apply incl_tl, incl_refl|apply incl_refl].
  - intros [ty rest] INC. cbn [snd] in INC. destruct rest as [|o [|x l]]; try exact I.
    assert (Dx : tdepth x <= fdepth (nm :: a :: m :: l3)) by (apply IN0; right; right; apply INC; right; left; reflexivity).
    rewrite tdepth_kids in Dx. apply (obind_nofuel_if (fun ks => fdepth ks <= fdepth (tkids x))).
    + destruct (fix_choice fl); [apply le_n|]. destruct (tkids x) as [|k r]; [exact I|].
      destruct (is_rule r_choice_operator k); cbn [fdepth]; lia.
    + intros ks Hk. apply obind_nofuel; [apply cexpr_nofuel; lia|intros; exact I].
Qed.
Theorem consume_rules_nofuel d : forall f, fdepth f <= d -> nofuel (consume_rules_with_spans fl text d f).
Proof.
  induction f as [|t f IH]; intros D; [exact I|]. cbn [fdepth] in D. cbn [consume_rules_with_spans].
  destruct (is_rule r_grammar_rule t); [|apply IH; lia]. destruct (tkids t) as [|k l]; [exact I|].
  destruct (is_rule r_line_doc k); [apply IH; lia|].
  apply obind_nofuel; [apply consume_rule_nofuel; lia|]. intros r. apply obind_nofuel; [apply IH; lia|intros; exact I].
Qed.
End CF.
