(* C09: what `unescape` returns on a literal that starts and ends with its quote, and that the slices
   `[1..len-1]` / `[2..len-1]` / `[1..]` taken afterwards are legal; the fuel of `unescape` suffices. *)
From Coq Require Import List Arith NArith Bool Lia.
Import ListNotations.
Require Import PV.Pos.Model PV.Pos.Spec PV.Pos.BasicProofs PV.Front.Shape PV.Front.Consume.
Open Scope list_scope.

Lemma ceq_eq a b : ceq a b = true <-> a = b.
Proof. unfold ceq. apply N.eqb_eq. Qed.

(* one iteration of the loop of `unescape`: the char it pushes and the input left; None = one of its `?` / `return None` *)
Definition escape1 (d : char) : option char :=
  if ceq d ch_dquote then Some ch_dquote else if ceq d ch_bslash then Some ch_bslash else if ceq d 114%N then Some 13%N
  else if ceq d 110%N then Some 10%N else if ceq d 116%N then Some 9%N else if ceq d 48%N then Some 0%N
  else if ceq d ch_squote then Some ch_squote else None.
Definition unesc_step (c : char) (cs1 : str) : option (char * str) :=
  if ceq c ch_bslash then
    match cs1 with
    | [] => None
    | d :: cs2 =>
      match escape1 d with Some y => Some (y, cs2) | None =>
      if ceq d 120%N then
        if negb (Nat.eqb (blen (firstn 2 cs2)) 2) then None
        else if Nat.ltb (length cs2) 2 then None
        else match from_str_radix16 (firstn 2 cs2) with None => None | Some v => Some (v, skipn 2 cs2) end
      else if ceq d 117%N then
        match cs2 with
        | [] => None
        | o :: cs3 =>
          if negb (ceq o 123%N) then None else
          let string := take_while_not 125%N cs3 in
          if Nat.ltb (blen string) 2 || Nat.ltb 6 (blen string) then None
          else if Nat.ltb (length cs3) (blen string + 1) then None
          else match from_str_radix16 string with
               | None => None
               | Some v => match char_from_u32 v with None => None | Some ch => Some (ch, skipn (blen string + 1) cs3) end
               end
        end
      else None end
    end
  else Some (c, cs1).
Lemma unesc_S f c cs acc :
  unesc (S f) (c :: cs) acc = match unesc_step c cs with Some (x, cs') => unesc f cs' (x :: acc) | None => UNone end.
Proof.
  cbn [unesc]. unfold unesc_step, escape1. destruct (ceq c ch_bslash); [|reflexivity]. destruct cs as [|d cs2]; [reflexivity|].
  repeat match goal with |- (if ?b then _ else _) = _ => destruct b; [reflexivity|] end.
  destruct (ceq d 120%N).
  - repeat match goal with |- (if ?b then _ else _) = _ => destruct b; [reflexivity|] end. destruct (from_str_radix16 _); reflexivity.
  - destruct (ceq d 117%N); [|reflexivity]. destruct cs2 as [|o cs3]; [reflexivity|]. destruct (negb (ceq o 123%N)); [reflexivity|]. cbv zeta.
    repeat match goal with |- (if ?b then _ else _) = _ => destruct b; [reflexivity|] end.
    destruct (from_str_radix16 _); [|reflexivity]. destruct (char_from_u32 _); reflexivity.
Qed.

(* every iteration consumes at least one char: the fuel of `unescape` suffices *)
Lemma unesc_step_shorter c cs x cs' : unesc_step c cs = Some (x, cs') -> length cs' <= length cs.
Proof.
  unfold unesc_step. intros H. destruct (ceq c ch_bslash); [|injection H as _ <-; apply le_n].
  destruct cs as [|d cs2]; [discriminate|]. cbn [length]. destruct (escape1 d); [injection H as _ <-; lia|].
  repeat match type of H with (if ?b then _ else _) = _ => destruct b; [try discriminate H|] end; try discriminate H.
  - destruct (from_str_radix16 _); [|discriminate]. injection H as _ <-. change (length (skipn 2 cs2) <= S (length cs2)). rewrite skipn_length. lia.
  - destruct cs2 as [|o cs3]; [discriminate|]. destruct (negb (ceq o 123%N)); [discriminate|]. cbv zeta in H. cbn [length].
    repeat match type of H with (if ?b then _ else _) = _ => destruct b; [discriminate H|] end.
    destruct (from_str_radix16 _); [|discriminate]. destruct (char_from_u32 _); [|discriminate].
    injection H as _ <-. rewrite skipn_length. lia.
Qed.
Lemma unesc_fuel : forall f cs acc, length cs < f -> unesc f cs acc <> UFuel.
Proof.
  induction f as [|f IH]; intros cs acc L; [lia|]. destruct cs as [|c cs]; [discriminate|]. rewrite unesc_S.
  destruct (unesc_step c cs) as [[x cs']|] eqn:E; [|discriminate]. apply unesc_step_shorter in E. apply IH. cbn [length] in L. lia.
Qed.
Lemma unescape_fuel s : unescape s <> UFuel.
Proof. apply unesc_fuel. lia. Qed.

Lemma unesc_acc : forall f cs acc,
  unesc f cs acc = match unesc f cs [] with UOk u => UOk (rev acc ++ u) | r => r end.
Proof.
  induction f as [|f IH]; intros cs acc; [reflexivity|]. destruct cs as [|c cs]; [cbn; now rewrite app_nil_r|].
  rewrite !unesc_S. destruct (unesc_step c cs) as [[x cs']|]; [|reflexivity].
  rewrite (IH cs' (x :: acc)), (IH cs' [x]). destruct (unesc f cs' []); [|reflexivity..].
  cbn [rev app]. now rewrite <- !app_assoc.
Qed.
Lemma unesc_prefix : forall f cs acc s, unesc f cs acc = UOk s -> exists t, s = rev acc ++ t.
Proof.
  intros f cs acc s H. rewrite unesc_acc in H. destruct (unesc f cs []) as [u| |]; try discriminate. injection H as <-. eauto.
Qed.

(* hexadecimal strings contain no quote, no brace, no multi-byte char *)
Definition hexish (c : char) : Prop := hex_val c <> None \/ c = ch_plus.
Lemma hex_digits_all : forall s acc v, hex_digits acc s = Some v -> Forall (fun c => hex_val c <> None) s.
Proof.
  induction s as [|c s IH]; intros acc v H; [constructor|].
  cbn in H. destruct (hex_val c) eqn:E; [|discriminate]. constructor; [congruence|eauto].
Qed.
Lemma from_str_radix16_all s v : from_str_radix16 s = Some v -> Forall hexish s.
Proof.
  unfold from_str_radix16. destruct s as [|c r]; [discriminate|].
  destruct (ceq c ch_plus) eqn:E.
  - apply ceq_eq in E. subst. destruct r; [discriminate|]. intros H. apply hex_digits_all in H.
    constructor; [right; reflexivity|]. eapply Forall_impl; [|exact H]. intros a Ha. left. exact Ha.
  - intros H. apply hex_digits_all in H. eapply Forall_impl; [|exact H]. intros a Ha. left. exact Ha.
Qed.
Lemma hexish_ascii c : hexish c -> len_utf8 c = 1 /\ c <> ch_dquote /\ c <> ch_squote /\ c <> 125%N.
Proof.
  intros [H| ->]; [|repeat split; discriminate].
  unfold hex_val in H.
  destruct ((48 <=? c)%N && (c <=? 57)%N) eqn:A; [apply andb_prop in A as [A1 A2]; apply N.leb_le in A1, A2|
  destruct ((97 <=? c)%N && (c <=? 102)%N) eqn:B; [apply andb_prop in B as [B1 B2]; apply N.leb_le in B1, B2|
  destruct ((65 <=? c)%N && (c <=? 70)%N) eqn:C; [apply andb_prop in C as [C1 C2]; apply N.leb_le in C1, C2|congruence]]];
  (split; [unfold len_utf8; destruct (N.ltb_spec c 128); [reflexivity|lia]|]);
  unfold ch_dquote, ch_squote; repeat split; lia.
Qed.
Lemma hexish_blen s : Forall hexish s -> blen s = length s.
Proof. induction 1 as [|c s H _ IH]; [reflexivity|]. cbn [blen length]. destruct (hexish_ascii _ H) as [-> _]. lia. Qed.

Lemma take_while_not_split stop s : exists rest, s = take_while_not stop s ++ rest /\ (rest = [] \/ exists r, rest = stop :: r).
Proof.
  induction s as [|c s (rest & E & Hr)]; cbn.
  - exists []. auto.
  - destruct (ceq c stop) eqn:C.
    + apply ceq_eq in C. subst. exists (stop :: s). split; [reflexivity|right; eauto].
    + exists rest. split; [cbn; congruence|exact Hr].
Qed.

Definition is_quote (q : char) : Prop := q = ch_dquote \/ q = ch_squote.
Lemma last_app_ne {A} (l : list A) x d : last (l ++ [x]) d = x.
Proof. apply last_last. Qed.
Lemma last_app_r {A} (l1 l2 : list A) d : l2 <> [] -> last (l1 ++ l2) d = last l2 d.
Proof.
  intros H. induction l1 as [|a l1 IH]; [reflexivity|]. cbn [app].
  destruct (l1 ++ l2) eqn:E; [destruct l1; [cbn in E; congruence|discriminate]|]. cbn [last]. exact IH.
Qed.
Lemma last_skipn {A} (l : list A) n d : n < length l -> last (skipn n l) d = last l d.
Proof.
  revert l. induction n as [|n IH]; intros l L; [reflexivity|].
  destruct l as [|a l]; [cbn in L; lia|]. cbn [skipn length] in *. rewrite IH by lia.
  destruct l; [cbn in L; lia|reflexivity].
Qed.
Lemma last_in {A} (l : list A) d : l <> [] -> In (last l d) l.
Proof.
  induction l as [|a l IH]; [congruence|]. intros _. destruct l as [|b l]; [left; reflexivity|].
  right. apply IH. discriminate.
Qed.

(* after one iteration on input that ends with the quote q: the input left still ends with q, or is empty and the
   char just pushed is q (an escape cannot swallow the final quote: its hexadecimal digits are no quotes) *)
Lemma unesc_step_last q c cs x cs' : is_quote q -> last (c :: cs) 0%N = q -> unesc_step c cs = Some (x, cs') ->
  (cs' = [] -> x = q) /\ (cs' <> [] -> last cs' 0%N = q).
Proof.
  intros Q Hl H. unfold unesc_step in H. unfold str, char in *.
  assert (TL : forall (x : N) l, last (x :: l) 0%N = q -> (l = [] -> x = q) /\ (l <> [] -> last l 0%N = q)).
  { intros y l E. destruct l; [split; [auto|congruence]|split; [discriminate|intros _; exact E]]. }
  destruct (ceq c ch_bslash); [|injection H as <- <-; apply TL, Hl].
  destruct cs as [|d cs2]; [discriminate H|]. destruct (TL d cs2 Hl) as [T0 T1].
  (* a one-letter escape: only the two whose letter is a quote push a quote, and it is that one *)
  destruct (escape1 d) as [y|] eqn:E1.
  { injection H as <- <-. split; [|exact T1]. intros E. specialize (T0 E). subst d.
    destruct Q as [-> | ->]; cbv in E1; injection E1 as <-; reflexivity. }
  assert (Dq : d <> q) by (intros ->; destruct Q as [-> | ->]; discriminate E1).
  assert (Hne2 : cs2 <> []) by (intros E; apply Dq; auto).
  specialize (T1 Hne2).
  destruct (ceq d 120%N) eqn:D8.
  - match type of H with (if ?b then _ else _) = _ => destruct b end; [discriminate H|].
    match type of H with (if ?b then _ else _) = _ => destruct b eqn:L2 end; [discriminate H|]. apply Nat.ltb_ge in L2.
    set (fs := firstn 2 cs2) in *. destruct (from_str_radix16 fs) as [v|] eqn:R; [|discriminate H].
    set (sk := skipn 2 cs2) in H. injection H as <- <-. subst sk.
    apply from_str_radix16_all in R.
    assert (NQ : ~ In q fs).
    { intros I. rewrite Forall_forall in R. destruct (hexish_ascii _ (R _ I)) as (_ & A & B & _). destruct Q; congruence. }
    destruct (Nat.eq_dec (length cs2) 2) as [E2|N2].
    + exfalso. apply NQ. unfold fs. rewrite firstn_all2 by lia. rewrite <- T1. apply last_in. exact Hne2.
    + split.
      * intros E. exfalso. apply (f_equal (@length _)) in E. rewrite skipn_length in E. cbn in E. lia.
      * intros _. rewrite last_skipn by lia. exact T1.
  - destruct (ceq d 117%N) eqn:D9; [|discriminate H].
    destruct cs2 as [|o cs3]; [discriminate H|].
    match type of H with (if ?b then _ else _) = _ => destruct b eqn:O end; [discriminate H|]. apply negb_false_iff, ceq_eq in O. subst o.
    destruct (TL _ _ T1) as [U0 U1].
    assert (Hne3 : cs3 <> []) by (intros E; specialize (U0 E); destruct Q; subst; discriminate).
    specialize (U1 Hne3). cbv zeta in H.
    set (str_ := take_while_not 125%N cs3) in *.
    match type of H with (if ?b then _ else _) = _ => destruct b end; [discriminate H|].
    match type of H with (if ?b then _ else _) = _ => destruct b eqn:L3 end; [discriminate H|]. apply Nat.ltb_ge in L3.
    destruct (from_str_radix16 str_) as [v|] eqn:R; [|discriminate H].
    destruct (char_from_u32 v) as [ch|]; [|discriminate H]. injection H as <- <-.
    apply from_str_radix16_all in R. pose proof (hexish_blen _ R) as BL.
    destruct (take_while_not_split 125%N cs3) as (rest & E3 & Hr). fold str_ in E3.
    assert (LR : length cs3 = length str_ + length rest) by (rewrite E3 at 1; apply app_length).
    destruct Hr as [->|(r & ->)]; [cbn in LR; lia|].
    assert (SK : skipn (blen str_ + 1) cs3 = r).
    { rewrite E3, BL. rewrite skipn_app. rewrite skipn_all2 by lia. replace (length str_ + 1 - length str_) with 1 by lia. reflexivity. }
    rewrite SK. rewrite E3 in U1.
    assert (Rne : r <> []).
    { intros ->. rewrite last_app_ne in U1. destruct Q as [Q|Q]; rewrite Q in U1; discriminate. }
    split; [intros E; contradiction|intros _].
    rewrite (last_app_r str_ (125%N :: r)) in U1 by discriminate.
    destruct r; [congruence|exact U1].
Qed.

Lemma unesc_last q : is_quote q -> forall f cs acc s, cs <> [] -> last cs 0%N = q ->
  unesc f cs acc = UOk s -> exists t, s = t ++ [q].
Proof.
  intros Q. induction f as [|f IH]; intros cs acc s Hne Hl H; [discriminate|]. destruct cs as [|c cs]; [congruence|].
  rewrite unesc_S in H. destruct (unesc_step c cs) as [[x cs']|] eqn:E; [|discriminate].
  destruct (unesc_step_last q c cs x cs' Q Hl E) as [E0 E1]. destruct cs' as [|y cs''].
  - destruct f; [discriminate|]. cbn in H. injection H as <-. rewrite (E0 eq_refl). cbn [rev]. eauto.
  - eapply IH; [| |exact H]; [discriminate|]. apply E1. discriminate.
Qed.

Lemma unesc_plain f c cs acc : ceq c ch_bslash = false -> unesc (S f) (c :: cs) acc = unesc f cs (c :: acc).
Proof. intros H. cbn [unesc]. now rewrite H. Qed.

Lemma unescape_quoted q rest s : is_quote q -> rest <> [] -> last rest 0%N = q ->
  unescape (q :: rest) = UOk s -> exists mid, s = q :: mid ++ [q].
Proof.
  intros Q Hne Hl H. unfold unescape in H. cbn [length] in H.
  assert (NB : ceq q ch_bslash = false) by (destruct Q; subst; reflexivity).
  rewrite unesc_plain in H by exact NB. rewrite unesc_acc in H.
  match type of H with context [unesc ?a ?b ?c] => destruct (unesc a b c) as [u| |] eqn:E end; try discriminate.
  injection H as <-. destruct (unesc_last q Q _ _ _ _ Hne Hl E) as (t & ->). exists t. reflexivity.
Qed.
Lemma unescape_insens d rest s : (d <? 128)%N = true -> ceq d ch_bslash = false -> rest <> [] -> last rest 0%N = ch_dquote ->
  unescape (ch_caret :: d :: rest) = UOk s -> exists mid, s = ch_caret :: d :: mid ++ [ch_dquote].
Proof.
  intros D1 D2 Hne Hl H. unfold unescape in H. cbn [length] in H.
  rewrite unesc_plain in H by reflexivity. rewrite unesc_plain in H by exact D2. rewrite unesc_acc in H.
  match type of H with context [unesc ?a ?b ?c] => destruct (unesc a b c) as [u| |] eqn:E end; try discriminate.
  injection H as <-. destruct (unesc_last ch_dquote (or_introl eq_refl) _ _ _ _ Hne Hl E) as (t & ->). exists t. reflexivity.
Qed.

Lemma len1_quote q : is_quote q -> len_utf8 q = 1.
Proof. intros [->| ->]; reflexivity. Qed.
Lemma strip1_ok q mid : len_utf8 q = 1 -> strip 1 (q :: mid ++ [q]) = Some mid.
Proof.
  intros L. unfold strip. change (q :: mid ++ [q]) with ([q] ++ mid ++ [q]).
  rewrite !blen_app. cbn [blen]. rewrite L. rewrite csub_some by lia.
  replace (1 + 0 + (blen mid + (1 + 0)) - 1) with (blen [q] + blen mid) by (cbn [blen]; lia).
  replace 1 with (blen [q]) at 1 by (cbn [blen]; lia). apply slice_app3.
Qed.
Lemma strip2_ok c d q mid : len_utf8 c = 1 -> len_utf8 d = 1 -> len_utf8 q = 1 -> strip 2 (c :: d :: mid ++ [q]) = Some mid.
Proof.
  intros L1 L2 L3. unfold strip. change (c :: d :: mid ++ [q]) with ([c; d] ++ mid ++ [q]).
  rewrite !blen_app. cbn [blen]. rewrite L1, L2, L3. rewrite csub_some by lia.
  replace (1 + (1 + 0) + (blen mid + (1 + 0)) - 1) with (blen [c; d] + blen mid) by (cbn [blen]; lia).
  replace 2 with (blen [c; d]) at 1 by (cbn [blen]; lia). apply slice_app3.
Qed.
Lemma tail1_ok c r : len_utf8 c = 1 -> slice (c :: r) 1 (blen (c :: r)) = Some r.
Proof.
  intros L. cbn [blen]. rewrite L. change (c :: r) with ([c] ++ r). rewrite <- (app_nil_r r) at 1.
  replace 1 with (blen [c]) at 1 by (cbn [blen]; lia). replace (1 + blen r) with (blen [c] + blen r) by (cbn [blen]; lia).
  apply slice_app3.
Qed.

Lemma last_is_spec c s : last_is c s = true -> s <> [] /\ last s 0%N = c.
Proof.
  unfold last_is. destruct (rev s) as [|x r] eqn:E; [discriminate|]. intros H. apply ceq_eq in H. subst x.
  assert (S1 : s = rev r ++ [c]) by (rewrite <- (rev_involutive s), E; reflexivity).
  split; [rewrite S1; destruct (rev r); discriminate|]. rewrite S1. apply last_last.
Qed.
