(* C09: with the flags fix_escape, fix_peek, fix_choice, fix_unroll set the front end never panics on a well-shaped forest;
   whatever the flags, everything it reports is located in the text. *)
From Coq Require Import List Arith NArith ZArith Bool Lia.
Import ListNotations.
Require Import PV.Pos.Model PV.Pos.Spec PV.Pos.BasicProofs.
Require Import PV.Front.Shape PV.Front.ShapeFacts PV.Front.Consume PV.Front.Validate PV.Front.Optimize PV.Front.Frontend.
Require Import PV.Front.ConsumeProofs PV.Front.ValidateProofs PV.Front.OptimizeProofs.
Open Scope list_scope.

Lemma shape_ok_forest text f : shape_ok text f = true ->
  matches top_re (word f) /\ Forall (fun k => tok_okb text k = true) f.
Proof.
  unfold shape_ok. rewrite andb_true_iff, re_matchb_iff, forest_okb_kids. intros [M K]. split; [exact M|].
  eapply kids_all_ok; eauto.
Qed.

(* what the front end may return; strict = a panic is excluded *)
Definition fres_ok (strict : bool) (text : str) (r : fres) : Prop :=
  match r with FRules _ => True | FErrors l => errs_ok text l | FPanic => strict = false | FFuel => True end.

Definition is_repaired (fl : flags) : Prop :=
  fix_escape fl = true /\ fix_peek fl = true /\ fix_choice fl = true /\ fix_unroll fl = true.

(* for ANY configuration: whatever is reported is located; with the repairs: no panic *)
Theorem frontend_total_gen (strict : bool) fl builtins fuel text forest :
  (strict = true -> is_repaired fl) ->
  shape_ok text forest = true -> fres_ok strict text (frontend fl builtins fuel text forest).
Proof.
  intros R SH. destruct (shape_ok_forest _ _ SH) as [M F]. unfold frontend.
  pose proof (validate_pairs_ok text builtins forest F) as V1.
  destruct (validate_pairs text builtins forest) as [u| | |]; cbn [out_ok fres_ok] in *; auto; [|discriminate].
  pose proof (consume_rules_good fl text strict (fun H => proj1 (R H)) (fun H => proj1 (proj2 (R H))) (fun H => proj1 (proj2 (proj2 (R H)))) fuel forest F) as C.
  destruct (consume_rules_with_spans fl text fuel forest) as [rules| | |]; cbn [out_ok fres_ok] in *; auto.
  pose proof (validate_ast_ok text rules fuel (fix_lr fl) (fix_tag fl) C builtins (extras fl)) as V2.
  destruct (validate_ast rules fuel (fix_lr fl) (fix_tag fl) builtins (extras fl)) as [errs n| |]; cbn [errs_v fres_ok] in *; auto; [|contradiction].
  destruct errs as [|e errs]; [|apply serrs_errs; exact V2].
  destruct (optimize (extras fl) (fix_unroll fl) fuel (map convert_rule rules) (map convert_rule rules)) eqn:O; cbn; auto.
  destruct strict; [|reflexivity]. exfalso. destruct (R eq_refl) as (_ & _ & _ & RU).
  eapply (optimize_no_panic (extras fl) (fix_unroll fl) None fuel (map convert_rule rules) (or_introl RU) (map convert_rule rules)); [|exact O].
  apply Forall_map. eapply Forall_impl; [|exact C]. intros r [_ Hr]. cbn. eapply convert_nz; eauto.
Qed.

Lemma repaired_is_repaired st : is_repaired (repaired st).
Proof. repeat split. Qed.

Theorem frontend_total st builtins fuel text forest :
  shape_ok text forest = true -> fres_ok true text (frontend (repaired st) builtins fuel text forest).
Proof. apply frontend_total_gen. intros _. apply repaired_is_repaired. Qed.

Corollary frontend_no_panic st builtins fuel text forest :
  shape_ok text forest = true -> frontend (repaired st) builtins fuel text forest <> FPanic.
Proof. intros SH E. pose proof (frontend_total st builtins fuel text forest SH) as T. rewrite E in T. discriminate T. Qed.

(* every error that ANY configuration reports is located in the text *)
Corollary frontend_located fl builtins fuel text forest l :
  shape_ok text forest = true -> frontend fl builtins fuel text forest = FErrors l ->
  forall e, In e l -> match snd e with
                      | LPos p => boundary text p
                      | LSpan a b => a <= b /\ boundary text a /\ boundary text b
                      end.
Proof.
  intros SH E e He. pose proof (frontend_total_gen false fl builtins fuel text forest ltac:(discriminate) SH) as T. rewrite E in T. cbn in T.
  unfold errs_ok in T. rewrite Forall_forall in T. specialize (T e He). unfold loc_ok in T.
  destruct (snd e); [exact T|apply span_ok_facts; exact T].
Qed.

(* the unroller as shipped is safe below 2^32 - 2: the consumed rules carry the counts *)
Fixpoint counts_le (b : N) (n : pnode) : Prop :=
  match n with
  | PPosPred _ x | PNegPred _ x | POpt _ x | PRep _ x | PRepOnce _ x | PPush _ x | PNodeTag _ x _ => counts_le b x
  | PRepExact _ x k | PRepMin _ x k | PRepMax _ x k => counts_le b x /\ (k <= b)%N
  | PRepMinMax _ x k1 k2 => counts_le b x /\ (k2 <= b)%N
  | PSeq _ l r | PChoice _ l r => counts_le b l /\ counts_le b r
  | _ => True
  end.
Lemma convert_nz_bounded text b n : node_ok text n -> counts_le b n -> nzb (Some b) (convert_node n) = true.
Proof.
  induction n; cbn [node_ok counts_le convert_node nzb]; intros H C; auto; try (apply IHn; tauto);
    try (rewrite IHn1, IHn2 by tauto; reflexivity);
    try (destruct H as (_ & H1 & H2); destruct C as (C1 & C2); rewrite IHn by assumption; apply N.eqb_neq in H2; rewrite H2;
         apply N.leb_le in C2; rewrite C2; reflexivity).
  destruct H as (_ & H1); destruct C as (C1 & C2); rewrite IHn by assumption. apply N.leb_le in C2; rewrite C2; reflexivity.
Qed.

Lemma docs_consume_ok text f : Forall (fun k => tok_okb text k = true) f -> docs_consume f = true.
Proof.
  induction 1 as [|t f Ft Ff IH]; [reflexivity|]. cbn [docs_consume].
  destruct (is_rule r_grammar_doc t) eqn:R; [|exact IH]. apply is_rule_true in R.
  destruct (tok_kids text _ Ft) as [M _]. rewrite R in M. cbn [rule_re] in M. unfold sy in M. apply inv_sym in M.
  destruct (tkids t); [discriminate|exact IH].
Qed.

Definition repaired_reader_only (st : tree_state) : flags :=
  {| extras := st_extras st; fix_escape := true; fix_peek := true; fix_choice := true; fix_unroll := false;
     fix_lr := st_lr st; fix_tag := st_tag st; fix_insens := st_insens st |}.

Theorem frontend_no_panic_bounded_counts st builtins fuel text forest :
  shape_ok text forest = true ->
  (forall rules, consume_rules_with_spans (repaired_reader_only st) text fuel forest = ODone rules ->
                 Forall (fun r => counts_le 4294967293 (pbody r)) rules) ->
  frontend (repaired_reader_only st) builtins fuel text forest <> FPanic.
Proof.
  intros SH CB. destruct (shape_ok_forest _ _ SH) as [M F]. unfold frontend.
  set (lr := fix_lr (repaired_reader_only st)). set (tg := fix_tag (repaired_reader_only st)).
  pose proof (validate_pairs_ok text builtins forest F) as V1.
  destruct (validate_pairs text builtins forest) as [u| | |]; cbn [out_ok] in *; try discriminate; auto.
  pose proof (consume_rules_good (repaired_reader_only st) text true (fun _ => eq_refl) (fun _ => eq_refl) (fun _ => eq_refl) fuel forest F) as C.
  destruct (consume_rules_with_spans (repaired_reader_only st) text fuel forest) as [rules| | |]; cbn [out_ok] in *; try discriminate; auto.
  specialize (CB rules eq_refl).
  pose proof (validate_ast_ok text rules fuel lr tg C builtins (extras (repaired_reader_only st))) as V2.
  destruct (validate_ast rules fuel lr tg builtins (extras (repaired_reader_only st))) as [errs n| |]; cbn [errs_v] in *; try discriminate; auto.
  destruct errs as [|e errs]; [|discriminate].
  assert (BO : bound_ok (fix_unroll (repaired_reader_only st)) (Some 4294967293%N)).
  { right. exists 4294967293%N. split; [reflexivity|]. unfold u32_max. lia. }
  pose proof (optimize_no_panic (extras (repaired_reader_only st)) _ _ fuel (map convert_rule rules) BO (map convert_rule rules)) as O.
  destruct (optimize _ _ fuel _ _); try discriminate. exfalso. apply O; [|reflexivity].
  apply Forall_map. rewrite Forall_forall in C, CB. apply Forall_forall. intros r Hr. cbn.
  eapply convert_nz_bounded; [apply (C r Hr)|apply (CB r Hr)].
Qed.
