(* C09: the validator's step count is not bounded by any polynomial in the size of the rules (`rules_size`). *)
From Coq Require Import List Arith NArith ZArith Bool Lia.
Import ListNotations.
Require Import PV.Pos.Model PV.Pos.Spec PV.Pos.BasicProofs.
Require Import PV.Front.Shape PV.Front.ShapeFacts PV.Front.Consume PV.Front.Validate PV.Front.ConsumeProofs PV.Front.ValidateProofs
               PV.Front.FuelProofs PV.Front.Steps.
Open Scope list_scope.

Lemma span00 : span_ok [] 0 0.
Proof. unfold span_ok. cbn. discriminate. Qed.
Lemma fam_rule_ok n i : rule_ok [] (rule_i n i).
Proof.
  unfold rule_ok, rule_i. cbn [pspan pbody fst snd]. split; [exact span00|]. unfold body.
  destruct (Nat.ltb i n); cbn; repeat split; exact span00.
Qed.
Lemma fam_ok n : Forall (rule_ok []) (fam n).
Proof. unfold fam, rules_upto. apply Forall_map. apply Forall_forall. intros i _. apply fam_rule_ok. Qed.

Theorem validator_not_polynomial : forall c k, exists rules, forall lrf tgf builtins ex,
  exists errs s, validate_ast rules (length rules + 3) lrf tgf builtins ex = VOk errs s /\ c * (rules_size rules) ^ k < s.
Proof.
  intros c k. destruct (exp_beats_poly c k) as (n & Hn). exists (fam n). intros lrf tgf builtins ex.
  assert (L : length (fam n) = n + 2) by (unfold fam, rules_upto; rewrite map_length, seq_length; reflexivity).
  pose proof (validate_ast_ok [] (fam n) (length (fam n) + 3) lrf tgf (fam_ok n) builtins ex) as OK.
  pose proof (validate_ast_nf (fam n) (length (fam n) + 3) lrf tgf ltac:(rewrite map_length; lia) builtins ex) as NF.
  destruct (validate_ast (fam n) (length (fam n) + 3) lrf tgf builtins ex) as [errs s| |] eqn:E; try contradiction.
  exists errs, s. split; [reflexivity|].
  assert (S2 : 2 ^ n <= s) by (eapply validator_steps_exponential; [|exact E]; lia).
  eapply Nat.le_lt_trans; [|eapply Nat.lt_le_trans; [exact Hn|exact S2]].
  apply Nat.mul_le_mono_l. apply Nat.pow_le_mono_l. apply fam_size.
Qed.
