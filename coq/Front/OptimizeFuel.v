(* C09: the top-down optimizer passes, one level at a time (map_kids), and their termination.  `rotate` and `factor`
   never run out of fuel when the fuel is at least the size of the expression (their rewrites do not grow it); the
   skipper is the one pass left: its populate_choices follows rule references without any cycle check, so its
   termination rests on the validator having rejected left recursion (property C06) and is not proved here. *)
From Coq Require Import List Arith NArith ZArith Bool Lia.
Import ListNotations.
Require Import PV.Pos.Model PV.Front.Shape PV.Front.Consume PV.Front.Validate PV.Front.Optimize.
Open Scope list_scope.

(* one level of map_top_down: g on the immediate children, the node rebuilt around the results *)
Definition map_kids (g : aexpr -> option aexpr) (e : aexpr) : option aexpr :=
  match e with
  | APosPred x => omap APosPred (g x)
  | ANegPred x => omap ANegPred (g x)
  | ASeq a b => obnd (g a) (fun a' => omap (ASeq a') (g b))
  | AChoice a b => obnd (g a) (fun a' => omap (AChoice a') (g b))
  | ARep x => omap ARep (g x)
  | ARepOnce x => omap ARepOnce (g x)
  | ARepExact x n => omap (fun y => ARepExact y n) (g x)
  | ARepMin x n => omap (fun y => ARepMin y n) (g x)
  | ARepMax x n => omap (fun y => ARepMax y n) (g x)
  | ARepMinMax x m n => omap (fun y => ARepMinMax y m n) (g x)
  | AOpt x => omap AOpt (g x)
  | APush x => omap APush (g x)
  | ANodeTag x t => omap (fun y => ANodeTag y t) (g x)
  | x => Some x
  end.
Lemma map_td_S k f e : map_td (S k) f e = obnd (f e) (map_kids (map_td k f)).
Proof. reflexivity. Qed.

Lemma map_td_keeps (P : aexpr -> Prop) :
  (forall g e e', (forall x y, P x -> g x = Some y -> P y) -> P e -> map_kids g e = Some e' -> P e') ->
  forall f, (forall x y, P x -> f x = Some y -> P y) ->
  forall fuel e e', P e -> map_td fuel f e = Some e' -> P e'.
Proof.
  intros Hk f Hf. induction fuel as [|k IH]; intros e e' He H; [discriminate|].
  rewrite map_td_S in H. destruct (f e) as [y|] eqn:E; [|discriminate].
  exact (Hk _ y e' IH (Hf _ _ He E) H).
Qed.

Lemma asize_pos e : 1 <= asize e.
Proof. destruct e; cbn; lia. Qed.
Lemma map_kids_total g e : (forall c, asize c < asize e -> g c <> None) -> map_kids g e <> None.
Proof.
  (* each child in turn: g is defined on it, or H is contradicted *)
  intros H. destruct e; cbn [map_kids]; try discriminate; cbn [asize] in H;
    repeat match goal with |- context [g ?c] =>
      let E := fresh in destruct (g c) eqn:E; [cbn [omap obnd]|exfalso; apply (H c); [lia|exact E]] end;
    discriminate.
Qed.

Lemma map_td_total F (f : aexpr -> option aexpr) :
  (forall x, asize x <= F -> exists y, f x = Some y /\ asize y <= asize x) ->
  forall fuel e, asize e <= fuel -> asize e <= F -> map_td fuel f e <> None.
Proof.
  intros Hf. induction fuel as [|k IH]; intros e L LF; [pose proof (asize_pos e); lia|].
  rewrite map_td_S. destruct (Hf e LF) as (y & -> & Ly).
  apply map_kids_total. intros c Hc. apply IH; lia.
Qed.

(* rotate_internal: the size of the left operand decreases at every step, the size of the whole is unchanged *)
Definition left_size (e : aexpr) : nat := match e with ASeq l _ | AChoice l _ => asize l | _ => 0 end.
Lemma rotate_internal_total : forall fuel e, left_size e < fuel -> exists y, rotate_internal fuel e = Some y /\ asize y = asize e.
Proof.
  induction fuel as [|k IH]; intros e L; [lia|]. cbn [rotate_internal].
  destruct e; try (eexists; split; reflexivity).
  - destruct e1; try (eexists; split; reflexivity). cbn [left_size asize] in L.
    destruct (IH (ASeq e1_1 (ASeq e1_2 e2))) as (y & E & S); [cbn [left_size]; lia|]. exists y. split; [exact E|]. rewrite S. cbn [asize]. lia.
  - destruct e1; try (eexists; split; reflexivity). cbn [left_size asize] in L.
    destruct (IH (AChoice e1_1 (AChoice e1_2 e2))) as (y & E & S); [cbn [left_size]; lia|]. exists y. split; [exact E|]. rewrite S. cbn [asize]. lia.
Qed.
Lemma left_size_lt e : left_size e < asize e.
Proof. destruct e; cbn; lia. Qed.

(* factor_fn leaves the node alone or applies one of its three rewrites *)
Inductive factored : aexpr -> aexpr -> Prop :=
| f_same x : factored x x
| f_left l1 r1 l2 r2 : factored (AChoice (ASeq l1 r1) (ASeq l2 r2)) (ASeq l1 (AChoice r1 r2))
| f_opt l1 l2 r : factored (AChoice (ASeq l1 l2) r) (ASeq l1 (AOpt l2))
| f_drop l r1 r2 : factored (AChoice l (ASeq r1 r2)) l.
Lemma factor_fn_factored ty x : exists y, factor_fn ty x = Some y /\ factored x y.
Proof.
  (* what factor_fn does on l | r when l is not a sequence, for any l: one case analysis of r instead of one per shape of l *)
  assert (R : forall a b, exists y, match b with
                                    | ASeq r1 _ => if aeqb a r1 then Some a else Some (AChoice a b)
                                    | _ => Some (AChoice a b)
                                    end = Some y /\ factored (AChoice a b) y).
  { intros a b. destruct b; try (eexists; split; [reflexivity|constructor]).
    destruct (aeqb a b1); eexists; (split; [reflexivity|constructor]). }
  unfold factor_fn. destruct x; try (eexists; split; [reflexivity|constructor]).
  destruct x1; try apply R.
  destruct x2; try destruct ty; try destruct (aeqb _ _); eexists; (split; [reflexivity|constructor]).
Qed.
Lemma factor_fn_total ty x : exists y, factor_fn ty x = Some y /\ asize y <= asize x.
Proof.
  destruct (factor_fn_factored ty x) as (y & E & F). exists y. split; [exact E|]. destruct F; cbn [asize]; lia.
Qed.

Theorem rotate_pass_terminates fuel e : asize e <= fuel -> map_td fuel (rotate_internal fuel) e <> None.
Proof.
  intros L. apply (map_td_total fuel); auto. intros x Lx.
  destruct (rotate_internal_total fuel x) as (y & E & S); [pose proof (left_size_lt x); lia|]. exists y. split; [exact E|lia].
Qed.
Theorem factor_pass_terminates ty e : map_td (asize e) (factor_fn ty) e <> None.
Proof. apply (map_td_total (asize e)); auto. intros x _. apply factor_fn_total. Qed.

(* hence: out of fuel can only come from the skipper (atomic rules) *)
Theorem optimize_rule_fuel ex fixed fuel map r : asize (abody r) <= fuel ->
  optimize_rule ex fixed fuel map r = OptFuel ->
  aty r = TAtomic /\ exists e1, map_td fuel (rotate_internal fuel) (abody r) = Some e1 /\ map_td fuel (skip_fn fuel map) e1 = None.
Proof.
  intros L H. unfold optimize_rule in H.
  destruct (map_td fuel (rotate_internal fuel) (abody r)) as [e1|] eqn:E1; [|exfalso; eapply rotate_pass_terminates; eauto].
  destruct (match aty r with TAtomic => map_td fuel (skip_fn fuel map) e1 | _ => Some e1 end) as [e2|] eqn:E2.
  - exfalso. destruct (map_bu (unroll_fn ex fixed) e2) as [e3|]; [|discriminate].
    destruct (map_bu (concat_fn (aty r)) e3) as [e4|]; [|discriminate].
    destruct (map_td (asize e4) (factor_fn (aty r)) e4) as [e5|] eqn:E5; [|eapply factor_pass_terminates; eauto].
    destruct (map_bu list_fn e5) as [e6|]; [destruct (optimizable ex e6)|]; discriminate.
  - destruct (aty r); try discriminate E2. eauto.
Qed.
