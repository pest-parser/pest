(* C09: the consume step on a well-shaped forest never panics, and everything it returns is located:
   every span inside a returned ParserNode and every error location is an ordered pair of char boundaries
   of the text (`good`).  Locatedness holds for every setting of the flags (strict = false); no panic needs the three
   reader repairs fix_escape, fix_peek, fix_choice (strict = true). *)
From Coq Require Import List Arith NArith ZArith Bool Lia.
Import ListNotations.
Require Import PV.Pos.Model PV.Pos.Spec PV.Pos.BasicProofs.
Require Import PV.Front.Shape PV.Front.ShapeFacts PV.Front.Consume PV.Front.UnescapeProofs PV.Front.PrattFacts.
Require PV.Pratt.Syntax PV.Pratt.Model PV.Pratt.Proofs.
Open Scope list_scope.

(* `matches` of a concatenation / alternation / symbol / epsilon, taken apart by the inversion lemmas of ShapeFacts *)
Ltac inv_matches :=
  repeat match goal with
  | H : matches REps _ |- _ => apply inv_eps in H
  | H : matches (RSym _) _ |- _ => apply inv_sym in H
  | H : matches (RCat _ _) _ |- _ => apply inv_cat in H as (? & ? & ? & ? & ?)
  | H : matches (RAlt _ _) _ |- _ => apply inv_alt in H as [?|?]
  | H : matches REmpty _ |- _ => destruct (inv_empty _ H)
  end.
(* from the hypothesis `word kids = [r1; ..; rn]` to kids = [k1; ..; kn] with Hk.. : trule ki = ri *)
Ltac inv_word :=
  match goal with H : word _ = _ |- _ =>
    repeat match type of H with
    | word ?l = _ :: _ => let k := fresh "k" in let l' := fresh "l" in let Hk := fresh "Hk" in
                          destruct (word_eq_cons _ _ _ H) as (k & l' & -> & Hk & ?); clear H;
                          match goal with H' : word l' = _ |- _ => rename H' into H end
    | word ?l = [] => apply word_eq_nil in H; subst l
    end
  end.

Section P.
Variable fl : flags.
Variable text : str.
(* strict = true: the three reader repairs are present and a panic is excluded;
   strict = false: nothing is assumed about the flags and a panic is an allowed outcome (only locatedness is claimed) *)
Variable strict : bool.
Hypothesis Hesc : strict = true -> fix_escape fl = true.
Hypothesis Hpeek : strict = true -> fix_peek fl = true.
Hypothesis Hcho : strict = true -> fix_choice fl = true.

Definition loc_ok (l : loc) : Prop := match l with LPos p => boundary text p | LSpan a b => span_ok text a b end.
Definition errs_ok (l : list err) : Prop := Forall (fun e => loc_ok (snd e)) l.

(* every span inside the node is a span of the text; the counts that the reader refuses are absent *)
Fixpoint node_ok (n : pnode) : Prop :=
  span_ok text (nstart n) (nend n) /\
  match n with
  | PPosPred _ x | PNegPred _ x | POpt _ x | PRep _ x | PRepOnce _ x | PPush _ x | PNodeTag _ x _ | PRepMin _ x _ => node_ok x
  | PRepExact _ x k | PRepMax _ x k | PRepMinMax _ x _ k => node_ok x /\ k <> 0%N
  | PSeq _ l r | PChoice _ l r => node_ok l /\ node_ok r
  | _ => True
  end.
Definition out_ok {A} (P : A -> Prop) (o : out A) : Prop :=
  match o with ODone a => P a | OErrs l => errs_ok l | OPanic => strict = false | OFuel => True end.
Definition good (lo hi : nat) : out pnode -> Prop := out_ok (fun n => node_ok n /\ lo <= nstart n /\ nend n <= hi).
Lemma out_ok_bind' {A B} (P : A -> Prop) (Q : B -> Prop) (o : out A) (f : A -> out B) :
  out_ok P o -> (forall a, P a -> out_ok Q (f a)) -> out_ok Q (obind o f).
Proof. destruct o; cbn; auto; intros []. Qed.

Lemma node_ok_span n : node_ok n -> span_ok text (nstart n) (nend n).
Proof. destruct n; exact (@proj1 _ _). Qed.
Lemma span_ok_le a b : span_ok text a b -> a <= b.
Proof. intros H. apply span_ok_facts in H. tauto. Qed.
Lemma span_ok_join a b c d : span_ok text a b -> span_ok text c d -> a <= d -> span_ok text a d.
Proof. rewrite !span_ok_facts. tauto. Qed.

Lemma tok_span k : tok_okb text k = true -> span_ok text (tstart k) (tend k).
Proof. destruct k. intros H. apply tok_okb_unfold in H. cbn. tauto. Qed.
Lemma tok_as_str k : tok_okb text k = true -> exists w, as_str text k = Some w /\ lex_okb (trule k) w = true.
Proof. destruct k. intros H. apply tok_okb_unfold in H. cbn. unfold as_str. cbn. tauto. Qed.
Lemma tok_kids k : tok_okb text k = true -> matches (rule_re (trule k)) (word (tkids k)) /\ kids_ok text (tstart k) (tend k) (tkids k).
Proof. destruct k. intros H. apply tok_okb_unfold in H. cbn. tauto. Qed.

Lemma err_tok_ok kd k : tok_okb text k = true -> errs_ok [(kd, LSpan (tstart k) (tend k))].
Proof. intros H. constructor; [|constructor]. cbn. apply tok_span. exact H. Qed.

Lemma kids_ok_head lo hi k l : kids_ok text lo hi (k :: l) ->
  lo <= tstart k /\ tok_okb text k = true /\ kids_ok text (tend k) hi l.
Proof. cbn. tauto. Qed.
Lemma kids_ok_bound : forall l lo hi, kids_ok text lo hi l -> lo <= hi.
Proof.
  induction l as [|k l IH]; intros lo hi H; cbn in H; [exact H|].
  destruct H as (H1 & H2 & H3). apply IH in H3. apply tok_span, span_ok_le in H2. lia.
Qed.
Lemma kids_ok_weaken : forall l lo lo' hi, lo' <= lo -> kids_ok text lo hi l -> kids_ok text lo' hi l.
Proof. destruct l; cbn; intros; [lia|]. destruct H0 as (? & ? & ?). repeat split; auto. lia. Qed.

Lemma number_of_ok k : tok_okb text k = true -> out_ok (fun _ => True) (number_of text k).
Proof.
  intros H. unfold number_of. destruct (tok_as_str _ H) as (w & -> & _).
  destruct (parse_u32 w); [exact I|]. apply err_tok_ok. exact H.
Qed.
Lemma nonzero_ok k n : tok_okb text k = true -> out_ok (fun m => m <> 0%N) (nonzero k n).
Proof.
  intros H. unfold nonzero. destruct (N.eqb_spec n 0); [apply err_tok_ok; exact H|assumption].
Qed.

Definition post_rule (r : mrule) : Prop :=
  r = r_optional_operator \/ r = r_repeat_operator \/ r = r_repeat_once_operator \/ r = r_repeat_exact \/ r = r_repeat_min \/
  r = r_repeat_max \/ r = r_repeat_min_max \/ r = r_closing_paren.

Lemma with_span_ok n sp : node_ok n -> span_ok text (fst sp) (snd sp) -> node_ok (with_span n sp).
Proof. destruct n; intros [_ H] S; exact (conj S H). Qed.
Lemma nstart_with_span n sp : nstart (with_span n sp) = fst sp.
Proof. destruct n; reflexivity. Qed.
Lemma nend_with_span n sp : nend (with_span n sp) = snd sp.
Proof. destruct n; reflexivity. Qed.

Lemma post_step_good node p lo mid hi :
  node_ok node -> lo <= nstart node -> nend node <= mid -> mid <= tstart p -> tend p <= hi ->
  tok_okb text p = true -> post_rule (trule p) -> good lo hi (post_step text node p).
Proof.
  intros Hn Hlo Hmid Hp Hhi Hok Hr.
  assert (SP : span_ok text (nstart node) (tend p)).
  { pose proof (tok_span _ Hok) as S. pose proof (node_ok_span _ Hn) as S'.
    eapply span_ok_join; [exact S'|exact S|]. apply span_ok_le in S, S'. lia. }
  destruct (tok_kids _ Hok) as [M K].
  unfold post_step. remember (tkids p) as ks eqn:Eks. clear Eks.
  destruct Hr as [E|[E|[E|[E|[E|[E|[E|E]]]]]]]; rewrite E in *; cbn [rule_re cat alt] in M; unfold ROpt, sy in M;
    inv_matches; subst; cbn [app] in *; inv_word; cbn [kids_ok] in K.
  - cbn. auto.
  - cbn. auto.
  - cbn. auto.
  - destruct K as (_ & _ & _ & Kn & _).
    eapply out_ok_bind'; [apply number_of_ok, Kn|]. intros n _.
    eapply out_ok_bind'; [apply (nonzero_ok _ n), Kn|]. intros m Hm. cbn. auto.
  - destruct K as (_ & _ & _ & Kn & _).
    eapply out_ok_bind'; [apply number_of_ok, Kn|]. intros n _. cbn. auto.
  - destruct K as (_ & _ & _ & _ & _ & Kn & _).
    eapply out_ok_bind'; [apply number_of_ok, Kn|]. intros n _.
    eapply out_ok_bind'; [apply (nonzero_ok _ n), Kn|]. intros m Hm. cbn. auto.
  - destruct K as (_ & _ & _ & Kn & _ & _ & _ & Km & _).
    eapply out_ok_bind'; [apply number_of_ok, Kn|]. intros n _.
    eapply out_ok_bind'; [apply number_of_ok, Km|]. intros n' _.
    eapply out_ok_bind'; [apply (nonzero_ok _ n'), Km|]. intros m Hm. cbn. auto.
  - cbn [good out_ok]. rewrite nstart_with_span, nend_with_span. cbn [fst snd]. split; [|lia]. apply with_span_ok; auto.
Qed.

Lemma good_weaken lo lo' hi hi' o : lo' <= lo -> hi <= hi' -> good lo hi o -> good lo' hi' o.
Proof. destruct o; cbn; auto. intros ? ? (? & ? & ?). repeat split; auto; lia. Qed.

Lemma fold_post_good : forall l node lo mid hi,
  node_ok node -> lo <= nstart node -> nend node <= mid -> kids_ok text mid hi l ->
  Forall (fun p => post_rule (trule p)) l -> good lo hi (fold_post text node l).
Proof.
  induction l as [|p l IH]; intros node lo mid hi Hn Hlo Hmid K F.
  - cbn in *. repeat split; auto. lia.
  - cbn [fold_post]. destruct K as (K1 & K2 & K3). inversion F as [|? ? F1 F2]; subst.
    pose proof (kids_ok_bound _ _ _ K3) as B.
    pose proof (post_step_good node p lo mid (tend p) Hn Hlo Hmid K1 (le_n _) K2 F1) as G.
    destruct (post_step text node p) as [n'| | |]; cbn [obind good out_ok] in *; auto; try contradiction.
    destruct G as (G1 & G2 & G3). eapply IH; eauto.
Qed.

Lemma unescaped_ok k : tok_okb text k = true ->
  out_ok (fun s => exists w, as_str text k = Some w /\ unescape w = UOk s) (unescaped fl text k).
Proof.
  intros H. unfold unescaped. destruct (tok_as_str _ H) as (w & E & _). rewrite E.
  destruct (unescape w) eqn:U; cbn; eauto.
  destruct (fix_escape fl) eqn:FE; [apply err_tok_ok; exact H|]. cbn. destruct strict; [pose proof (Hesc eq_refl); congruence|reflexivity].
Qed.
Lemma peek_index_ok k : tok_okb text k = true -> out_ok (fun _ => True) (peek_index fl text k).
Proof.
  intros H. unfold peek_index. destruct (tok_as_str _ H) as (w & E & _). rewrite E.
  destruct (parse_i32 w); cbn; auto. destruct (fix_peek fl) eqn:FE; [apply err_tok_ok; exact H|]. cbn. destruct strict; [pose proof (Hpeek eq_refl); congruence|reflexivity].
Qed.

Lemma lex_string w : lex_okb r_string w = true -> exists rest, w = ch_dquote :: rest /\ rest <> [] /\ last rest 0%N = ch_dquote.
Proof.
  cbn. destruct w as [|c [|d r]]; try discriminate. intros H. apply andb_prop in H as [H1 H2].
  apply ceq_eq in H1. subst c. apply last_is_spec in H2. eauto.
Qed.
Lemma lex_character w : lex_okb r_character w = true -> exists rest, w = ch_squote :: rest /\ rest <> [] /\ last rest 0%N = ch_squote.
Proof.
  cbn. destruct w as [|c [|d r]]; try discriminate. intros H. apply andb_prop in H as [H1 H2].
  apply ceq_eq in H1. subst c. apply last_is_spec in H2. eauto.
Qed.
Lemma lex_insens w : lex_okb r_insensitive_string w = true ->
  exists d rest, w = ch_caret :: d :: rest /\ (d <? 128)%N = true /\ ceq d ch_bslash = false /\ rest <> [] /\ last rest 0%N = ch_dquote.
Proof.
  cbn. destruct w as [|c [|d [|x r]]]; try discriminate. intros H.
  apply andb_prop in H as [H H4]. apply andb_prop in H as [H H3]. apply andb_prop in H as [H1 H2].
  apply ceq_eq in H1. subst c. apply last_is_spec in H4. apply negb_true_iff in H3. exists d, (x :: r). tauto.
Qed.
Lemma len_ascii d : (d <? 128)%N = true -> len_utf8 d = 1.
Proof. intros H. unfold len_utf8. now rewrite H. Qed.

Lemma quoted_literal k q : tok_okb text k = true -> is_quote q ->
  (forall w, lex_okb (trule k) w = true -> exists rest, w = q :: rest /\ rest <> [] /\ last rest 0%N = q) ->
  out_ok (fun _ => True) (obind (unescaped fl text k) (fun s => stripped 1 s)).
Proof.
  intros H Q L. pose proof (unescaped_ok k H) as U. destruct (tok_as_str _ H) as (w & E & Lx).
  destruct (unescaped fl text k) as [s| | |]; cbn [obind out_ok] in *; auto.
  destruct U as (w' & E' & U). rewrite E in E'. injection E' as <-.
  destruct (L _ Lx) as (rest & -> & Hne & Hl).
  destruct (unescape_quoted q rest s Q Hne Hl U) as (mid & ->).
  unfold stripped. rewrite strip1_ok by (apply len1_quote; exact Q). exact I.
Qed.

Lemma insens_literal k : tok_okb text k = true -> trule k = r_insensitive_string ->
  out_ok (fun _ => True) (obind (unescaped fl text k) (fun s => stripped 2 s)).
Proof.
  intros H R. pose proof (unescaped_ok k H) as U. destruct (tok_as_str _ H) as (w & E & Lx). rewrite R in Lx.
  destruct (unescaped fl text k) as [s| | |]; cbn [obind out_ok] in *; auto.
  destruct U as (w' & E' & U). rewrite E in E'. injection E' as <-.
  destruct (lex_insens _ Lx) as (d & rest & -> & D1 & D2 & Hne & Hl).
  destruct (unescape_insens d rest s D1 D2 Hne Hl U) as (mid & ->).
  unfold stripped. rewrite strip2_ok; [exact I|reflexivity|apply len_ascii; exact D1|reflexivity].
Qed.
Lemma string_literal k : tok_okb text k = true -> trule k = r_string ->
  out_ok (fun _ => True) (obind (unescaped fl text k) (fun s => stripped 1 s)).
Proof.
  intros H R. apply (quoted_literal k ch_dquote H (or_introl eq_refl)). rewrite R. apply lex_string.
Qed.
Lemma char_literal k : tok_okb text k = true -> trule k = r_character ->
  out_ok (fun _ => True) (obind (unescaped fl text k) (fun s => stripped 1 s)).
Proof.
  intros H R. apply (quoted_literal k ch_squote H (or_intror eq_refl)). rewrite R. apply lex_character.
Qed.
Lemma obind_assoc {A B C} (o : out A) (f : A -> out B) (g : B -> out C) :
  obind (obind o f) g = obind o (fun a => obind (f a) g).
Proof. destruct o; reflexivity. Qed.
Lemma literal_then k a (f : str -> out pnode) lo hi :
  out_ok (fun _ => True) (obind (unescaped fl text k) (fun s => stripped a s)) ->
  (forall x, good lo hi (f x)) ->
  good lo hi (obind (unescaped fl text k) (fun s => obind (stripped a s) f)).
Proof.
  intros H F. rewrite <- obind_assoc. eapply out_ok_bind'; [exact H|]. intros x _. apply F.
Qed.

Definition terminal_rule (r : mrule) : Prop :=
  r = r_push_literal \/ r = r_push \/ r = r_peek_slice \/ r = r_identifier \/ r = r_string \/ r = r_insensitive_string \/ r = r_range.

Definition rec_good (rec : list tok -> out pnode) : Prop :=
  forall kids lo hi, kids_ok text lo hi kids -> matches (rule_re r_expression) (word kids) -> good lo hi (rec kids).

Lemma leaf_good sp (n : pnode) : nspan n = sp -> span_ok text (fst sp) (snd sp) ->
  (match n with PStr _ _ | PInsens _ _ | PRange _ _ _ | PIdent _ _ | PPeekSlice _ _ _ | PPushLiteral _ _ => True | _ => False end) ->
  node_ok n.
Proof. intros <-. destruct n; cbn; tauto. Qed.

Lemma pk_bind t lo hi (f : Z -> out pnode) : tok_okb text t = true -> (forall z, good lo hi (f z)) ->
  good lo hi (obind (peek_index fl text t) f).
Proof. intros H F. eapply out_ok_bind'; [apply peek_index_ok; exact H|]. intros z _. apply F. Qed.

Lemma peek_slice_good k : tok_okb text k = true -> trule k = r_peek_slice -> good (tstart k) (tend k) (peek_slice_node fl text k).
Proof.
  intros H R. destruct (tok_kids _ H) as [M K]. rewrite R in M. cbn [rule_re cat alt] in M; unfold ROpt, sy in M.
  pose proof (tok_span _ H) as SP.
  assert (G : forall i j, good (tstart k) (tend k) (ODone (PPeekSlice (tspan k) i j))).
  { intros. cbn. repeat split; auto. }
  unfold peek_slice_node. remember (tkids k) as ks eqn:Eks. clear Eks.
  inv_matches; subst; cbn [app] in *; inv_word; cbn [kids_ok] in K; cbn [trule].
  - (* [ i .. j ] *)
    destruct K as (_ & _ & _ & K1 & _ & _ & _ & K3 & _). rewrite Hk0. cbn [obind]. rewrite obind_assoc.
    apply pk_bind; [exact K1|intros z]. cbn [obind]. rewrite Hk2. apply pk_bind; [exact K3|intros z']. apply G.
  - (* [ .. j ] *)
    destruct K as (_ & _ & _ & _ & _ & K2 & _). rewrite Hk0. cbn [obind]. rewrite Hk1. apply pk_bind; [exact K2|intros z]. apply G.
  - (* [ i .. ] *)
    destruct K as (_ & _ & _ & K1 & _). rewrite Hk0. cbn [obind]. rewrite obind_assoc.
    apply pk_bind; [exact K1|intros z]. cbn [obind]. rewrite Hk2. apply G.
  - (* [ .. ] *)
    rewrite Hk0. cbn [obind]. rewrite Hk1. apply G.
Qed.

Lemma range_good k : tok_okb text k = true -> trule k = r_range -> good (tstart k) (tend k) (range_node fl text k).
Proof.
  intros H R. destruct (tok_kids _ H) as [M K]. rewrite R in M. cbn [rule_re cat alt] in M; unfold ROpt, sy in M.
  unfold range_node. remember (tkids k) as ks eqn:Eks. clear Eks.
  inv_matches; subst; cbn [app] in *; inv_word; cbn [kids_ok] in K.
  destruct K as (A1 & K0 & A2 & K1 & A3 & K2 & A4).
  pose proof (tok_span _ K0) as S0. pose proof (tok_span _ K1) as S1. pose proof (tok_span _ K2) as S2.
  pose proof (span_ok_le _ _ S0). pose proof (span_ok_le _ _ S1). pose proof (span_ok_le _ _ S2).
  pose proof (char_literal _ K0 Hk) as L0. pose proof (char_literal _ K2 Hk1) as L2.
  destruct (unescaped fl text k0) as [s0| | |]; cbn [obind out_ok good] in *; auto.
  destruct (unescaped fl text k2) as [s2| | |]; cbn [obind out_ok good] in *; auto.
  destruct (stripped 1 s0); cbn [obind out_ok good] in *; auto; try contradiction.
  destruct (stripped 1 s2); cbn [obind out_ok good] in *; auto; try contradiction.
  cbn. repeat split; try lia. eapply span_ok_join; [eassumption|eassumption|lia].
Qed.

Lemma atom_good rec k : rec_good rec -> tok_okb text k = true -> (terminal_rule (trule k) \/ trule k = r_expression) ->
  good (tstart k) (tend k) (atom fl text rec k).
Proof.
  intros RG H T. destruct (tok_kids _ H) as [M K]. pose proof (tok_span _ H) as SP. unfold atom.
  destruct T as [[E|[E|[E|[E|[E|[E|E]]]]]]|E]; rewrite E in *.
  - destruct (extras fl); [|apply err_tok_ok; exact H].
    cbn [rule_re cat alt] in M; unfold ROpt, sy in M. remember (tkids k) as ks eqn:Eks. clear Eks.
    inv_matches; subst; cbn [app] in *; inv_word; cbn [kids_ok] in K.
    destruct K as (A1 & K0 & A2 & K1 & A3 & K2 & A4).
    pose proof (tok_span _ K0) as S0. pose proof (tok_span _ K1) as S1. pose proof (tok_span _ K2) as S2.
    pose proof (span_ok_le _ _ S0). pose proof (span_ok_le _ _ S1). pose proof (span_ok_le _ _ S2).
    apply literal_then; [apply string_literal; auto|]. intros x. cbn. repeat split; auto; lia.
  - cbn [rule_re cat alt] in M; unfold ROpt, sy in M. remember (tkids k) as ks eqn:Eks. clear Eks.
    inv_matches; subst; cbn [app] in *; inv_word; cbn [kids_ok] in K.
    destruct K as (A1 & K0 & A2 & K1 & A3 & K2 & A4).
    pose proof (tok_span _ K0) as S0. pose proof (tok_span _ K1) as S1. pose proof (tok_span _ K2) as S2.
    pose proof (span_ok_le _ _ S0). pose proof (span_ok_le _ _ S1). pose proof (span_ok_le _ _ S2).
    destruct (tok_kids _ K1) as [M1 KK1]. rewrite Hk0 in M1.
    pose proof (RG _ _ _ KK1 M1) as G. destruct (rec (tkids k1)) as [n| | |]; cbn [obind good out_ok] in *; auto.
    destruct G as (G1 & G2 & G3). pose proof (node_ok_span _ G1) as SN. pose proof (span_ok_le _ _ SN).
    repeat split; auto; try (cbn; lia).
    cbn. eapply span_ok_join; [eassumption|eassumption|lia].
  - apply peek_slice_good; auto.
  - destruct (tok_as_str _ H) as (w & -> & _). cbn. repeat split; auto.
  - apply literal_then; [apply string_literal; auto|]. intros x. cbn. repeat split; auto.
  - destruct (fix_insens fl).
    + cbn [rule_re] in M. unfold sy in M. apply inv_sym in M. remember (tkids k) as ks eqn:Eks. clear Eks. inv_word.
      cbn [kids_ok] in K. destruct K as (_ & K0 & _).
      apply literal_then; [apply string_literal; auto|]. intros x. cbn. repeat split; auto.
    + apply literal_then; [apply insens_literal; auto|]. intros x. cbn. repeat split; auto.
  - apply range_good; auto.
  - apply RG; auto.
Qed.

Definition prefix_rule (r : mrule) : Prop := r = r_positive_predicate_operator \/ r = r_negative_predicate_operator.
(* what `unaries` walks over: openers ( & ! , then a terminal or an expression, then postfix operators; a closing paren is
   consumed by the postfix fold like an operator, so the matching of the parens plays no role here *)
Definition opener (r : mrule) : Prop := prefix_rule r \/ r = r_opening_paren.
Inductive unaries : list tok -> Prop :=
| u_atom k post : terminal_rule (trule k) \/ trule k = r_expression -> Forall (fun p => post_rule (trule p)) post -> unaries (k :: post)
| u_open p l : opener (trule p) -> unaries l -> unaries (p :: l).
Definition tag_ok (lo0 lo : nat) (tag : option (str * nat)) : Prop :=
  match tag with None => True | Some (_, st) => boundary text st /\ lo0 <= st /\ st <= lo end.

Lemma add_tag_good lo0 lo hi tag n : lo0 <= lo -> tag_ok lo0 lo tag -> node_ok n -> lo <= nstart n -> nend n <= hi ->
  good lo0 hi (add_tag fl tag n).
Proof.
  intros L T N A B. unfold add_tag. destruct tag as [[t st]|]; [|cbn; repeat split; auto; lia].
  destruct T as (T1 & T2 & T3). destruct (extras fl); [|cbn; repeat split; auto; lia].
  pose proof (node_ok_span _ N) as S. pose proof (span_ok_le _ _ S).
  cbn. repeat split; auto; try lia. apply span_ok_facts in S. apply span_ok_facts. repeat split; [lia|exact T1|apply S].
Qed.

Lemma is_rule_true r k : is_rule r k = true <-> trule k = r.
Proof. unfold is_rule. apply mrule_eqb_eq. Qed.
Lemma is_rule_false r k : trule k <> r -> is_rule r k = false.
Proof. intros H. destruct (is_rule r k) eqn:E; [apply is_rule_true in E; contradiction|reflexivity]. Qed.

Lemma post_not_assign r : post_rule r -> r <> r_assignment_operator.
Proof. intros [E|[E|[E|[E|[E|[E|[E|E]]]]]]]; rewrite E; discriminate. Qed.
Lemma prefix_not_assign r : prefix_rule r -> r <> r_assignment_operator.
Proof. intros [E|E]; rewrite E; discriminate. Qed.
Lemma terminal_not_assign r : terminal_rule r -> r <> r_assignment_operator.
Proof. intros [E|[E|[E|[E|[E|[E|E]]]]]]; rewrite E; discriminate. Qed.

Lemma unaries_no_assign l : unaries l -> Forall (fun k => trule k <> r_assignment_operator) l.
Proof.
  induction 1 as [k post Hk PS|p l Hp _ IH]; constructor; try exact IH.
  - destruct Hk as [Hk|Hk]; [apply terminal_not_assign, Hk|rewrite Hk; discriminate].
  - eapply Forall_impl; [|exact PS]. intros a. apply post_not_assign.
  - destruct Hp as [Hp|Hp]; [apply prefix_not_assign, Hp|rewrite Hp; discriminate].
Qed.
(* so get_node_tag finds no tag there *)
Lemma un_unaries rec pr l3 : unaries (pr :: l3) -> un fl text rec (pr :: l3) = core fl text rec pr l3 (un fl text rec l3) None.
Proof.
  intros U. apply unaries_no_assign in U. inversion U as [|? ? _ F]; subst. cbn [un]. destruct l3 as [|nx l2]; [reflexivity|].
  inversion F; subst. rewrite is_rule_false by assumption. reflexivity.
Qed.

Lemma core_good rec : rec_good rec -> forall l, unaries l -> forall lo hi, kids_ok text lo hi l ->
  forall lo0 tag, lo0 <= lo -> tag_ok lo0 lo tag ->
  match l with
  | pr :: l3 => good lo0 hi (core fl text rec pr l3 (un fl text rec l3) tag)
  | [] => False
  end.
Proof.
  intros RG. induction 1 as [k post Hk PS|p l Hp U IH]; intros lo hi K lo0 tag L0 T; destruct K as (A1 & Kk & Kr);
    pose proof (span_ok_le _ _ (tok_span _ Kk)) as Lk.
  - assert (CE : forall r tg, core fl text rec k post r tg = obind (obind (atom fl text rec k) (fun n => fold_post text n post)) (add_tag fl tg)).
    { intros. unfold core. destruct Hk as [[E|[E|[E|[E|[E|[E|E]]]]]]|E]; rewrite E; reflexivity. }
    rewrite CE. pose proof (atom_good rec k RG Kk Hk) as GA.
    destruct (atom fl text rec k) as [n| | |]; cbn [obind good out_ok] in *; auto.
    destruct GA as (N1 & N2 & N3). pose proof (fold_post_good post n (tstart k) (tend k) hi N1 N2 N3 Kr PS) as GF.
    destruct (fold_post text n post) as [n'| | |]; cbn [obind good out_ok add_tag] in *; auto.
    destruct GF as (M1 & M2 & M3). apply (add_tag_good lo0 lo hi); auto. lia.
  - (* unaries on the rest, then the node around it *)
    assert (GU : good (tend p) hi (un fl text rec l)).
    { specialize (IH (tend p) hi Kr (tend p) None (le_n _) I). destruct l as [|pr l3]; [contradiction|].
      rewrite un_unaries by exact U. exact IH. }
    unfold core. destruct (un fl text rec l) as [n| | |].
    2-4: destruct Hp as [[E|E]|E]; rewrite E; exact GU.
    destruct GU as (N1 & N2 & N3). pose proof (span_ok_le _ _ (node_ok_span _ N1)).
    assert (SPN : span_ok text (tstart p) (nend n)) by (eapply span_ok_join; [apply tok_span, Kk|apply node_ok_span, N1|lia]).
    destruct Hp as [[E|E]|E]; rewrite E; cbn [obind]; apply (add_tag_good lo0 lo hi); auto;
      rewrite ?nstart_with_span, ?nend_with_span; cbn; try lia; try (apply with_span_ok; assumption); auto.
Qed.

Lemma un_good rec l lo hi : rec_good rec -> unaries l -> kids_ok text lo hi l -> good lo hi (un fl text rec l).
Proof.
  intros RG U K. pose proof (core_good rec RG l U lo hi K lo None (le_n _) I) as G.
  destruct l as [|pr l3]; [contradiction|]. rewrite un_unaries by exact U. exact G.
Qed.

Lemma forall_word (P : mrule -> Prop) l : Forall P (word l) -> Forall (fun k => P (trule k)) l.
Proof. induction l; cbn; intros H; inversion H; subst; constructor; auto. Qed.

Lemma unaries_app pre l : Forall (fun p => prefix_rule (trule p)) pre -> unaries l -> unaries (pre ++ l).
Proof. induction 1; cbn [app]; [auto|]. intros U. apply u_open; [left; assumption|auto]. Qed.

Lemma term_shape kids : matches (rule_re r_term) (word kids) ->
  exists tagp l, kids = tagp ++ l /\
    (tagp = [] \/ exists t a, tagp = [t; a] /\ trule t = r_tag_id /\ trule a = r_assignment_operator) /\ unaries l.
Proof.
  intros M. cbn [rule_re cat] in M.
  apply inv_cat in M as (u1 & w1 & E1 & M1 & M). apply inv_cat in M as (u2 & w2 & E2 & M2 & M).
  apply inv_cat in M as (u3 & u4 & E3 & M3 & M4). subst w1 w2.
  destruct (word_eq_app _ _ _ E1) as (l1 & r1 & -> & W1 & E1'). destruct (word_eq_app _ _ _ E1') as (l2 & r2 & -> & W2 & E2').
  destruct (word_eq_app _ _ _ E2') as (l3 & l4 & -> & W3 & W4). subst. clear E1 E1' E2'.
  assert (F2 : Forall (fun p => prefix_rule (trule p)) l2).
  { apply forall_word. eapply star_forall; [|exact M2]. intros u Hu. unfold re_prefix in Hu. cbn [alt] in Hu. unfold sy in Hu.
    inv_matches; subst; eexists; (split; [reflexivity|]); [left|right]; reflexivity. }
  assert (F4 : Forall (fun p => post_rule (trule p)) l4).
  { apply forall_word. eapply star_forall; [|exact M4]. intros u Hu. unfold re_postfix in Hu. cbn [alt] in Hu. unfold sy in Hu.
    inv_matches; subst; eexists; (split; [reflexivity|]); unfold post_rule; tauto. }
  exists l1, (l2 ++ l3 ++ l4). split; [reflexivity|]. split.
  - unfold ROpt, re_node_tag in M1. cbn [cat] in M1. unfold sy in M1. inv_matches; subst; cbn [app] in *.
    + right. inv_word. eauto.
    + left. inv_word. reflexivity.
  - apply unaries_app; [exact F2|]. unfold re_node, re_terminal in M3. cbn [cat alt] in M3. unfold sy in M3.
    inv_matches; subst; cbn [app] in *; inv_word; cbn [app];
      [|apply u_atom; [left; unfold terminal_rule; tauto|exact F4] ..].
    apply u_open; [right; assumption|]. apply u_atom; [right; assumption|]. constructor; [unfold post_rule; tauto|exact F4].
Qed.

Lemma un_term_good rec k : rec_good rec -> tok_okb text k = true -> trule k = r_term ->
  good (tstart k) (tend k) (un fl text rec (tkids k)).
Proof.
  intros RG H R. destruct (tok_kids _ H) as [M K]. rewrite R in M.
  destruct (term_shape _ M) as (tagp & l & E & T & U). rewrite E in *. clear E.
  destruct T as [->|(t & a & -> & Ht & Ha)]; cbn [app] in *.
  - apply un_good; auto.
  - destruct K as (A1 & Kt & A2 & Ka & Kr).
    pose proof (tok_span _ Kt) as St. pose proof (span_ok_le _ _ St). pose proof (tok_span _ Ka) as Sa. pose proof (span_ok_le _ _ Sa).
    pose proof (core_good rec RG l U (tend a) (tend k) Kr (tstart k)) as G.
    cbn [un]. rewrite (proj2 (is_rule_true _ _) Ha).
    assert (L0 : tstart k <= tend a) by lia.
    pose proof (G None L0 I) as G0.
    destruct l as [|pr l3]; [contradiction|]. clear G0.
    destruct (tok_as_str _ Kt) as (w & -> & Lx). rewrite Ht in Lx. cbn in Lx. destruct w as [|c r]; [discriminate|].
    apply ceq_eq in Lx. subst c. rewrite tail1_ok by reflexivity.
    apply G; [lia|]. cbn. repeat split; [apply span_ok_facts in St; apply St|lia|lia].
Qed.

Definition infix_rule (r : mrule) : Prop := r = r_sequence_operator \/ r = r_choice_operator.
(* term (infix_operator term)*: an expression after its optional leading `|` *)
Inductive alternating : list tok -> Prop :=
| alt_one t : trule t = r_term -> alternating [t]
| alt_more t o l : trule t = r_term -> infix_rule (trule o) -> alternating l -> alternating (t :: o :: l).

Lemma expression_shape kids : matches (rule_re r_expression) (word kids) ->
  exists lead body, kids = lead ++ body /\ (lead = [] \/ exists c, lead = [c] /\ trule c = r_choice_operator) /\ alternating body.
Proof.
  intros M. cbn [rule_re cat] in M.
  apply inv_cat in M as (u1 & w1 & E1 & M1 & M). apply inv_cat in M as (u2 & u3 & E2 & M2 & M3). subst w1.
  destruct (word_eq_app _ _ _ E1) as (l1 & r1 & -> & W1 & E1'). destruct (word_eq_app _ _ _ E1') as (l2 & l3 & -> & W2 & W3).
  subst. clear E1 E1'. exists l1, (l2 ++ l3). split; [reflexivity|]. split.
  - unfold ROpt, sy in M1. inv_matches; subst; [right|left]; inv_word; eauto.
  - unfold sy in M2. apply inv_sym in M2. inv_word. cbn [app].
    apply (inv_star_pairs (RCat re_infix (sy r_term))) in M3.
    + destruct M3 as (ps & E & F). revert k Hk l3 E. induction F as [|[o t] ps Hp F IH]; intros k Hk l3 E.
      * cbn in E. apply word_eq_nil in E. subst. constructor. exact Hk.
      * cbn [flat_map fst snd app] in E. cbn [fst snd] in Hp.
        destruct (word_eq_cons _ _ _ E) as (ko & l' & -> & Ho & E').
        destruct (word_eq_cons _ _ _ E') as (kt & l'' & -> & Ht & E'').
        apply inv_cat in Hp as (a & b & Eab & Ha & Hb). unfold re_infix, sy in Ha, Hb. cbn [alt] in Ha.
        apply inv_sym in Hb. subst b.
        assert (a = [o]) by (inv_matches; subst; cbn in Eab; inversion Eab; reflexivity). subst a.
        cbn in Eab. inversion Eab; subst.
        constructor; auto.
        -- unfold infix_rule. inv_matches; match goal with H : [_] = [_] |- _ => inversion H end; subst; auto.
    + intros u Hu. apply inv_cat in Hu as (a & b & -> & Ha & Hb). unfold re_infix, sy in Ha, Hb. cbn [alt] in Ha.
      apply inv_sym in Hb. subst b. inv_matches; subst; cbn; eexists _, _; (split; [reflexivity|]);
      (change [?x; ?y] with ([x] ++ [y]); constructor; [|constructor]); [apply m_alt_l|apply m_alt_r]; constructor.
Qed.

Lemma alternating_wf l : alternating l -> Syntax.well_formed pratt_table (ptoks l) = true.
Proof.
  unfold Syntax.well_formed. induction 1 as [t Ht|t o l Ht Ho A IH].
  - cbn [ptoks map Syntax.wf fst]. rewrite pratt_table_spec, Ht. reflexivity.
  - cbn [ptoks map Syntax.wf fst]. rewrite (pratt_table_spec (mrule_code (trule t))), Ht.
    cbn [mrule_code Nat.eqb]. rewrite (pratt_table_spec (mrule_code (trule o))). destruct Ho as [-> | ->]; cbn [mrule_code Nat.eqb]; exact IH.
Qed.
Lemma alternating_rules l : alternating l -> Forall (fun k => trule k = r_term \/ infix_rule (trule k)) l.
Proof. induction 1; repeat (constructor; auto). Qed.

Lemma kids_ok_app : forall l1 l2 lo hi, kids_ok text lo hi (l1 ++ l2) ->
  exists mid, kids_ok text lo mid l1 /\ kids_ok text mid hi l2.
Proof.
  induction l1 as [|k l1 IH]; intros l2 lo hi H.
  - exists lo. cbn. split; [lia|exact H].
  - cbn in H. destruct H as (H1 & H2 & H3). destruct (IH _ _ _ H3) as (mid & A & B).
    exists mid. cbn. auto.
Qed.

Lemma code_inj a b : mrule_code a = mrule_code b -> a = b.
Proof. intros H. apply mrule_eqb_eq. unfold mrule_eqb. now rewrite H, Nat.eqb_refl. Qed.

Lemma ev_good rec : rec_good rec -> forall t lo hi,
  kind_ok pratt_table t -> kids_ok text lo hi (map snd (Syntax.yield t)) ->
  Forall (fun a => fst a = mrule_code (trule (snd a)) /\ (trule (snd a) = r_term \/ infix_rule (trule (snd a)))) (Syntax.yield t) ->
  good lo hi (ev fl text rec t).
Proof.
  intros RG. induction t as [a|o t IH|t IH o|l IHl o r IHr]; intros lo hi K Y F; cbn [kind_ok] in K; try contradiction.
  - cbn [Syntax.yield map] in *. inversion F as [|? ? (Fc & Fr) _]; subst.
    destruct Y as (Y1 & Y2 & Y3). cbn [ev].
    assert (R : trule (snd a) = r_term).
    { destruct Fr as [R|R]; [exact R|]. exfalso.
      assert (K' : pratt_table (mrule_code (trule (snd a))) = None).
      { replace (mrule_code (trule (snd a))) with (fst a) by exact Fc. exact K. }
      apply (proj2 (pratt_table_op (snd a))); auto. }
    eapply good_weaken; [| |apply un_term_good; auto]; [lia|cbn in Y3; lia].
  - destruct K as (Kl & Kr & s & p & Ko). cbn [Syntax.yield] in *. rewrite map_app in Y. cbn [map] in Y.
    apply Forall_app in F as [Fl F]. inversion F as [|? ? (Fc & Fr) Fr']; subst.
    destruct (kids_ok_app _ _ _ _ Y) as (mid & Yl & Yr). cbn [kids_ok] in Yr. destruct Yr as (Y1 & Y2 & Y3).
    pose proof (tok_span _ Y2) as So. pose proof (span_ok_le _ _ So).
    specialize (IHl lo mid Kl Yl Fl). specialize (IHr (tend (snd o)) hi Kr Y3 Fr').
    cbn [ev]. destruct (ev fl text rec l) as [nl| | |], (ev fl text rec r) as [nr| | |]; cbn [good out_ok] in *; auto; try contradiction.
    destruct IHl as (L1 & L2 & L3), IHr as (R1 & R2 & R3).
    pose proof (node_ok_span _ L1) as Sl. pose proof (node_ok_span _ R1) as Sr.
    pose proof (span_ok_le _ _ Sl). pose proof (span_ok_le _ _ Sr).
    assert (SP : span_ok text (nstart nl) (nend nr)) by (eapply span_ok_join; [eassumption|eassumption|lia]).
    assert (OP : infix_rule (trule (snd o))).
    { apply pratt_table_op. replace (mrule_code (trule (snd o))) with (fst o) by exact Fc.
      intros X. assert (X' : pratt_table (fst o) = None) by exact X. rewrite Ko in X'. discriminate. }
    unfold infix_node. destruct OP as [-> | ->]; cbn; repeat split; auto; lia.
Qed.

Lemma ptoks_snd l : map snd (ptoks l) = l.
Proof. unfold ptoks. rewrite map_map. cbn. apply map_id. Qed.
Lemma alternating_head l : alternating l -> exists t r, l = t :: r /\ trule t = r_term.
Proof. destruct 1; eauto. Qed.

Lemma body_good rec body lo hi : rec_good rec -> alternating body -> kids_ok text lo hi body ->
  good lo hi match Model.pratt_parse pratt_maps pratt_table (ptoks body) with
             | Syntax.Ok t _ => ev fl text rec t
             | Syntax.Panic _ => OPanic
             | Syntax.OutOfFuel => OFuel
             end.
Proof.
  intros RG A K. destruct (pratt_ok (ptoks body) (alternating_wf _ A)) as (t & E & Y & KO).
  rewrite E. apply ev_good; auto.
  - rewrite Y, ptoks_snd. exact K.
  - rewrite Y. unfold ptoks. apply Forall_map. cbn [fst snd]. eapply Forall_impl; [|apply alternating_rules; exact A].
    cbn. intros a Ha. auto.
Qed.

Lemma alternating_star : forall l, alternating l -> forall t rest, l = t :: rest ->
  matches (RStar (RCat re_infix (sy r_term))) (word rest).
Proof.
  induction 1 as [t0 Ht|t0 o l Ht Ho A IH]; intros t rest E; inversion E; subst.
  - constructor.
  - destruct (alternating_head _ A) as (t' & r' & -> & Ht').
    change (word (o :: t' :: r')) with ([trule o; trule t'] ++ word r'). constructor; [|eapply IH; reflexivity].
    change [trule o; trule t'] with ([trule o] ++ [trule t']). constructor.
    + unfold re_infix, sy. cbn [alt]. destruct Ho as [-> | ->]; [apply m_alt_l|apply m_alt_r]; constructor.
    + rewrite Ht'. constructor.
Qed.
Lemma alternating_matches l : alternating l -> matches (rule_re r_expression) (word l).
Proof.
  intros A. destruct (alternating_head _ A) as (t & r & -> & Ht). cbn [rule_re cat].
  change (word (t :: r)) with ([] ++ ([trule t] ++ word r)). constructor; [apply m_alt_r; constructor|].
  constructor; [rewrite Ht; constructor|]. eapply alternating_star; eauto.
Qed.

(* without the repair a leading `|` reaches the Pratt parser, which panics on an infix operator in operand position *)
Lemma expr_leading_op f c (rest : list (Syntax.tok tok)) rbp : infix_rule (trule c) ->
  Model.expr pratt_maps pratt_table (S f) ((mrule_code (trule c), c) :: rest) rbp = Syntax.Panic Syntax.PNud.
Proof.
  intros I. rewrite PV.Pratt.Proofs.expr_S. cbn [Model.nud fst]. rewrite pratt_table_spec. destruct I as [-> | ->]; reflexivity.
Qed.
Lemma pratt_leading_op c rest : infix_rule (trule c) ->
  Model.pratt_parse pratt_maps pratt_table (ptoks (c :: rest)) = Syntax.Panic Syntax.PNud.
Proof.
  intros I. unfold Model.pratt_parse. cbn [ptoks map]. rewrite Nat.add_comm. cbn [Nat.add]. apply expr_leading_op. exact I.
Qed.

Lemma cexpr_body_good rec : rec_good rec -> rec_good (cexpr_body fl text rec).
Proof.
  intros RG kids lo hi K M. unfold cexpr_body.
  destruct (expression_shape _ M) as (lead & body & -> & L & A).
  destruct (alternating_head _ A) as (t & r & Eb & Ht).
  assert (S : exists lo', lo <= lo' /\ kids_ok text lo' hi body /\ skip_choice (lead ++ body) = body).
  { destruct L as [->|(c & -> & Hc)]; cbn [app] in *.
    - exists lo. repeat split; auto. subst body. cbn. rewrite is_rule_false; [reflexivity|]. rewrite Ht. discriminate.
    - destruct K as (K1 & K2 & K3). pose proof (tok_span _ K2) as Sc. pose proof (span_ok_le _ _ Sc).
      exists (tend c). repeat split; auto; [lia|]. cbn. rewrite (proj2 (is_rule_true _ _) Hc). reflexivity. }
  destruct S as (lo' & L1 & K' & SK).
  case_eq (fix_choice fl); intros FC.
  - rewrite SK. eapply good_weaken; [exact L1|apply le_n|]. apply body_good; auto.
  - (* as shipped: no skipping here *)
    assert (NS : strict = false) by (destruct strict; [pose proof (Hcho eq_refl); congruence|reflexivity]).
    destruct L as [->|(c & -> & Hc)]; cbn [app] in *.
    + apply body_good; auto.
    + rewrite pratt_leading_op by (right; exact Hc). exact NS.
Qed.

Theorem cexpr_good : forall d, rec_good (cexpr fl text d).
Proof.
  induction d as [|d IH].
  - intros kids lo hi _ _. exact I.
  - cbn [cexpr]. apply cexpr_body_good. exact IH.
Qed.

Definition rule_ok (r : prule) : Prop := span_ok text (fst (pspan r)) (snd (pspan r)) /\ node_ok (pbody r).

Lemma grammar_rule_shape kids : matches (rule_re r_grammar_rule) (word kids) ->
  (exists d, kids = [d] /\ trule d = r_line_doc) \/
  (exists nm a m ob x cb, kids = nm :: a :: m ++ [ob; x; cb] /\ trule nm = r_identifier /\ trule ob = r_opening_brace /\
     trule x = r_expression /\
     (m = [] \/ exists k, m = [k] /\ (trule k = r_silent_modifier \/ trule k = r_atomic_modifier \/
                                      trule k = r_compound_atomic_modifier \/ trule k = r_non_atomic_modifier))).
Proof.
  intros M. cbn [rule_re cat] in M. unfold ROpt, re_modifier in M. cbn [alt] in M. unfold sy in M.
  inv_matches; subst; cbn [app] in *; inv_word.
  1-4: right; exists k, k0, [k1], k2, k3, k4; repeat split; auto; right; eexists; split; [reflexivity|]; tauto.
  - right. exists k, k0, [], k1, k2, k3. repeat split; auto.
  - left. eauto.
Qed.

Lemma consume_rule_good d t : tok_okb text t = true -> trule t = r_grammar_rule ->
  (forall k l, tkids t = k :: l -> trule k <> r_line_doc) ->
  out_ok rule_ok (consume_rule fl text d t).
Proof.
  intros H R NL. destruct (tok_kids _ H) as [M K]. rewrite R in M.
  unfold consume_rule. remember (tkids t) as ks eqn:Eks.
  destruct (grammar_rule_shape _ M) as [(dk & -> & Hd)|(nm & a & m & ob & x & cb & -> & Hnm & Hob & Hx & Hm)].
  - exfalso. eapply NL; eauto.
  - clear NL Eks. cbn [kids_ok] in K. destruct K as (A1 & Knm & A2 & Ka & K).
    destruct (tok_as_str _ Knm) as (name & -> & _).
    destruct (m ++ [ob; x; cb]) as [|m0 l3] eqn:El; [destruct Hm as [->|(k & -> & _)]; discriminate El|]. cbv zeta.
    (* whatever the modifier, what is left is { expression } *)
    apply (out_ok_bind' (fun tr => exists lo, snd tr = [ob; x; cb] /\ kids_ok text lo (tend t) (snd tr))).
    + destruct Hm as [->|(k & -> & Hk)]; injection El as <- <-.
      * rewrite (proj2 (is_rule_true _ _) Hob). cbn [negb out_ok]. eexists; split; [reflexivity|exact K].
      * rewrite is_rule_false by (destruct Hk as [E|[E|[E|E]]]; rewrite E; discriminate). cbn [negb].
        destruct K as (B1 & Kk & K).
        destruct Hk as [E|[E|[E|E]]]; rewrite E; cbn [out_ok]; (eexists; split; [reflexivity|exact K]).
    + intros [ty rest] (lo & E & KK). cbn [snd] in E, KK. subst rest. destruct KK as (_ & _ & _ & Kx & _).
      destruct (tok_kids _ Kx) as [Mx KKx]. rewrite Hx in Mx.
      apply (out_ok_bind' (fun ks => exists lo', kids_ok text lo' (tend x) ks /\ matches (rule_re r_expression) (word ks))).
      * case_eq (fix_choice fl); intros FC; [cbn [out_ok]; eauto|].
        destruct (expression_shape _ Mx) as (lead & body & E & L & A).
        destruct (alternating_head _ A) as (t0 & r0 & Eb & Ht0).
        destruct L as [->|(c & -> & Hc)]; cbn [app] in E; rewrite E in *; subst body.
        -- rewrite Eb. rewrite is_rule_false by (rewrite Ht0; discriminate). cbn [out_ok]. rewrite <- Eb. eauto.
        -- rewrite (proj2 (is_rule_true _ _) Hc). cbn [out_ok]. destruct KKx as (_ & _ & KKb).
           eexists; split; [exact KKb|apply alternating_matches; exact A].
      * intros ks (lo' & Kk & Mk). eapply out_ok_bind'; [apply (cexpr_good d _ _ _ Kk Mk)|].
        intros n (N & _). split; [apply tok_span; exact Knm|exact N].
Qed.

Lemma kids_all_ok : forall l lo hi, kids_ok text lo hi l -> Forall (fun k => tok_okb text k = true) l.
Proof. induction l; cbn; intros lo hi H; constructor; [tauto|]. destruct H as (_ & _ & H). eauto. Qed.

Lemma consume_rules_good d : forall f, Forall (fun k => tok_okb text k = true) f ->
  out_ok (Forall rule_ok) (consume_rules_with_spans fl text d f).
Proof.
  induction f as [|t f IH]; intros F; [cbn; constructor|]. inversion F as [|? ? Ft Ff]; subst. specialize (IH Ff).
  cbn [consume_rules_with_spans]. destruct (is_rule r_grammar_rule t) eqn:R; [|exact IH]. apply is_rule_true in R.
  destruct (tok_kids _ Ft) as [M K]. rewrite R in M.
  destruct (tkids t) as [|k l] eqn:Ek.
  - exfalso. destruct (grammar_rule_shape _ M) as [(dk & E & _)|(nm & a & m & ob & x & cb & E & _)]; discriminate.
  - destruct (is_rule r_line_doc k) eqn:D; [exact IH|].
    assert (NL : forall k' l', tkids t = k' :: l' -> trule k' <> r_line_doc).
    { intros k' l' E. rewrite Ek in E. inversion E; subst. intros X. apply is_rule_true in X. congruence. }
    pose proof (consume_rule_good d t Ft R NL) as G.
    destruct (consume_rule fl text d t) as [r| | |]; cbn [obind out_ok] in *; auto.
    destruct (consume_rules_with_spans fl text d f) as [rs| | |]; cbn [obind out_ok] in *; auto.
Qed.
End P.
