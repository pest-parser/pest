(* C09: validate_pairs and validate_ast never panic on what the earlier steps deliver, and every error they
   report is located in the text. *)
From Coq Require Import List Arith NArith ZArith Bool Lia.
Import ListNotations.
Require Import PV.Pos.Model PV.Pos.Spec PV.Pos.BasicProofs.
Require Import PV.Front.Shape PV.Front.ShapeFacts PV.Front.Consume PV.Front.Validate PV.Front.ConsumeProofs.
Open Scope list_scope.

Section V.
Variable text : str.
Notation tok_good := (fun k => tok_okb text k = true).

Lemma flatten_tok_ok : forall t, tok_okb text t = true -> Forall tok_good (flatten_tok t).
Proof.
  fix IH 1. intros [r s e kids] H. cbn [flatten_tok]. constructor; [exact H|].
  apply tok_okb_unfold in H. destruct H as (_ & _ & _ & K). revert K. generalize s.
  induction kids as [|k kids IHk]; intros lo K; [constructor|].
  cbn in K. destruct K as (_ & K1 & K2). apply Forall_app. split; [apply IH; exact K1|eapply IHk; exact K2].
Qed.
Lemma flatten_ok : forall l, Forall tok_good l -> Forall tok_good (flatten l).
Proof.
  induction l as [|k l IH]; intros F; [constructor|]. inversion F; subst. cbn. apply Forall_app. split; [apply flatten_tok_ok; auto|auto].
Qed.
Lemma skipn_forall {A} (P : A -> Prop) n l : Forall P l -> Forall P (skipn n l).
Proof. revert l. induction n; intros l F; [exact F|]. destruct l; [constructor|]. inversion F; subst. cbn. auto. Qed.
Lemma filter_forall {A} (P : A -> Prop) f l : Forall P l -> Forall P (filter f l).
Proof. induction 1; cbn; [constructor|]. destruct (f x); auto. Qed.

Lemma definitions_ok : forall f, Forall tok_good f ->
  match definitions f with ODone ds => Forall tok_good ds | OErrs _ => False | OPanic => False | OFuel => False end.
Proof.
  induction f as [|t f IH]; intros F; [constructor|]. inversion F as [|? ? Ft Ff]; subst. specialize (IH Ff).
  cbn [definitions]. destruct (is_rule r_grammar_rule t) eqn:R; [|exact IH]. apply is_rule_true in R.
  destruct (tok_kids text _ Ft) as [M K]. rewrite R in M.
  destruct (tkids t) as [|k l] eqn:Ek.
  - destruct (grammar_rule_shape _ M) as [(dk & E & _)|(nm & a & m & ob & x & cb & E & _)]; discriminate.
  - cbn in K. destruct K as (_ & Kk & _).
    destruct (definitions f); try contradiction. cbn [obind]. destruct (is_rule r_line_doc k); auto.
Qed.
Lemma called_rules_ok : forall f, Forall tok_good f -> Forall tok_good (called_rules f).
Proof.
  induction f as [|t f IH]; intros F; [constructor|]. inversion F as [|? ? Ft Ff]; subst. cbn [called_rules].
  destruct (is_rule r_grammar_rule t); auto. apply Forall_app. split; auto.
  apply filter_forall, skipn_forall, flatten_ok.
  destruct (tok_kids text _ Ft) as [_ K]. eapply kids_all_ok; eauto.
Qed.
Lemma names_of_ok : forall l, Forall tok_good l ->
  match names_of text l with ODone ns => Forall (fun p => tok_okb text (snd p) = true) ns | _ => False end.
Proof.
  induction l as [|t l IH]; intros F; [constructor|]. inversion F as [|? ? Ft Fl]; subst. specialize (IH Fl).
  cbn [names_of]. destruct (tok_as_str text _ Ft) as (w & -> & _).
  destruct (names_of text l); try contradiction. cbn. constructor; auto.
Qed.

Lemma err_at_ok k t : tok_okb text t = true -> loc_ok text (snd (err_at k t)).
Proof. intros H. cbn. apply tok_span. exact H. Qed.
Lemma flat_map_errs {A} (f : A -> list err) l : (forall a, In a l -> errs_ok text (f a)) -> errs_ok text (flat_map f l).
Proof. induction l; cbn; intros H; [constructor|]. apply Forall_app. split; [apply H; auto|apply IHl; auto]. Qed.

Lemma validate_pairs_ok builtins f : Forall tok_good f -> out_ok text true (fun _ => True) (validate_pairs text builtins f).
Proof.
  intros F. unfold validate_pairs.
  pose proof (definitions_ok f F) as D. destruct (definitions f) as [dts| | |]; try contradiction. cbn [obind].
  pose proof (names_of_ok dts D) as N1. destruct (names_of text dts) as [defs| | |]; try contradiction. cbn [obind].
  pose proof (names_of_ok _ (called_rules_ok f F)) as N2. destruct (names_of text (called_rules f)) as [called| | |]; try contradiction. cbn [obind].
  assert (E : errs_ok text (validate_pest_keywords defs ++ validate_already_defined [] defs ++ validate_undefined builtins defs called)).
  { rewrite Forall_forall in N1, N2. apply Forall_app. split; [|apply Forall_app; split].
    - apply flat_map_errs. intros d Hd. destruct (mem (fst d) PEST_KEYWORDS); [|constructor]. constructor; [|constructor]. apply err_at_ok. auto.
    - assert (G : forall ds seen, (forall d, In d ds -> tok_okb text (snd d) = true) -> errs_ok text (validate_already_defined seen ds)).
      { induction ds as [|d ds IHd]; intros seen Hd; cbn; [constructor|].
        destruct (mem (fst d) seen); [constructor; [apply err_at_ok; apply Hd; left; auto|]|]; apply IHd; intros; apply Hd; right; auto. }
      apply G. exact N1.
    - apply flat_map_errs. intros c Hc. destruct (negb _ && negb _); [|constructor]. constructor; [|constructor]. apply err_at_ok. auto. }
  destruct (validate_pest_keywords defs ++ _); cbn; auto.
Qed.

Variable rules : list prule.
Variable fuel0 : nat.
Variables lrf tgf : bool.
Hypothesis RO : Forall (rule_ok text) rules.

Lemma lookup_in : forall rs n r, lookup rs n = Some r -> In r rs.
Proof.
  induction rs as [|x rs IH]; intros n r H; [discriminate|]. cbn in H.
  destruct (lookup rs n) eqn:E; [inversion H; subst; right; eauto|].
  destruct (str_eqb (pname x) n); inversion H; subst. left. reflexivity.
Qed.
Lemma lookup_ok n r : lookup rules n = Some r -> node_ok text (pbody r).
Proof. intros H. apply lookup_in in H. rewrite Forall_forall in RO. apply RO in H. apply H. Qed.

(* what a walk of the validator may return: a value with P, or out of fuel, never a panic.
   no_panic, chk_ok and errs_v are vok at three predicates *)
Definition vok {A} (P : A -> Prop) (v : vres A) : Prop := match v with VOk a _ => P a | VPanic => False | VFuel => True end.
Lemma vok_tick {A} (P : A -> Prop) v : vok P v -> vok P (vtick v).
Proof. destruct v; auto. Qed.
Lemma vok_bind {A B} (P : A -> Prop) (Q : B -> Prop) v f : vok P v -> (forall a, P a -> vok Q (f a)) -> vok Q (vbind v f).
Proof. destruct v; cbn; auto; try contradiction. intros H1 H. specialize (H a H1). destruct (f a); auto. Qed.
Definition no_panic {A} (v : vres A) : Prop := match v with VPanic => False | _ => True end.
Lemma np_bind {A B} (Q : B -> Prop) (v : vres A) f : no_panic v -> (forall a, vok Q (f a)) -> vok Q (vbind v f).
Proof. intros Hv Hf. apply (vok_bind (fun _ => True) Q); auto. Qed.

(* is_non_failing and is_non_progressing have no panic site; the two walks have the same shape *)
Lemma nfail_nprog_np : forall fuel trace e, no_panic (nfail rules fuel trace e) /\ no_panic (nprog rules fuel trace e).
Proof.
  induction fuel as [|f IH]; intros trace e; [split; exact I|]. cbn [nfail nprog].
  split; induction e; cbn; auto; repeat (first [apply vok_tick | apply np_bind | intros [] | exact I | apply IH | assumption
    | match goal with |- no_panic (if ?b then _ else _) => destruct b end
    | match goal with |- no_panic (match ?o with Some _ => _ | None => _ end) => destruct o end ]).
Qed.
Definition nfail_np fuel trace e := proj1 (nfail_nprog_np fuel trace e).
Definition nprog_np fuel trace e := proj2 (nfail_nprog_np fuel trace e).

(* the result of a checker: an error located by a SPAN of the text, or nothing; never a panic *)
Definition sloc_ok (l : loc) : Prop := match l with LSpan a b => span_ok text a b | LPos _ => False end.
Definition serrs_ok (l : list err) : Prop := Forall (fun e => sloc_ok (snd e)) l.
Lemma sloc_loc l : sloc_ok l -> loc_ok text l.
Proof. destruct l; cbn; tauto. Qed.
Lemma serrs_errs l : serrs_ok l -> errs_ok text l.
Proof. intros H. eapply Forall_impl; [|exact H]. intros e. apply sloc_loc. Qed.
Definition oerr_ok (x : option err) : Prop := match x with Some e => sloc_ok (snd e) | None => True end.
Definition chk_ok : vres (option err) -> Prop := vok oerr_ok.
Lemma span_err_ok k n : node_ok text n -> sloc_ok (snd (span_err k n)).
Proof. intros H. cbn. apply node_ok_span. exact H. Qed.

Lemma check_expr_ok : forall fuel trace e, trace <> [] -> node_ok text e -> chk_ok (check_expr rules fuel0 lrf fuel trace e).
Proof.
  induction fuel as [|f IH]; intros trace e T N; [exact I|]. cbn [check_expr].
  assert (OR : forall (v : vres (option err)) (g : vres (option err)), chk_ok v -> chk_ok g ->
            chk_ok (vbind v (fun x => match x with Some er => VOk (Some er) 0 | None => g end))).
  { intros v g Hv Hg. destruct v as [[er|] n| |]; cbn; auto. destruct g as [[e2|] m| |]; cbn; auto. }
  (* a node with one child: tick and descend (for the counted repetitions and tags only when lrf) *)
  induction e; cbn [node_ok] in N; try exact I; try (apply vok_tick; apply IHe; tauto);
    try (destruct lrf; [apply vok_tick; apply IHe; tauto|exact I]).
  - destruct trace as [|t0 tr]; [congruence|].
    destruct (str_eqb t0 n); [cbn; apply node_ok_span; cbn; tauto|].
    destruct (negb (mem n (t0 :: tr))); [|exact I].
    destruct (lookup rules n) eqn:L; [|exact I]. apply vok_tick. apply IH; [destruct tr; discriminate|eapply lookup_ok; eauto].
  - destruct (rev trace) as [|lst r0] eqn:R; [apply (f_equal (@rev _)) in R; rewrite rev_involutive in R; cbn in R; congruence|].
    destruct lrf.
    + apply vok_tick. apply OR; [apply IHe1; tauto|].
      apply np_bind; [apply nfail_np|]. intros b1. apply np_bind; [destruct b1; [exact I|apply nprog_np]|].
      intros b2. destruct b2; [apply IHe2; tauto|exact I].
    + apply vok_tick. apply np_bind; [apply nfail_np|]. intros b1. apply np_bind; [destruct b1; [exact I|apply nprog_np]|].
      intros b2. destruct b2; [apply IHe2|apply IHe1]; tauto.
  - apply vok_tick. apply OR; [apply IHe1|apply IHe2]; tauto.
Qed.

Lemma top_down_ok : forall e, node_ok text e -> Forall (node_ok text) (top_down tgf e).
Proof.
  induction e; cbn [top_down node_ok]; intros N; constructor; try (cbn [node_ok]; exact N); try constructor;
    try (apply IHe; tauto); try (apply Forall_app; split; [apply IHe1|apply IHe2]; tauto).
  destruct tgf; [apply IHe; tauto|constructor].
Qed.

Definition errs_v (v : vres (list err)) : Prop := match v with VOk l _ => serrs_ok l | VPanic => False | VFuel => True end.
Lemma errs_bind {A} (v : vres A) f : no_panic v -> (forall a, errs_v (f a)) -> errs_v (vbind v f).
Proof. apply np_bind. Qed.

Lemma collect_ok chk l : (forall n, In n l -> chk_ok (chk n)) -> errs_v (collect chk l).
Proof.
  induction l as [|n l IH]; intros H; cbn [collect]; [constructor|].
  eapply vok_bind; [apply H; left; reflexivity|]. intros x Hx. eapply vok_bind; [apply IH; intros; apply H; right; assumption|].
  intros r Hr. cbn. destruct x; [constructor|]; auto.
Qed.
Lemma over_rules_ok chk : (forall n, node_ok text n -> chk_ok (chk n)) -> forall rs, Forall (rule_ok text) rs -> errs_v (over_rules tgf chk rs).
Proof.
  intros H. induction rs as [|r rs IH]; intros F; cbn [over_rules]; [constructor|]. inversion F as [|? ? Fr Frs]; subst.
  eapply vok_bind.
  - apply collect_ok. intros n Hn. apply H. pose proof (top_down_ok (pbody r) (proj2 Fr)) as T. rewrite Forall_forall in T. auto.
  - intros a Ha. eapply vok_bind; [apply IH; auto|]. intros b Hb. cbn. apply Forall_app. auto.
Qed.

(* "non-failing, else non-progressing": the check of repetitions and of WHITESPACE / COMMENT *)
Lemma fail_prog_ok k1 k2 n other : node_ok text n ->
  chk_ok (vbind (nfail rules fuel0 [] other) (fun b1 =>
    if b1 then VOk (Some (span_err k1 n)) 0
    else vbind (nprog rules fuel0 [] other) (fun b2 => VOk (if b2 then Some (span_err k2 n) else None) 0))).
Proof.
  intros N. apply np_bind; [apply nfail_np|]. intros [|]; [apply span_err_ok, N|].
  apply np_bind; [apply nprog_np|]. intros [|]; [apply span_err_ok, N|exact I].
Qed.
Lemma rep_check_ok n : node_ok text n -> chk_ok (rep_check rules fuel0 n).
Proof. intros N. unfold rep_check. destruct n; try exact I; apply fail_prog_ok, N. Qed.
Lemma choice_check_ok n : node_ok text n -> chk_ok (choice_check rules fuel0 n).
Proof.
  intros N. unfold choice_check. destruct n; try exact I. cbn [node_ok] in N. destruct N as (_ & N1 & _).
  set (node := match n1 with PChoice _ _ rhs => rhs | _ => n1 end).
  assert (NN : node_ok text node) by (subst node; destruct n1; auto; cbn [node_ok] in N1; tauto).
  apply np_bind; [apply nfail_np|]. intros [|]; [apply span_err_ok, NN|exact I].
Qed.
Lemma ws_rules_ok : forall rs, Forall (rule_ok text) rs -> errs_v (ws_rules rules fuel0 rs).
Proof.
  induction rs as [|r rs IH]; intros F; cbn [ws_rules]; [constructor|]. inversion F as [|? ? Fr Frs]; subst.
  eapply vok_bind.
  - unfold ws_check. destruct (_ || _); [apply fail_prog_ok, Fr|exact I].
  - intros x Hx. eapply vok_bind; [apply IH; auto|]. intros b Hb. cbn. destruct x; [constructor|]; auto.
Qed.
Lemma lr_rules_ok : forall rs seen, errs_v (lr_rules rules fuel0 lrf seen rs).
Proof.
  induction rs as [|r rs IH]; intros seen; cbn [lr_rules]; [constructor|].
  destruct (mem (pname r) seen); [apply IH|].
  destruct (lookup rules (pname r)) as [r'|] eqn:L; [|apply IH].
  eapply vok_bind; [apply check_expr_ok; [discriminate|eapply lookup_ok; eauto]|].
  intros x Hx. eapply vok_bind; [apply IH|]. intros b Hb. cbn. destruct x; [constructor|]; auto.
Qed.
Lemma tag_check_ok builtins n : node_ok text n -> chk_ok (tag_check rules builtins n).
Proof.
  intros N. unfold tag_check. destruct n; try exact I. cbn [chk_ok vok oerr_ok].
  assert (S : span_ok text (fst sp) (snd sp)) by (apply (node_ok_span text _ N)).
  clear N. induction n; cbn [check_silent_builtin]; try exact I; auto.
  destruct (lookup rules n) as [r|]; [destruct (pty r)|]; try (destruct (mem n builtins)); cbn; auto.
Qed.

(* the sort never meets a Pos location, and what it returns is still located by spans *)
Lemma insert_sorted_ok e k l : sloc_ok (snd e) -> serrs_ok l -> serrs_ok (insert_sorted e k l).
Proof.
  intros He. induction 1 as [|x l Hx Hl IH]; cbn; [repeat constructor; auto|].
  destruct (err_key x); [destruct (span_leb k p)|]; repeat constructor; auto.
Qed.
Lemma sort_errors_ok l : serrs_ok l -> exists s, sort_errors l = Some s /\ serrs_ok s.
Proof.
  induction 1 as [|e l He Hl (s & Es & Hs)]; [exists []; split; [reflexivity|constructor]|].
  cbn [sort_errors]. destruct e as [k [p|a b]]; [contradiction|]. cbn [err_key snd]. rewrite Es.
  eexists; split; [reflexivity|]. apply insert_sorted_ok; auto.
Qed.

Theorem validate_ast_ok builtins ex : errs_v (validate_ast rules fuel0 lrf tgf builtins ex).
Proof.
  unfold validate_ast.
  eapply vok_bind; [apply over_rules_ok; [apply rep_check_ok|exact RO]|]. intros e1 H1.
  eapply vok_bind; [apply over_rules_ok; [apply choice_check_ok|exact RO]|]. intros e2 H2.
  eapply vok_bind; [apply ws_rules_ok; exact RO|]. intros e3 H3.
  eapply vok_bind; [apply lr_rules_ok|]. intros e4 H4.
  eapply vok_bind; [destruct ex; [apply over_rules_ok; [apply tag_check_ok|exact RO]|constructor]|]. intros e5 H5.
  destruct (sort_errors_ok (e1 ++ e2 ++ e3 ++ e4 ++ e5)) as (s & -> & Hs); [|exact Hs].
  repeat (apply Forall_app; split); auto.
Qed.
End V.
