(* C09: the shape invariant read as propositions: the derivative matcher decides the declarative regular-language
   semantics (re_matchb_iff), `matches` is inverted for the forms that occur in rule_re, and tok_okb / forest_okb
   say what they say of a token and its children (tok_okb_unfold). *)
From Coq Require Import List Arith NArith Bool Lia.
Import ListNotations.
Require Import PV.Pos.Model PV.Pos.Spec PV.Pos.BasicProofs PV.Front.Shape.

Lemma inv_eps w : matches REps w -> w = [].
Proof. inversion 1; auto. Qed.
Lemma inv_sym r w : matches (RSym r) w -> w = [r].
Proof. inversion 1; auto. Qed.
Lemma inv_cat a b w : matches (RCat a b) w -> exists u v, w = u ++ v /\ matches a u /\ matches b v.
Proof. inversion 1; subst; eauto. Qed.
Lemma inv_alt a b w : matches (RAlt a b) w -> matches a w \/ matches b w.
Proof. inversion 1; subst; auto. Qed.
Lemma inv_empty w : matches REmpty w -> False.
Proof. inversion 1. Qed.
Lemma nullable_matches a : nullable a = true -> matches a [].
Proof.
  induction a; cbn; intros H; try discriminate.
  - constructor.
  - apply andb_prop in H as [H1 H2]. change (@nil mrule) with (@nil mrule ++ []). constructor; auto.
  - apply orb_prop in H as [H|H]; [apply m_alt_l|apply m_alt_r]; auto.
  - constructor.
Qed.
Lemma matches_nil_nullable a : matches a [] -> nullable a = true.
Proof.
  intros H. remember [] as w eqn:E. induction H; cbn; try reflexivity; try discriminate.
  - apply app_eq_nil in E as [-> ->]. rewrite IHmatches1, IHmatches2; auto.
  - rewrite IHmatches; auto.
  - rewrite IHmatches; auto. apply orb_true_r.
Qed.
Lemma deriv_sound c a : forall w, matches (deriv c a) w -> matches a (c :: w).
Proof.
  induction a; cbn; intros w H.
  - destruct (inv_empty _ H).
  - destruct (inv_empty _ H).
  - destruct (mrule_eqb r c) eqn:E; [|destruct (inv_empty _ H)]. apply mrule_eqb_eq in E. subst.
    apply inv_eps in H. subst. constructor.
  - destruct (nullable a1) eqn:N.
    + apply inv_alt in H as [H|H].
      * apply inv_cat in H as (u & v & -> & Hu & Hv). change (c :: u ++ v) with ((c :: u) ++ v). constructor; auto.
      * change (c :: w) with ([] ++ c :: w). constructor; auto. apply nullable_matches; auto.
    + apply inv_cat in H as (u & v & -> & Hu & Hv). change (c :: u ++ v) with ((c :: u) ++ v). constructor; auto.
  - apply inv_alt in H as [H|H]; [apply m_alt_l|apply m_alt_r]; auto.
  - apply inv_cat in H as (u & v & -> & Hu & Hv). change (c :: u ++ v) with ((c :: u) ++ v). constructor; auto.
Qed.
Lemma deriv_complete a w : matches a w -> forall c w', w = c :: w' -> matches (deriv c a) w'.
Proof.
  induction 1; intros c w' E; cbn.
  - discriminate.
  - inversion E; subst. rewrite mrule_eqb_refl. constructor.
  - destruct u as [|x u'].
    + cbn in E. subst. rewrite (matches_nil_nullable _ H). apply m_alt_r. eapply IHmatches2; eauto.
    + cbn in E. inversion E; subst. destruct (nullable a).
      * apply m_alt_l. constructor; eauto.
      * constructor; eauto.
  - apply m_alt_l. eapply IHmatches; eauto.
  - apply m_alt_r. eapply IHmatches; eauto.
  - discriminate.
  - destruct u as [|x u'].
    + cbn in E. eapply IHmatches2; eauto.
    + cbn in E. inversion E; subst. constructor; eauto.
Qed.
Theorem re_matchb_iff a w : re_matchb a w = true <-> matches a w.
Proof.
  revert a. induction w as [|c w IH]; intros a; cbn.
  - split; [apply nullable_matches|apply matches_nil_nullable].
  - rewrite IH. split; [apply deriv_sound|]. intros H. eapply deriv_complete; eauto.
Qed.

Lemma star_forall (P : mrule -> Prop) a w : (forall u, matches a u -> exists r, u = [r] /\ P r) ->
  matches (RStar a) w -> Forall P w.
Proof.
  intros Ha H. remember (RStar a) as s eqn:E. induction H; inversion E; subst; auto.
  destruct (Ha _ H) as (r & -> & Hr). cbn. constructor; auto.
Qed.
Lemma inv_star_syms a w : (forall u, matches a u -> exists r, u = [r] /\ matches a [r]) ->
  matches (RStar a) w -> Forall (fun r => matches a [r]) w.
Proof. apply star_forall. Qed.
Lemma inv_star_pairs a w : (forall u, matches a u -> exists r1 r2, u = [r1; r2] /\ matches a [r1; r2]) ->
  matches (RStar a) w -> exists ps, w = flat_map (fun p => [fst p; snd p]) ps /\ Forall (fun p => matches a [fst p; snd p]) ps.
Proof.
  intros Ha H. remember (RStar a) as s eqn:E. induction H; inversion E; subst.
  - exists []. split; auto.
  - destruct (Ha _ H) as (r1 & r2 & -> & Hr). destruct (IHmatches2 eq_refl) as (ps & -> & Hp).
    exists ((r1, r2) :: ps). split; auto.
Qed.

Lemma word_app l1 l2 : word (l1 ++ l2) = word l1 ++ word l2.
Proof. apply map_app. Qed.
Lemma word_eq_nil l : word l = [] -> l = [].
Proof. destruct l; [auto|discriminate]. Qed.
Lemma word_eq_cons l r w : word l = r :: w -> exists k l', l = k :: l' /\ trule k = r /\ word l' = w.
Proof. destruct l as [|k l']; [discriminate|]. cbn. intros H. inversion H. eauto. Qed.
Lemma word_eq_app l u v : word l = u ++ v -> exists l1 l2, l = l1 ++ l2 /\ word l1 = u /\ word l2 = v.
Proof.
  revert l. induction u as [|r u IH]; intros l H.
  - exists [], l. auto.
  - cbn in H. destruct (word_eq_cons _ _ _ H) as (k & l' & -> & Hk & Hw).
    destruct (IH _ Hw) as (l1 & l2 & -> & H1 & H2). exists (k :: l1), l2. cbn. subst. auto.
Qed.

Definition span_ok (text : str) (a b : nat) : Prop := slice text a b <> None.
Lemma span_okb_iff text a b : span_okb text a b = true <-> span_ok text a b.
Proof. unfold span_okb, span_ok. destruct (slice text a b); split; intros; try discriminate; auto; congruence. Qed.
Lemma span_ok_facts text a b : span_ok text a b <-> a <= b /\ boundary text a /\ boundary text b.
Proof. apply slice_iff. Qed.

(* children: ordered from lo, each well-shaped, the last ends before hi *)
Fixpoint kids_ok (text : str) (lo hi : nat) (l : list tok) : Prop :=
  match l with
  | [] => lo <= hi
  | k :: l' => lo <= tstart k /\ tok_okb text k = true /\ kids_ok text (tend k) hi l'
  end.
Lemma forest_okb_kids text : forall l lo hi, forest_okb text lo hi l = true <-> kids_ok text lo hi l.
Proof.
  induction l as [|k l IH]; intros lo hi; cbn.
  - apply Nat.leb_le.
  - rewrite !andb_true_iff, Nat.leb_le, IH. tauto.
Qed.
Lemma tok_okb_unfold text r s e kids :
  tok_okb text (Tok r s e kids) = true <->
  span_ok text s e /\ matches (rule_re r) (word kids) /\ (exists w, slice text s e = Some w /\ lex_okb r w = true) /\ kids_ok text s e kids.
Proof.
  cbn [tok_okb]. rewrite !andb_true_iff, span_okb_iff, re_matchb_iff.
  assert (K : forall l lo, (fix go (lo : nat) (l : list tok) {struct l} : bool :=
            match l with
            | [] => Nat.leb lo e
            | k :: l' => Nat.leb lo (tstart k) && tok_okb text k && go (tend k) l'
            end) lo l = true <-> kids_ok text lo e l).
  { induction l as [|k l IH]; intros lo; cbn.
    - apply Nat.leb_le.
    - rewrite !andb_true_iff, Nat.leb_le, IH. tauto. }
  rewrite K. split.
  - intros (((H1 & H2) & H3) & H4). repeat split; auto. destruct (slice text s e) as [w|]; [eauto|discriminate].
  - intros (H1 & H2 & (w & Hw & H3) & H4). rewrite Hw. auto.
Qed.

