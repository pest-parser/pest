(* C09: the use of PrattParser in consume_expr.  The table declares two left-associative infix operators and
   nothing else; on such a table the prefix / postfix closures are never consulted (PV.Pratt.Proofs.pratt_parse_maps), so the
   theorem of C13 (PV.Pratt.Proofs.pratt_correct, stated for all three closures present) applies; and every
   tree returned has primaries at the leaves and declared infix operators at the inner nodes (kind_ok). *)
From Coq Require Import List Arith Bool Lia.
Import ListNotations.
Require Import PV.Front.Shape PV.Front.Consume.
Require Import PV.Pratt.Syntax PV.Pratt.Model PV.Pratt.Proofs PV.Pratt.TableProofs.

Lemma pratt_table_spec r :
  pratt_table r = if Nat.eqb (mrule_code r_sequence_operator) r then Some (Infix ALeft, 30)
                  else if Nat.eqb (mrule_code r_choice_operator) r then Some (Infix ALeft, 20) else None.
Proof. reflexivity. Qed.
Lemma pratt_table_infix_only : infix_only pratt_table.
Proof.
  intros r af p. rewrite pratt_table_spec. repeat destruct (Nat.eqb _ r); intros H; inversion H; eauto.
Qed.
Lemma pratt_table_pos : table_pos pratt_table.
Proof. apply builder_table_pos. Qed.
Lemma pratt_table_op k : pratt_table (mrule_code (trule k)) <> None <->
  (trule k = r_sequence_operator \/ trule k = r_choice_operator).
Proof.
  rewrite pratt_table_spec. split.
  - destruct (trule k); cbn; intros H; try congruence; auto.
  - intros [-> | ->]; cbn; discriminate.
Qed.

(* the kinds of the nodes of a tree returned by the parser when only map_primary and map_infix are given *)
Section Kind.
Variable A : Type.
Variable get : table.
Let m := pratt_maps.
Fixpoint kind_ok (t : tree A) : Prop :=
  match t with
  | Leaf a => get (fst a) = None
  | Bin l o r => kind_ok l /\ kind_ok r /\ exists s p, get (fst o) = Some (Infix s, p)
  | _ => False
  end.
Lemma kind_all : forall f,
  (forall (ts : list (tok A)) rbp t rest, expr m get f ts rbp = Ok t rest -> kind_ok t) /\
  (forall lhs (ts : list (tok A)) rbp t rest, loop m get f lhs ts rbp = Ok t rest -> kind_ok lhs -> kind_ok t).
Proof.
  (* no run goes through a prefix or a postfix operator: pratt_maps has neither closure *)
  apply (ok_ind m get (fun _ _ t _ => kind_ok t) (fun lhs _ _ t _ => kind_ok lhs -> kind_ok t)); try discriminate.
  - intros a ts rbp t rest G HQ. apply HQ, G.
  - auto.
  - intros lhs a s l rbp' ts rbp rhs r1 t rest G _ _ _ HP HQ K. apply HQ. cbn. eauto.
Qed.
End Kind.
Arguments kind_ok {A} get t.

Lemma pratt_ok (ts : list (tok Shape.tok)) : well_formed pratt_table ts = true ->
  exists t, pratt_parse pratt_maps pratt_table ts = Ok t [] /\ yield t = ts /\ kind_ok pratt_table t.
Proof.
  intros W.
  destruct (@pratt_correct _ all_maps pratt_table pratt_table_pos eq_refl ts W) as (t & E & Y & _).
  assert (E' : pratt_parse pratt_maps pratt_table ts = Ok t []).
  { rewrite (pratt_parse_maps pratt_table_infix_only pratt_maps all_maps eq_refl ts). exact E. }
  exists t. repeat split; auto.
  unfold pratt_parse in E'. destruct (kind_all Shape.tok pratt_table (2 * length ts + 2)) as [Ke _]. eapply Ke; eauto.
Qed.
