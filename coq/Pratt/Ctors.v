(* C13 - the remaining public constructors:
   - PrecClimber::new_const on ANY slice (entries in any order, any precedence values) with one
     associativity per precedence value: climb = the shunting-yard tree of the table the slice denotes,
     and a slice without a repeated rule denotes the same table in every order of its entries;
   - prec_climber![..] builds literally the vector that PrecClimber::new builds from the same declaration;
   - ConstPrattParser::new_const on ANY array it accepts (not only pratt_precedence! expansions written
     by hand): levels >= 1, hence the PrattParser theorem applies to its table. *)
From Coq Require Import List Arith Bool Lia Permutation.
Import ListNotations.
Require Import PV.Pratt.Syntax PV.Pratt.Model PV.Pratt.Climber PV.Pratt.Shunt.
Require Import PV.Pratt.Proofs PV.Pratt.ClimberProofs PV.Pratt.TableProofs.
Set Implicit Arguments.

Lemma climb_fuel_ext A (g1 g2 : ctable) : (forall r, g1 r = g2 r) ->
  forall f, (forall lhs min (ts : list (tok A)), climb_rec g1 f lhs min ts = climb_rec g2 f lhs min ts) /\
            (forall rhs p (ts : list (tok A)), climb_inner g1 f rhs p ts = climb_inner g2 f rhs p ts).
Proof.
  intros E. induction f as [|f [IHr IHi]]; [split; reflexivity|]. split.
  - intros lhs min ts. rewrite !climb_rec_S. destruct ts as [|o ts1]; [reflexivity|].
    rewrite E. destruct (g2 (fst o)) as [[p s]|]; [|reflexivity].
    destruct (Nat.leb min p); [|reflexivity]. destruct ts1 as [|a ts2]; [reflexivity|].
    rewrite IHi. destruct (climb_inner g2 f (Leaf a) p ts2); auto.
  - intros rhs p ts. rewrite !climb_inner_S. destruct ts as [|o2 ts']; [reflexivity|].
    rewrite E. destruct (g2 (fst o2)) as [[np s]|]; [|reflexivity].
    destruct (Nat.ltb p np || (assoc_eqb s ARight && Nat.eqb np p)); [|reflexivity].
    rewrite IHr. destruct (climb_rec g2 f rhs np (o2 :: ts')); auto.
Qed.
Lemma climb_ext A (g1 g2 : ctable) (ts : list (tok A)) : (forall r, g1 r = g2 r) -> climb g1 ts = climb g2 ts.
Proof.
  intros E. unfold climb. destruct ts as [|a ts']; [reflexivity|].
  destruct (@climb_fuel_ext A g1 g2 E (2 * length ts' + 2)) as [Hr _]. apply Hr.
Qed.

Lemma climber_get_notin c r : ~ In r (map fst c) -> climber_get c r = None.
Proof. exact (@lookup_notin _ c r). Qed.
Lemma climber_get_unique c r e : NoDup (map fst c) -> In (r, e) c -> climber_get c r = Some e.
Proof.
  induction c as [|[r' e'] c IH]; cbn [map fst climber_get In]; [intros _ []|].
  intros ND [H|H]; inversion ND as [|? ? Hn Hd]; subst.
  - inversion H; subst. now rewrite Nat.eqb_refl.
  - destruct (Nat.eqb r' r) eqn:E.
    + apply Nat.eqb_eq in E. subst. exfalso. apply Hn. apply in_map_iff. exists (r, e). split; auto.
    + apply IH; auto.
Qed.
Lemma climber_get_perm c1 c2 : Permutation c1 c2 -> NoDup (map fst c1) -> forall r, climber_get c1 r = climber_get c2 r.
Proof.
  intros P ND r.
  assert (ND2 : NoDup (map fst c2)) by (eapply Permutation_NoDup; [apply Permutation_map; exact P|exact ND]).
  destruct (climber_get c1 r) as [e|] eqn:G.
  - apply climber_get_in in G. symmetry. apply climber_get_unique; auto. eapply Permutation_in; eauto.
  - destruct (climber_get c2 r) as [e|] eqn:G2; [|reflexivity].
    apply climber_get_in in G2. apply Permutation_sym in P.
    rewrite (@climber_get_unique c1 r e ND (Permutation_in _ P G2)) in G. discriminate.
Qed.

Lemma cuniform_of_slice c : cuniform_slice c -> cuniform (climber_get c).
Proof.
  intros U r1 r2 p s1 s2 H1 H2. apply climber_get_in in H1. apply climber_get_in in H2. eapply U; eauto.
Qed.

Theorem climber_const_correct : forall (A : Type) (c : climber), cuniform_slice c ->
  forall ts : list (tok A), well_formed (table_of (climber_get (climber_new_const c))) ts = true ->
  exists t, climb (climber_get (climber_new_const c)) ts = Ok t [] /\
            shunt (table_of (climber_get (climber_new_const c))) ts = Some t /\
            (forall c', NoDup (map fst c) -> Permutation c c' ->
                        climb (climber_get (climber_new_const c')) ts = Ok t []).
Proof.
  intros A c U ts W. unfold climber_new_const in *.
  destruct (@climber_correct A _ (cuniform_of_slice U) ts W) as (t & E & S).
  exists t. split; [exact E|]. split; [exact S|].
  intros c' ND P. rewrite <- E. apply climb_ext. intros r. symmetry. now apply climber_get_perm.
Qed.

Lemma macro_entries_new d : forall p, macro_entries p d = climber_from p (cdecl_of_macro d).
Proof.
  induction d as [|[s [r rs]] d IH]; intros p; cbn [macro_entries cdecl_of_macro map climber_from]; [reflexivity|].
  fold (cdecl_of_macro d). rewrite IH. f_equal.
  unfold mrules, cchain. cbn [fst snd map]. f_equal. rewrite map_map. reflexivity.
Qed.
Theorem climber_macro_is_new d : climber_macro d = climber_new (cdecl_of_macro d).
Proof. unfold climber_macro, climber_new_const, climber_new. apply macro_entries_new. Qed.
Lemma cdecl_of_macro_uniform d : cuniform_decl (cdecl_of_macro d).
Proof.
  unfold cuniform_decl, cdecl_of_macro. apply Forall_forall. intros lv H.
  apply in_map_iff in H. destruct H as ([s [r rs]] & <- & _). cbn [fst snd].
  intros o [<-|I]; [reflexivity|]. cbn [snd] in I. apply in_map_iff in I. destruct I as (r' & <- & _). reflexivity.
Qed.
Lemma crules_of_macro d : crules (cdecl_of_macro d) = flat_map mrules d.
Proof.
  unfold crules. induction d as [|[s [r rs]] d IH]; [reflexivity|].
  change (cdecl_of_macro ((s, (r, rs)) :: d)) with (((r, s), map (fun r : rule => (r, s)) rs) :: cdecl_of_macro d).
  cbn [flat_map]. rewrite map_app. f_equal; [|exact IH].
  unfold cchain, mrules. cbn [fst snd map]. f_equal. rewrite map_map. cbn [fst]. now rewrite map_id.
Qed.

Theorem new_const_table_pos : forall l ct, new_const l = inl ct -> table_pos (const_get ct).
Proof.
  intros l ct H. destruct (new_const_is_macro _ H) as (d & Hd & ->).
  destruct (const_builder_tables Hd) as (ct' & E & _ & P & _). rewrite H in E. inversion E; subst. exact P.
Qed.
