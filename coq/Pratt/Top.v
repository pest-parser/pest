(* C13 - one theorem per clause of the statements in props/C13.v, numbered as there. *)
From Coq Require Import List Arith Bool Lia Permutation.
Import ListNotations.
Require Import PV.Pratt.Syntax PV.Pratt.Model PV.Pratt.Climber PV.Pratt.Shunt.
Require Import PV.Pratt.Proofs PV.Pratt.ClimberProofs PV.Pratt.TableProofs PV.Pratt.WfRegex PV.Pratt.Ctors.
Set Implicit Arguments.

(* (1) any table with positive levels, any well-formed sequence *)
Theorem pratt_shunt_climb : forall (A : Type) (tbl : table) (ts : list (tok A)),
  table_pos tbl -> well_formed tbl ts = true ->
  exists t, pratt_parse all_maps tbl ts = Ok t [] /\ yield t = ts /\ shunt tbl ts = Some t /\
            (infix_only tbl -> one_assoc_per_level tbl -> climb (climber_of tbl) ts = Ok t []).
Proof.
  intros A tbl ts P W.
  destruct (@pratt_correct A all_maps tbl P eq_refl ts W) as (t & E & Y & S).
  exists t. repeat split; auto.
  intros IO OA.
  assert (Eq : forall r, table_of (climber_of tbl) r = tbl r).
  { intros r. unfold table_of, climber_of. destruct (tbl r) as [[af p]|] eqn:G; [|reflexivity].
    destruct (IO _ _ _ G) as [s ->]. reflexivity. }
  assert (U : cuniform (climber_of tbl)).
  { intros r1 r2 p s1 s2. unfold climber_of.
    destruct (tbl r1) as [[[| |a1] p1]|] eqn:G1; try discriminate.
    destruct (tbl r2) as [[[| |a2] p2]|] eqn:G2; try discriminate.
    intros H1 H2. inversion H1; inversion H2; subst. eapply OA; eauto. }
  assert (W' : well_formed (table_of (climber_of tbl)) ts = true).
  { unfold well_formed. rewrite (@wf_ext A tbl _ true ts Eq). exact W. }
  destruct (@climber_correct A _ U ts W') as (t' & Ec & Sc).
  rewrite (@shunt_ext A tbl _ ts Eq) in Sc. rewrite S in Sc. inversion Sc; subst. exact Ec.
Qed.

(* (2) the two ways of declaring a PrattParser table *)
Theorem const_builder : forall (A : Type) (d : decl), d <> [] ->
  exists ct, new_const (macro_expand d) = inl ct /\
    (forall r, builder_get (builder_table d) r =
               match const_get ct r with Some (af, p) => Some (af, p + PREC_STEP) | None => None end) /\
    table_pos (builder_get (builder_table d)) /\ table_pos (const_get ct) /\
    forall ts : list (tok A), well_formed (builder_get (builder_table d)) ts = true ->
      well_formed (const_get ct) ts = true /\
      pratt_parse all_maps (const_get ct) ts = pratt_parse all_maps (builder_get (builder_table d)) ts.
Proof.
  intros A d Hd. destruct (const_builder_tables Hd) as (ct & E & R & Pc & Pb).
  exists ct. split; [exact E|]. split; [exact R|]. split; [exact Pb|]. split; [exact Pc|].
  intros ts H.
  assert (Wc : well_formed (const_get ct) ts = true).
  { unfold well_formed in *. rewrite <- (@wf_relabel A (fun p => p + PREC_STEP) _ _ R true ts). exact H. }
  split; [exact Wc|].
  destruct (@pratt_correct A all_maps _ Pc eq_refl ts Wc) as (t1 & E1 & _ & S1).
  destruct (@pratt_correct A all_maps _ Pb eq_refl ts H) as (t2 & E2 & _ & S2).
  rewrite (@shunt_relabel A (fun p => p + PREC_STEP) (shift_le PREC_STEP) _ _ R ts) in S2.
  rewrite S1 in S2. inversion S2; subst. now rewrite E1, E2.
Qed.

(* (3) PrecClimber::new against PrattParser::op for the same infix declaration *)
Theorem climber_builder : forall (A : Type) (d : cdecl), NoDup (crules d) -> cuniform_decl d ->
  forall ts : list (tok A), well_formed (builder_get (builder_table (pratt_decl d))) ts = true ->
  exists t, pratt_parse all_maps (builder_get (builder_table (pratt_decl d))) ts = Ok t [] /\
            climb (climber_get (climber_new d)) ts = Ok t [].
Proof.
  intros A d ND U ts W.
  destruct (climber_builder_tables ND U) as [R Un].
  destruct (@pratt_correct A all_maps _ (builder_table_pos (pratt_decl d)) eq_refl ts W) as (t & E & _ & S).
  exists t. split; [exact E|].
  assert (W' : well_formed (table_of (climber_get (climber_new d))) ts = true).
  { unfold well_formed in *. rewrite <- (@wf_relabel A climb_level _ _ R true ts). exact W. }
  destruct (@climber_correct A _ Un ts W') as (t' & Ec & Sc).
  rewrite (@shunt_relabel A climb_level climb_level_le _ _ R ts) in S. rewrite S in Sc. inversion Sc; subst. exact Ec.
Qed.

(* (4) PrecClimber::new_const on any slice: entries in any order, any precedence values *)
Theorem climber_const : forall (A : Type) (c : climber), cuniform_slice c ->
  forall ts : list (tok A), well_formed (table_of (climber_get (climber_new_const c))) ts = true ->
  exists t, climb (climber_get (climber_new_const c)) ts = Ok t [] /\
            shunt (table_of (climber_get (climber_new_const c))) ts = Some t /\
            (table_pos (table_of (climber_get (climber_new_const c))) ->
             pratt_parse all_maps (table_of (climber_get (climber_new_const c))) ts = Ok t [] /\ yield t = ts) /\
            (forall c', NoDup (map fst c) -> Permutation c c' ->
                        climb (climber_get (climber_new_const c')) ts = Ok t []).
Proof.
  intros A c U ts W.
  destruct (@climber_const_correct A c U ts W) as (t & E & S & P).
  exists t. split; [exact E|]. split; [exact S|]. split; [|exact P].
  intros Pos. destruct (@pratt_correct A all_maps _ Pos eq_refl ts W) as (t' & E' & Y' & S').
  rewrite S in S'. inversion S' as [Et]. rewrite <- Et in *. split; [exact E'|exact Y'].
Qed.

(* (5) prec_climber![..] = PrecClimber::new of the same declaration, hence = PrattParser::op of it *)
Theorem climber_macro_builder : forall (A : Type) (d : list mlevel), NoDup (flat_map mrules d) ->
  climber_macro d = climber_new (cdecl_of_macro d) /\
  forall ts : list (tok A), well_formed (builder_get (builder_table (pratt_decl (cdecl_of_macro d)))) ts = true ->
  exists t, pratt_parse all_maps (builder_get (builder_table (pratt_decl (cdecl_of_macro d)))) ts = Ok t [] /\
            climb (climber_get (climber_macro d)) ts = Ok t [].
Proof.
  intros A d ND. split; [apply climber_macro_is_new|].
  intros ts W. rewrite climber_macro_is_new.
  apply climber_builder; [rewrite crules_of_macro; exact ND|apply cdecl_of_macro_uniform|exact W].
Qed.

(* (6) ConstPrattParser::new_const on any array it accepts *)
Theorem const_any_array : forall (A : Type) (ops : list (level * bool)) (ct : const_table), new_const ops = inl ct ->
  table_pos (const_get ct) /\
  forall ts : list (tok A), well_formed (const_get ct) ts = true ->
  exists t, pratt_parse all_maps (const_get ct) ts = Ok t [] /\ yield t = ts /\ shunt (const_get ct) ts = Some t.
Proof.
  intros A ops ct H. pose proof (new_const_table_pos _ H) as Pos. split; [exact Pos|].
  intros ts W. exact (@pratt_correct A all_maps _ Pos eq_refl ts W).
Qed.
