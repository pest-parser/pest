(* C13 - PrattParser (Model.v) against the shunting-yard specification (Shunt.v).
   Along every run of expr / the while loop that returns normally the specification moves between
   the corresponding two-stack states and the yield of the result is what was consumed (no
   well-formedness needed); pratt_parse never runs out of fuel, on any input; on well-formed input
   with every closure supplied and positive levels expr returns normally with 2*len+2 units of fuel
   and leaves a well-formed rest. *)
From Coq Require Import List Arith Bool Lia.
Import ListNotations.
Require Import PV.Pratt.Syntax PV.Pratt.Model PV.Pratt.Shunt.
Set Implicit Arguments.

Lemma expr_S A m get f (ts : list (tok A)) rbp :
  expr m get (S f) ts rbp =
  match nud m get (expr m get f) ts with Ok lhs ts1 => loop m get f lhs ts1 rbp | e => e end.
Proof. reflexivity. Qed.
Lemma loop_S A m get f lhs (ts : list (tok A)) rbp :
  loop m get (S f) lhs ts rbp =
  match lbp get ts with
  | inr k => Panic k
  | inl l => if Nat.ltb rbp l then
               match led m get (expr m get f) ts lhs with Ok lhs' ts' => loop m get f lhs' ts' rbp | e => e end
             else Ok lhs ts
  end.
Proof. reflexivity. Qed.

Section P.
Variable A : Type.
Variable m : maps.
Variable get : table.
Notation tok := (tok A).
Notation tree := (tree A).
Notation res := (res A).
Notation sop := (sop A).
Notation expr := (@Model.expr A m get).
Notation loop := (@Model.loop A m get).
Notation nud := (@Model.nud A m get).
Notation led := (@Model.led A m get).
Notation sy := (@Shunt.sy A get).

(* the top of the operator stack is not reduced by any operator the loop with this rbp accepts *)
Definition blocks (ops : list sop) (rbp : prec) : Prop :=
  match ops with [] => True | s :: _ => forall lp, rbp < lp -> reduces s lp = false end.
(* what follows the expression: nothing, or an operator whose level is <= rbp *)
Definition stops (rbp : prec) (rest : list tok) : Prop :=
  match rest with [] => True | a :: _ => exists af p, get (@fst rule A a) = Some (af, p) /\ p <= rbp end.

Lemma reduce_while_blocked lp ops (out : list tree) rbp :
  blocks ops rbp -> rbp < lp -> reduce_while lp ops out = Some (ops, out).
Proof.
  destruct ops as [|s ops]; cbn; intros B L; [reflexivity|]. now rewrite (B lp L).
Qed.

Lemma sy_reduce_step s ops (out out' : list tree) rbp rest :
  stops rbp rest -> (forall lp, lp <= rbp -> reduces s lp = true) -> apply_op s out = Some out' ->
  sy false (s :: ops) out rest = sy false ops out' rest.
Proof.
  intros St R Ap. destruct rest as [|a rest]; cbn.
  - now rewrite Ap.
  - destruct St as (af & p & G & L). rewrite G. destruct af as [| |s']; try reflexivity.
    + cbn. rewrite (R p L), Ap. reflexivity.
    + cbn. rewrite (R p L), Ap. reflexivity.
Qed.

(* Induction over the runs of expr / the while loop that return normally: one case per way a call of
   nud or an iteration of the loop can succeed, whatever the fuel.  P speaks of expr, Q of the loop. *)
Lemma ok_ind (P : list tok -> prec -> tree -> list tok -> Prop)
             (Q : tree -> list tok -> prec -> tree -> list tok -> Prop) :
  (forall a ts rbp t rest, get (fst a) = None ->
     Q (Leaf a) ts rbp t rest -> P (a :: ts) rbp t rest) ->
  (forall a p ts rbp rhs r1 t rest, get (fst a) = Some (Prefix, S p) -> m_prefix m = true ->
     P ts p rhs r1 -> Q (Pre a rhs) r1 rbp t rest -> P (a :: ts) rbp t rest) ->
  (forall lhs ts rbp, stops rbp ts -> Q lhs ts rbp lhs ts) ->
  (forall lhs a l ts rbp t rest, get (fst a) = Some (Postfix, l) -> rbp < l -> m_postfix m = true ->
     Q (Post lhs a) ts rbp t rest -> Q lhs (a :: ts) rbp t rest) ->
  (forall lhs a s l rbp' ts rbp rhs r1 t rest, get (fst a) = Some (Infix s, l) -> rbp < l ->
     (match s with ALeft => Some l | ARight => pred_checked l end) = Some rbp' -> m_infix m = true ->
     P ts rbp' rhs r1 -> Q (Bin lhs a rhs) r1 rbp t rest -> Q lhs (a :: ts) rbp t rest) ->
  forall f, (forall ts rbp t rest, expr f ts rbp = Ok t rest -> P ts rbp t rest) /\
            (forall lhs ts rbp t rest, loop f lhs ts rbp = Ok t rest -> Q lhs ts rbp t rest).
Proof.
  intros Hleaf Hpre Hstop Hpost Hinf. induction f as [|f [IHe IHl]]; [split; discriminate|]. split.
  - intros ts rbp t rest. rewrite expr_S. destruct ts as [|a ts']; [discriminate|]. cbn [Model.nud].
    destruct (get (fst a)) as [[[| |s] [|p]]|] eqn:G; try discriminate; cbn [pred_checked].
    + destruct (expr f ts' p) as [rhs r1| |] eqn:E; try discriminate.
      destruct (m_prefix m) eqn:M; [|discriminate]. eauto.
    + eauto.
  - intros lhs ts rbp t rest. rewrite loop_S. destruct ts as [|a ts']; cbn [lbp].
    { destruct (Nat.ltb rbp 0) eqn:C; [apply Nat.ltb_lt in C; lia|]. intros [= <- <-]. now apply Hstop. }
    destruct (get (fst a)) as [[af l]|] eqn:G; [|discriminate].
    destruct (Nat.ltb_spec rbp l) as [C|C]; [|intros [= <- <-]; apply Hstop; cbn; eauto].
    cbn [Model.led]. rewrite G. destruct af as [| |s]; try discriminate.
    + destruct (m_postfix m) eqn:M; [|discriminate]. eauto.
    + destruct (match s with ALeft => Some l | ARight => pred_checked l end) as [rbp'|] eqn:R; [|discriminate].
      destruct (expr f ts' rbp') as [rhs r1| |] eqn:E; try discriminate.
      destruct (m_infix m) eqn:M; [|discriminate]. eauto.
Qed.

Lemma ok_yield : forall f,
  (forall ts rbp t rest, expr f ts rbp = Ok t rest -> ts = yield t ++ rest) /\
  (forall lhs ts rbp t rest, loop f lhs ts rbp = Ok t rest -> yield lhs ++ ts = yield t ++ rest).
Proof.
  apply ok_ind; cbn [yield app]; intros; subst; rewrite <- ?app_assoc in *; auto.
Qed.

Lemma ok_shorter : forall f,
  (forall ts rbp t rest, expr f ts rbp = Ok t rest -> length rest < length ts) /\
  (forall lhs ts rbp t rest, loop f lhs ts rbp = Ok t rest -> length rest <= length ts).
Proof. apply ok_ind; cbn [length]; intros; lia. Qed.

Definition sim_expr (ts : list tok) (rbp : prec) (t : tree) (rest : list tok) : Prop :=
  stops rbp rest /\ forall ops out, blocks ops rbp -> sy true ops out ts = sy false ops (t :: out) rest.
Definition sim_loop (lhs : tree) (ts : list tok) (rbp : prec) (t : tree) (rest : list tok) : Prop :=
  stops rbp rest /\ forall ops out, blocks ops rbp -> sy false ops (lhs :: out) ts = sy false ops (t :: out) rest.

(* the right binding power handed to the recursive call is the largest left power the operator reduces on *)
Lemma reduces_infix (o : tok) s l rbp' lp :
  (match s with ALeft => Some l | ARight => pred_checked l end) = Some rbp' ->
  reduces (SInf o s l) lp = Nat.leb lp rbp'.
Proof. destruct s, l; cbn; intros [= <-]; reflexivity. Qed.

(* an operator is pushed, its right operand parsed with the operator's right power, then it is reduced *)
Lemma sy_operand s rbp' ops out out' ts t rest :
  (forall lp, reduces s lp = Nat.leb lp rbp') -> apply_op s (t :: out) = Some out' ->
  sim_expr ts rbp' t rest -> sy true (s :: ops) out ts = sy false ops out' rest.
Proof.
  intros R Ap [St Sim]. rewrite Sim by (intros lp L; rewrite R; now apply Nat.leb_gt).
  apply sy_reduce_step with (rbp := rbp'); auto. intros lp L. rewrite R. now apply Nat.leb_le.
Qed.

Lemma sim_all : forall f,
  (forall ts rbp t rest, expr f ts rbp = Ok t rest -> sim_expr ts rbp t rest) /\
  (forall lhs ts rbp t rest, loop f lhs ts rbp = Ok t rest -> sim_loop lhs ts rbp t rest).
Proof.
  apply ok_ind.
  - intros a ts rbp t rest G [St Sim]. split; [exact St|]. intros ops out B. cbn [Shunt.sy]. rewrite G. now apply Sim.
  - intros a p ts rbp rhs r1 t rest G _ S1 [St Sim]. split; [exact St|]. intros ops out B. cbn [Shunt.sy]. rewrite G.
    rewrite (@sy_operand (SPre a (S p)) p ops out (Pre a rhs :: out) ts rhs r1); auto.
  - intros lhs ts rbp St. now split.
  - intros lhs a l ts rbp t rest G C _ [St Sim]. split; [exact St|]. intros ops out B. cbn [Shunt.sy].
    rewrite G, (reduce_while_blocked _ _ B C). now apply Sim.
  - intros lhs a s l rbp' ts rbp rhs r1 t rest G C R _ S1 [St Sim]. split; [exact St|]. intros ops out B.
    cbn [Shunt.sy]. rewrite G, (reduce_while_blocked _ _ B C).
    rewrite (@sy_operand (SInf a s l) rbp' ops (lhs :: out) (Bin lhs a rhs :: out) ts rhs r1); auto.
    intros lp. now apply reduces_infix.
Qed.

Lemma fuel_all : forall f,
  (forall ts rbp, 2 * length ts + 2 <= f -> expr f ts rbp <> OutOfFuel) /\
  (forall lhs ts rbp, 2 * length ts + 1 <= f -> loop f lhs ts rbp <> OutOfFuel).
Proof.
  induction f as [|f [IHe IHl]]; [split; intros; lia|]. destruct (ok_shorter f) as [Sh _]. split.
  - intros ts rbp F. rewrite expr_S. destruct ts as [|a ts']; [discriminate|]. cbn [Model.nud length] in *.
    destruct (get (fst a)) as [[[| |s] p]|]; try discriminate; [|apply IHl; lia].
    destruct (pred_checked p) as [p'|]; [|discriminate].
    destruct (expr f ts' p') as [rhs r1| |] eqn:E; [|discriminate|intros _; apply (IHe ts' p'); [lia|exact E]].
    destruct (m_prefix m); [|discriminate]. apply IHl. apply Sh in E. lia.
  - intros lhs ts rbp F. rewrite loop_S. destruct (lbp get ts) as [l|]; [|discriminate].
    destruct (Nat.ltb rbp l); [|discriminate].
    destruct ts as [|a ts']; [discriminate|]. cbn [Model.led length] in *.
    destruct (get (fst a)) as [[[| |s] q]|]; try discriminate.
    + destruct (m_postfix m); [apply IHl; lia|discriminate].
    + destruct (match s with ALeft => Some q | ARight => pred_checked q end) as [rbp'|]; [|discriminate].
      destruct (expr f ts' rbp') as [rhs r1| |] eqn:E; [|discriminate|intros _; apply (IHe ts' rbp'); [lia|exact E]].
      destruct (m_infix m); [|discriminate]. apply IHl. apply Sh in E. lia.
Qed.

Theorem pratt_parse_fuel : forall ts : list tok, pratt_parse m get ts <> OutOfFuel.
Proof. intros ts. apply fuel_all. lia. Qed.

Hypothesis pos : table_pos get.
Hypothesis maps_all : m = all_maps.

Lemma tot_all : forall f,
  (forall ts rbp, 2 * length ts + 2 <= f -> wf get true ts = true ->
     exists t rest, expr f ts rbp = Ok t rest /\ wf get false rest = true) /\
  (forall lhs ts rbp, 2 * length ts + 1 <= f -> wf get false ts = true ->
     exists t rest, loop f lhs ts rbp = Ok t rest /\ wf get false rest = true).
Proof.
  assert (Mp : m_prefix m = true) by now rewrite maps_all.
  assert (Mq : m_postfix m = true) by now rewrite maps_all.
  assert (Mi : m_infix m = true) by now rewrite maps_all.
  induction f as [|f [IHe IHl]]; [split; intros; lia|]. destruct (ok_shorter f) as [Sh _]. split.
  - intros ts rbp F W. rewrite expr_S. destruct ts as [|a ts']; [discriminate|]. cbn [wf Model.nud length] in *.
    destruct (get (fst a)) as [[af p]|] eqn:G; [|apply IHl; [lia|exact W]].
    destruct af; try discriminate. destruct p as [|p']; [apply pos in G; lia|]. cbn [pred_checked].
    destruct (IHe ts' p') as (rhs & r1 & E & W1); [lia|exact W|].
    rewrite E, Mp. apply IHl; [|exact W1]. apply Sh in E. lia.
  - intros lhs ts rbp F W. rewrite loop_S. destruct ts as [|a ts']; cbn [lbp].
    { rewrite (proj2 (Nat.ltb_ge rbp 0)) by lia. now exists lhs, []. }
    cbn [wf Model.led length] in *. destruct (get (fst a)) as [[af p]|] eqn:G; [|discriminate].
    destruct (Nat.ltb rbp p); [|exists lhs, (a :: ts'); split; [reflexivity|]; cbn [wf]; now rewrite G].
    destruct af as [| |s]; try discriminate.
    + rewrite Mq. apply IHl; [lia|exact W].
    + assert (R : exists rbp', (match s with ALeft => Some p | ARight => pred_checked p end) = Some rbp').
      { destruct s; [eauto|]. apply pos in G. destruct p; [lia|cbn; eauto]. }
      destruct R as [rbp' R]. rewrite R.
      destruct (IHe ts' rbp') as (rhs & r1 & E & W1); [lia|exact W|].
      rewrite E, Mi. apply IHl; [|exact W1]. apply Sh in E. lia.
Qed.

Theorem pratt_correct : forall ts : list tok, well_formed get ts = true ->
  exists t, pratt_parse m get ts = Ok t [] /\ yield t = ts /\ shunt get ts = Some t.
Proof.
  intros ts W. unfold pratt_parse.
  destruct (proj1 (tot_all (2 * length ts + 2)) ts 0) as (t & rest & E & _); [lia|exact W|].
  destruct (proj1 (sim_all _) _ _ _ _ E) as [St Sim]. apply (proj1 (ok_yield _)) in E as Y.
  assert (rest = []) as ->.
  { destruct rest as [|a rest]; [reflexivity|]. destruct St as (af & p & G & L). apply pos in G. lia. }
  exists t. split; [exact E|]. split.
  - now rewrite Y, app_nil_r.
  - unfold shunt. rewrite (Sim [] []); cbn; auto.
Qed.
End P.

(* with an infix-only table the prefix / postfix closures are never looked at *)
Section Maps.
Variable A : Type.
Variable get : table.
Hypothesis IO : infix_only get.
Variables m1 m2 : maps.
Hypothesis MI : m_infix m1 = m_infix m2.

Lemma maps_irrelevant : forall f,
  (forall (ts : list (tok A)) rbp, expr m1 get f ts rbp = expr m2 get f ts rbp) /\
  (forall lhs (ts : list (tok A)) rbp, loop m1 get f lhs ts rbp = loop m2 get f lhs ts rbp).
Proof.
  induction f as [|f [IHe IHl]]; [split; reflexivity|]. split.
  - intros ts rbp. rewrite !expr_S. destruct ts as [|a ts']; [reflexivity|]. cbn [nud].
    destruct (get (fst a)) as [[af p]|] eqn:G; [|apply IHl].
    destruct (IO G) as [s ->]. reflexivity.
  - intros lhs ts rbp. rewrite !loop_S. destruct (lbp get ts) as [l|k]; [|reflexivity].
    destruct (Nat.ltb rbp l); [|reflexivity]. destruct ts as [|a ts']; [reflexivity|]. cbn [led].
    destruct (get (fst a)) as [[af p]|] eqn:G; [|reflexivity].
    destruct (IO G) as [s ->].
    destruct (match s with ALeft => Some p | ARight => pred_checked p end); [|reflexivity].
    rewrite IHe, MI. destruct (expr m2 get f ts' p0); [|reflexivity..]. destruct (m_infix m2); [apply IHl|reflexivity].
Qed.
Lemma pratt_parse_maps (ts : list (tok A)) : pratt_parse m1 get ts = pratt_parse m2 get ts.
Proof. unfold pratt_parse. apply maps_irrelevant. Qed.
End Maps.
