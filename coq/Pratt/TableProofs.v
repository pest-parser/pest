(* C13 - facts about tables:
   - the specification and well-formedness depend on a table only through the ORDER of its levels
     (invariance under a strictly monotone relabelling, in particular under pointwise equality);
   - PrattParser::new().op(..).. and ConstPrattParser::new_const(pratt_precedence![..]) for the same
     declaration give the same affixes and levels that differ by the constant PREC_STEP, the later
     declaration of a rule winning in both;
   - PrecClimber::new for an infix declaration without repeated rules gives level k where the
     PrattParser built from the same declaration gives 10*k+10. *)
From Coq Require Import List Arith Bool Lia.
Import ListNotations.
Require Import PV.Pratt.Syntax PV.Pratt.Model PV.Pratt.Climber PV.Pratt.Shunt.
Set Implicit Arguments.

Definition relabel (f : prec -> prec) (g : table) : table :=
  fun r => match g r with Some (af, p) => Some (af, f p) | None => None end.

Section Relabel.
Variable A : Type.
Variable f : prec -> prec.
Hypothesis f_le : forall p q, Nat.leb (f p) (f q) = Nat.leb p q.
Variables g1 g2 : table.
Hypothesis g2_eq : forall r, g2 r = relabel f g1 r.

Lemma f_lt p q : Nat.ltb (f p) (f q) = Nat.ltb p q.
Proof. now rewrite !Nat.ltb_antisym, f_le. Qed.

Lemma wf_relabel b (ts : list (tok A)) : wf g2 b ts = wf g1 b ts.
Proof.
  revert b. induction ts as [|a ts IH]; intros b; cbn; [reflexivity|].
  rewrite g2_eq. unfold relabel. destruct (g1 (fst a)) as [[af p]|]; destruct b; auto.
  - destruct af; auto.
  - destruct af; auto.
Qed.

Definition relabel_sop (s : sop A) : sop A :=
  match s with SPre o p => SPre o (f p) | SInf o a p => SInf o a (f p) end.

Lemma reduces_relabel s lp : reduces (relabel_sop s) (f lp) = reduces s lp.
Proof. destruct s as [o p|o [|] p]; cbn [relabel_sop reduces]; auto using f_le, f_lt. Qed.
Lemma apply_relabel s (out : list (tree A)) : apply_op (relabel_sop s) out = apply_op s out.
Proof. destruct s; reflexivity. Qed.

Lemma reduce_while_relabel lp ops (out : list (tree A)) :
  reduce_while (f lp) (map relabel_sop ops) out =
  match reduce_while lp ops out with Some (ops', out') => Some (map relabel_sop ops', out') | None => None end.
Proof.
  revert out. induction ops as [|s ops IH]; intros out; cbn [map reduce_while]; [reflexivity|].
  rewrite reduces_relabel, apply_relabel. destruct (reduces s lp); [|reflexivity].
  destruct (apply_op s out); auto.
Qed.
Lemma reduce_all_relabel ops (out : list (tree A)) :
  reduce_all (map relabel_sop ops) out = reduce_all ops out.
Proof.
  revert out. induction ops as [|s ops IH]; intros out; cbn [map reduce_all]; [reflexivity|].
  rewrite apply_relabel. destruct (apply_op s out); auto.
Qed.

Lemma sy_relabel b ops out (ts : list (tok A)) :
  sy g2 b (map relabel_sop ops) out ts = sy g1 b ops out ts.
Proof.
  revert b ops out. induction ts as [|a ts IH]; intros b ops out; cbn [sy].
  - now rewrite reduce_all_relabel.
  - rewrite g2_eq. unfold relabel. destruct (g1 (fst a)) as [[af p]|].
    + destruct b, af as [| |s]; auto.
      * apply (IH true (SPre a p :: ops)).
      * rewrite reduce_while_relabel. destruct (reduce_while p ops out) as [[ops' [|x out']]|]; auto.
      * rewrite reduce_while_relabel. destruct (reduce_while p ops out) as [[ops' out']|]; auto.
        apply (IH true (SInf a s p :: ops')).
    + destruct b; auto.
Qed.

Lemma shunt_relabel (ts : list (tok A)) : shunt g2 ts = shunt g1 ts.
Proof. unfold shunt. apply (sy_relabel true [] []). Qed.
End Relabel.

Lemma relabel_id g r : relabel (fun p => p) g r = g r.
Proof. unfold relabel. destruct (g r) as [[af p]|]; auto. Qed.
Lemma shunt_ext A (g1 g2 : table) (ts : list (tok A)) : (forall r, g2 r = g1 r) -> shunt g2 ts = shunt g1 ts.
Proof. intros E. apply shunt_relabel with (f := fun p => p); auto. intros r. now rewrite relabel_id. Qed.
Lemma wf_ext A (g1 g2 : table) b (ts : list (tok A)) : (forall r, g2 r = g1 r) -> wf g2 b ts = wf g1 b ts.
Proof. intros E. apply wf_relabel with (f := fun p => p). intros r. now rewrite relabel_id. Qed.

Definition shift_entry (f : prec -> prec) (x : rule * entry) : rule * entry := (fst x, (fst (snd x), f (snd (snd x)))).

Lemma assoc_find_map f l r :
  assoc_find (map (shift_entry f) l) r =
  match assoc_find l r with Some (af, p) => Some (af, f p) | None => None end.
Proof.
  induction l as [|[r' [af p]] l IH]; cbn; [reflexivity|].
  destruct (Nat.eqb r' r); auto.
Qed.
Lemma assoc_find_app l1 l2 r :
  assoc_find (l1 ++ l2) r = match assoc_find l1 r with Some e => Some e | None => assoc_find l2 r end.
Proof.
  induction l1 as [|[r' e] l1 IH]; cbn; [reflexivity|]. destruct (Nat.eqb r' r); auto.
Qed.
(* Model.assoc_find and Climber.climber_get are this lookup at two value types *)
Section Lookup.
Variable B : Type.
Fixpoint lookup (l : list (rule * B)) (r : rule) : option B :=
  match l with [] => None | (r', e) :: l' => if Nat.eqb r' r then Some e else lookup l' r end.
Lemma lookup_in l r e : lookup l r = Some e -> In (r, e) l.
Proof.
  induction l as [|[r' e'] l IH]; cbn; [discriminate|].
  destruct (Nat.eqb r' r) eqn:E.
  - apply Nat.eqb_eq in E. subst. intros H; inversion H; auto.
  - auto.
Qed.
Lemma lookup_notin l r : ~ In r (map fst l) -> lookup l r = None.
Proof.
  induction l as [|[r' e'] l IH]; cbn; [reflexivity|]. intros H.
  destruct (Nat.eqb r' r) eqn:E.
  - apply Nat.eqb_eq in E. tauto.
  - apply IH. tauto.
Qed.
End Lookup.
Lemma assoc_find_in l r e : assoc_find l r = Some e -> In (r, e) l.
Proof. exact (@lookup_in _ l r e). Qed.
Lemma assoc_find_notin l r : ~ In r (map fst l) -> assoc_find l r = None.
Proof. exact (@lookup_notin _ l r). Qed.
Lemma climber_get_in c r e : climber_get c r = Some e -> In (r, e) c.
Proof. exact (@lookup_in _ c r e). Qed.
Lemma assoc_find_rev l r : NoDup (map fst l) -> assoc_find (rev l) r = assoc_find l r.
Proof.
  induction l as [|[r' e'] l IH]; cbn [rev map fst]; [reflexivity|].
  intros H. inversion H as [|? ? Hn Hd]; subst.
  rewrite assoc_find_app, (IH Hd). cbn [assoc_find].
  destruct (Nat.eqb r' r) eqn:E.
  - apply Nat.eqb_eq in E. subst. now rewrite (assoc_find_notin _ _ Hn).
  - destruct (assoc_find l r); auto.
Qed.

(* all operators of a declaration in order, the level after [p] being p + PREC_STEP *)
Fixpoint entries_from (p : prec) (d : decl) : list (rule * entry) :=
  match d with
  | [] => []
  | lv :: d' =>
    map (fun o : opdecl => (fst o, (snd o, p + PREC_STEP))) (chain lv) ++ entries_from (p + PREC_STEP) d'
  end.

Lemma entries_from_shift k p d :
  entries_from (p + k) d = map (shift_entry (fun q => q + k)) (entries_from p d).
Proof.
  revert p. induction d as [|lv d IH]; intros p; cbn [entries_from]; [reflexivity|].
  rewrite map_app, map_map. f_equal.
  - apply map_ext. intros o. unfold shift_entry. cbn [fst snd]. f_equal. f_equal. lia.
  - replace (p + k + PREC_STEP) with (p + PREC_STEP + k) by lia. apply IH.
Qed.

Lemma entries_from_ge p d r af q : In (r, (af, q)) (entries_from p d) -> p + PREC_STEP <= q.
Proof.
  revert p. induction d as [|lv d IH]; intros p; cbn [entries_from]; [intros []|].
  rewrite in_app_iff, in_map_iff. intros [(o & E & _)|H].
  - inversion E; subst. lia.
  - apply IH in H. lia.
Qed.

Lemma fold_cons_rev (B C : Type) (h : B -> C) l acc :
  fold_left (fun m o => h o :: m) l acc = rev (map h l) ++ acc.
Proof.
  revert acc. induction l as [|x l IH]; intros acc; cbn; [reflexivity|].
  rewrite IH, <- app_assoc. reflexivity.
Qed.

Lemma builder_fold d : forall b,
  b_ops (fold_left builder_op d b) = rev (entries_from (b_prec b) d) ++ b_ops b.
Proof.
  induction d as [|lv d IH]; intros b; cbn [fold_left entries_from]; [reflexivity|].
  rewrite IH. unfold builder_op. cbn [b_prec b_ops].
  rewrite (fold_cons_rev (fun o : opdecl => (fst o, (snd o, b_prec b + PREC_STEP)))).
  rewrite rev_app_distr, <- app_assoc. reflexivity.
Qed.

Lemma builder_ops_eq d : b_ops (builder_table d) = rev (entries_from PREC_STEP d).
Proof. unfold builder_table. rewrite builder_fold. cbn. now rewrite app_nil_r. Qed.

Lemma entries_table_pos p d : table_pos (assoc_find (rev (entries_from p d))).
Proof.
  intros r af q H. apply assoc_find_in, in_rev, entries_from_ge in H. unfold PREC_STEP in H. lia.
Qed.

Lemma builder_table_pos d : table_pos (builder_get (builder_table d)).
Proof. unfold builder_get. rewrite builder_ops_eq. apply entries_table_pos. Qed.

Lemma const_loop_cons p lv (nl : bool) ops :
  const_loop p ((lv, nl) :: ops) =
  match snd lv with
  | _ :: _ => inr CChain
  | [] => let p' := if nl then p + PREC_STEP else p in
          match const_loop p' ops with
          | inl tl => inl ((fst (fst lv), (snd (fst lv), p')) :: tl)
          | inr e => inr e
          end
  end.
Proof. reflexivity. Qed.

Lemma const_loop_falses p (l : list opdecl) rest :
  const_loop p (map (fun o : opdecl => ((o, []), false)) l ++ rest) =
  match const_loop p rest with
  | inl tl => inl (map (fun o : opdecl => (fst o, (snd o, p))) l ++ tl)
  | inr e => inr e
  end.
Proof.
  induction l as [|o l IH]; cbn [map app const_loop].
  - destruct (const_loop p rest); reflexivity.
  - cbn [snd fst]. rewrite IH. destruct (const_loop p rest); reflexivity.
Qed.

Lemma const_loop_macro d : forall p, const_loop p (macro_expand d) = inl (entries_from p d).
Proof.
  induction d as [|lv d IH]; intros p; cbn [macro_expand flat_map entries_from const_loop]; [reflexivity|].
  unfold macro_level. cbn [app const_loop snd fst].
  fold (macro_expand d). rewrite const_loop_falses, IH. reflexivity.
Qed.

Theorem const_builder_tables : forall d : decl, d <> [] ->
  exists ct, new_const (macro_expand d) = inl ct /\
    (forall r, builder_get (builder_table d) r = relabel (fun p => p + PREC_STEP) (const_get ct) r) /\
    table_pos (const_get ct) /\ table_pos (builder_get (builder_table d)).
Proof.
  intros d Hd. exists (entries_from 0 d).
  assert (E1 : new_const (macro_expand d) = inl (entries_from 0 d)).
  { destruct d as [|lv d]; [congruence|]. rewrite <- const_loop_macro. reflexivity. }
  assert (E2 : forall r, builder_get (builder_table d) r = relabel (fun p => p + PREC_STEP) (const_get (entries_from 0 d)) r).
  { intros r. unfold builder_get, const_get, relabel. rewrite builder_ops_eq.
    change PREC_STEP with (0 + PREC_STEP) at 1. rewrite entries_from_shift, <- map_rev.
    apply assoc_find_map. }
  repeat split; auto; [apply entries_table_pos|apply builder_table_pos].
Qed.

(* every argument that new_const accepts is the expansion of a pratt_precedence! invocation *)
Theorem new_const_is_macro : forall l ct, new_const l = inl ct -> exists d, d <> [] /\ l = macro_expand d.
Proof.
  assert (G : forall l ct p, const_loop p l = inl ct ->
              exists (falses : list opdecl) (d : decl), l = map (fun o : opdecl => ((o, []), false)) falses ++ macro_expand d).
  { induction l as [|[[o ch] nl] l IH]; intros ct p H.
    - exists [], []. reflexivity.
    - destruct ch; [|discriminate H]. rewrite const_loop_cons in H. cbn [snd fst] in H. cbv zeta in H.
      destruct (const_loop _ l) as [tl|e] eqn:E in H; [|discriminate H].
      destruct (IH _ _ E) as (fs & d & ->).
      destruct nl.
      + exists [], ((o, fs) :: d). reflexivity.
      + exists (o :: fs), d. reflexivity. }
  intros l ct H. destruct l as [|[[o ch] [|]] l]; cbn [new_const] in H; try discriminate.
  destruct (G _ _ _ H) as (fs & d & E).
  destruct fs as [|x fs]; cbn [map app] in E.
  - destruct d as [|lv d]; [discriminate|]. exists (lv :: d). split; [discriminate|exact E].
  - inversion E.
Qed.

Definition climb_level (k : prec) : prec := k * PREC_STEP + PREC_STEP.

Lemma climber_get_find c r :
  climber_get c r = match assoc_find (map (fun x : rule * (prec * assoc) => (fst x, (Infix (snd (snd x)), fst (snd x)))) c) r with
                    | Some (Infix s, p) => Some (p, s) | _ => None end.
Proof.
  induction c as [|[r' [p s]] c IH]; cbn; [reflexivity|]. destruct (Nat.eqb r' r); auto.
Qed.

Lemma entries_from_pratt_decl d : forall k,
  entries_from (k * PREC_STEP) (pratt_decl d) =
  map (fun x : rule * (prec * assoc) => (fst x, (Infix (snd (snd x)), climb_level (fst (snd x))))) (climber_from k d).
Proof.
  induction d as [|lv d IH]; intros k; cbn [pratt_decl map entries_from climber_from]; [reflexivity|].
  rewrite map_app. f_equal.
  - unfold chain, cchain, pratt_level. cbn [fst snd map]. unfold climb_level. cbn [fst snd].
    f_equal. rewrite !map_map. apply map_ext. intros o. reflexivity.
  - replace (k * PREC_STEP + PREC_STEP) with (S k * PREC_STEP) by lia. apply IH.
Qed.

Lemma climber_from_keys k d : map fst (climber_from k d) = crules d.
Proof.
  revert k. induction d as [|lv d IH]; intros k; cbn [climber_from]; [reflexivity|].
  unfold crules. cbn [flat_map]. rewrite !map_app, map_map. f_equal. apply IH.
Qed.

Lemma climber_from_ge k d r p s : In (r, (p, s)) (climber_from k d) -> k <= p.
Proof.
  revert k. induction d as [|lv d IH]; intros k; cbn [climber_from]; [intros []|].
  rewrite in_app_iff, in_map_iff. intros [(o & E & _)|H].
  - inversion E; subst. lia.
  - apply IH in H. lia.
Qed.

Lemma climber_from_uniform d : cuniform_decl d -> forall k r1 r2 p s1 s2,
  In (r1, (p, s1)) (climber_from k d) -> In (r2, (p, s2)) (climber_from k d) -> s1 = s2.
Proof.
  induction 1 as [|lv d Hlv Hd IH]; intros k r1 r2 p s1 s2; cbn [climber_from]; [intros []|].
  rewrite !in_app_iff, !in_map_iff. intros [(o1 & E1 & I1)|H1] [(o2 & E2 & I2)|H2].
  - inversion E1; inversion E2; subst. rewrite (Hlv _ I1), (Hlv _ I2). reflexivity.
  - inversion E1; subst. apply climber_from_ge in H2. lia.
  - inversion E2; subst. apply climber_from_ge in H1. lia.
  - eapply IH; eauto.
Qed.

Theorem climber_builder_tables : forall d : cdecl, NoDup (crules d) -> cuniform_decl d ->
  (forall r, builder_get (builder_table (pratt_decl d)) r =
             relabel climb_level (table_of (climber_get (climber_new d))) r) /\
  (forall r1 r2 p s1 s2, climber_get (climber_new d) r1 = Some (p, s1) ->
                         climber_get (climber_new d) r2 = Some (p, s2) -> s1 = s2).
Proof.
  intros d ND U. split.
  - intros r. unfold builder_get. rewrite builder_ops_eq.
    change PREC_STEP with (1 * PREC_STEP) at 1. rewrite entries_from_pratt_decl.
    fold (climber_new d).
    rewrite assoc_find_rev.
    2:{ rewrite map_map. cbn [fst]. change (fun x : rule * (prec * assoc) => fst x) with (@fst rule (prec * assoc)).
        unfold climber_new. rewrite (climber_from_keys 1 d). exact ND. }
    unfold relabel, table_of. rewrite climber_get_find.
    set (c := climber_new d). clearbody c. clear.
    induction c as [|[r' [p s]] c IH]; cbn; [reflexivity|].
    destruct (Nat.eqb r' r); auto.
  - intros r1 r2 p s1 s2 H1 H2. apply climber_get_in in H1. apply climber_get_in in H2.
    eapply climber_from_uniform; eauto.
Qed.

Lemma increasing_leb (f : prec -> prec) : (forall p q, p < q -> f p < f q) ->
  forall p q, Nat.leb (f p) (f q) = Nat.leb p q.
Proof.
  intros Hf p q. destruct (Nat.leb_spec p q) as [H|H].
  - apply Nat.leb_le. destruct (Nat.eq_dec p q) as [->|Hne]; [lia|]. specialize (Hf p q). lia.
  - apply Nat.leb_gt. now apply Hf.
Qed.
Lemma climb_level_le p q : Nat.leb (climb_level p) (climb_level q) = Nat.leb p q.
Proof. apply increasing_leb. unfold climb_level, PREC_STEP. intros; lia. Qed.
Lemma shift_le k p q : Nat.leb (p + k) (q + k) = Nat.leb p q.
Proof. apply (increasing_leb (fun p => p + k)). intros; lia. Qed.
