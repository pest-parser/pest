(* C13 - PrecClimber (Climber.v) against the shunting-yard specification, for climber tables whose
   levels each have one associativity: on a well-formed sequence  prim (infix prim)*  climb returns
   normally, consumes everything and builds the specification's tree. *)
From Coq Require Import List Arith Bool Lia.
Import ListNotations.
Require Import PV.Pratt.Syntax PV.Pratt.Climber PV.Pratt.Shunt.
Set Implicit Arguments.

Lemma climb_rec_S A ct f lhs min (ts : list (tok A)) :
  climb_rec ct (S f) lhs min ts =
  match ts with
  | [] => Ok lhs []
  | o :: ts1 =>
    match ct (fst o) with
    | Some (p, _) =>
      if Nat.leb min p then
        match ts1 with
        | [] => Panic PExpect
        | a :: ts2 =>
          match climb_inner ct f (Leaf a) p ts2 with
          | Ok rhs rest => climb_rec ct f (Bin lhs o rhs) min rest
          | e => e
          end
        end
      else Ok lhs ts
    | None => Ok lhs ts
    end
  end.
Proof. reflexivity. Qed.
Lemma climb_inner_S A ct f rhs p (ts : list (tok A)) :
  climb_inner ct (S f) rhs p ts =
  match ts with
  | [] => Ok rhs []
  | o2 :: _ =>
    match ct (fst o2) with
    | Some (np, s) =>
      if Nat.ltb p np || (assoc_eqb s ARight && Nat.eqb np p) then
        match climb_rec ct f rhs np ts with
        | Ok rhs' rest => climb_inner ct f rhs' p rest
        | e => e
        end
      else Ok rhs ts
    | None => Ok rhs ts
    end
  end.
Proof. reflexivity. Qed.

Section C.
Variable A : Type.
Variable ct : ctable.
Notation tok := (tok A).
Notation tree := (tree A).
Notation sop := (sop A).
Notation g := (table_of ct).
Notation sy := (@Shunt.sy A (table_of ct)).

Definition cuniform : Prop :=
  forall r1 r2 p s1 s2, ct r1 = Some (p, s1) -> ct r2 = Some (p, s2) -> s1 = s2.
Hypothesis uni : cuniform.

Definition cblocks (ops : list sop) (min : prec) : Prop :=
  match ops with [] => True | s :: _ => forall lp, min <= lp -> reduces s lp = false end.
Definition accepts (min : prec) (ts : list tok) : Prop :=
  match ts with [] => False | o :: _ => exists p s, ct (@fst rule A o) = Some (p, s) /\ min <= p end.

Lemma g_some r p s : ct r = Some (p, s) -> g r = Some (Infix s, p).
Proof. unfold table_of. now intros ->. Qed.
Lemma g_none r : ct r = None -> g r = None.
Proof. unfold table_of. now intros ->. Qed.

Lemma wf_operator_inv (o : tok) ts1 : wf g false (o :: ts1) = true ->
  exists p s, ct (fst o) = Some (p, s) /\ wf g true ts1 = true.
Proof.
  cbn. unfold table_of. destruct (ct (fst o)) as [[p s]|]; [|discriminate]. eauto.
Qed.
Lemma wf_operand_inv ts1 : wf g true ts1 = true ->
  exists (a : tok) ts2, ts1 = a :: ts2 /\ ct (fst a) = None /\ wf g false ts2 = true.
Proof.
  destruct ts1 as [|a ts2]; cbn; [discriminate|]. unfold table_of.
  destruct (ct (fst a)) as [[p s]|] eqn:G; [discriminate|]. intros H. exists a, ts2. auto.
Qed.

Lemma reduce_while_cblocked lp ops (out : list tree) min :
  cblocks ops min -> min <= lp -> reduce_while lp ops out = Some (ops, out).
Proof.
  destruct ops as [|s ops]; cbn; intros B L; [reflexivity|]. now rewrite (B lp L).
Qed.

(* climb_rec returns at the first operator below min.  `accepts` records that it consumed something
   when the first operator is not below min: the inner loop calls it only then and needs the shorter
   rest for its own fuel.  With min = 0 no operator is below min, so the entry point consumes all. *)
Definition c_rec (f : nat) : Prop := forall lhs min ts,
  2 * length ts + 1 <= f -> wf g false ts = true ->
  exists t rest, climb_rec ct f lhs min ts = Ok t rest /\ wf g false rest = true /\
    length rest <= length ts /\ (accepts min ts -> length rest < length ts) /\ (min = 0 -> rest = []) /\
    forall ops out, cblocks ops min -> sy false ops (lhs :: out) ts = sy false ops (t :: out) rest.
Definition c_inner (f : nat) : Prop := forall rhs (o : tok) s p ts,
  2 * length ts + 2 <= f -> wf g false ts = true -> ct (fst o) = Some (p, s) ->
  exists t rest, climb_inner ct f rhs p ts = Ok t rest /\ wf g false rest = true /\
    length rest <= length ts /\
    forall ops out lhs, sy false (SInf o s p :: ops) (rhs :: lhs :: out) ts = sy false ops (Bin lhs o t :: out) rest.

Lemma c_all : forall f, c_rec f /\ c_inner f.
Proof.
  induction f as [|f [IHr IHi]].
  - split; intros until ts; intros F; exfalso; lia.
  - split.
    + intros lhs min ts F W. rewrite climb_rec_S.
      destruct ts as [|o ts1].
      { exists lhs, []. repeat split; auto. cbn. tauto. }
      destruct (wf_operator_inv _ _ W) as (p & s & G & W1). rewrite G.
      destruct (Nat.leb min p) eqn:C.
      * apply Nat.leb_le in C.
        destruct (wf_operand_inv _ W1) as (a & ts2 & -> & Ga & W2).
        cbn [length] in F.
        destruct (IHi (Leaf a) o s p ts2) as (rhs & rest1 & E1 & Wr1 & L1 & S1); [lia|exact W2|exact G|].
        rewrite E1.
        destruct (IHr (Bin lhs o rhs) min rest1) as (t & rest & E2 & Wr & L2 & _ & Z2 & S2); [lia|exact Wr1|].
        exists t, rest. rewrite E2. repeat split; auto.
        -- cbn [length]. lia.
        -- intros _. cbn [length]. lia.
        -- intros ops out B. cbn [Shunt.sy]. rewrite (g_some G).
           rewrite (reduce_while_cblocked _ _ B C). rewrite (g_none Ga).
           rewrite S1. now apply S2.
      * apply Nat.leb_gt in C. exists lhs, (o :: ts1). repeat split; auto.
        -- intros (p' & s' & G' & L'). rewrite G in G'. inversion G'; subst. lia.
        -- intros ->. lia.
    + intros rhs o s p ts F W G. rewrite climb_inner_S.
      destruct ts as [|o2 ts'].
      { exists rhs, []. repeat split; auto. }
      destruct (wf_operator_inv _ _ W) as (np & s2 & G2 & W1). rewrite G2.
      destruct (Nat.ltb p np || (assoc_eqb s2 ARight && Nat.eqb np p)) eqn:C.
      * destruct (IHr rhs np (o2 :: ts')) as (rhs' & rest1 & E1 & Wr1 & L1 & Acc & _ & S1); [lia|exact W|].
        rewrite E1.
        assert (L1' : length rest1 < length (o2 :: ts')).
        { apply Acc. cbn. exists np, s2. split; [exact G2|lia]. }
        destruct (IHi rhs' o s p rest1) as (t & rest & E2 & Wr & L2 & S2); [lia|exact Wr1|exact G|].
        exists t, rest. rewrite E2. repeat split; auto; [lia|].
        intros ops out lhs. rewrite (S1 (SInf o s p :: ops) (lhs :: out)); [apply S2|].
        cbn [cblocks reduces]. intros lp Hl.
        apply orb_true_iff in C. destruct s.
        -- apply Nat.leb_gt. destruct C as [C|C]; [apply Nat.ltb_lt in C; lia|].
           apply andb_true_iff in C. destruct C as [C1 C2]. apply Nat.eqb_eq in C2. subst np.
           assert (Es : ALeft = s2) by (eapply uni; eauto). subst s2. discriminate.
        -- apply Nat.ltb_ge. destruct C as [C|C]; [apply Nat.ltb_lt in C; lia|].
           apply andb_true_iff in C. destruct C as [_ C2]. apply Nat.eqb_eq in C2. lia.
      * exists rhs, (o2 :: ts'). repeat split; auto.
        intros ops out lhs. cbn [Shunt.sy]. rewrite (g_some G2). cbn [reduce_while].
        assert (R : reduces (SInf o s p) np = true).
        { apply orb_false_iff in C. destruct C as [C1 C2]. apply Nat.ltb_ge in C1.
          destruct s; cbn [reduces]; [apply Nat.leb_le; lia|].
          apply Nat.ltb_lt. destruct (Nat.eq_dec np p) as [->|Ne]; [|lia].
          assert (Es : ARight = s2) by (eapply uni; eauto). subst s2.
          cbn in C2. rewrite Nat.eqb_refl in C2. discriminate. }
        rewrite R. cbn [apply_op]. reflexivity.
Qed.

Theorem climber_correct : forall ts : list tok, well_formed g ts = true ->
  exists t, climb ct ts = Ok t [] /\ shunt g ts = Some t.
Proof.
  intros ts W. unfold well_formed in W.
  destruct (wf_operand_inv _ W) as (a & ts' & -> & Ga & W').
  cbn [climb].
  destruct (c_all (2 * length ts' + 2)) as [Cr _].
  destruct (Cr (Leaf a) 0 ts') as (t & rest & E & _ & _ & _ & Z & S); [lia|exact W'|].
  rewrite (Z eq_refl) in *. exists t. split; [exact E|].
  unfold shunt. cbn [Shunt.sy]. rewrite (g_none Ga).
  rewrite (S [] []); cbn; auto.
Qed.
End C.
