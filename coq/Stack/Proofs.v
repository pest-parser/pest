From Coq Require Import List Arith Lia Bool.
Import ListNotations.
Require Import PV.Stack.Model.
Set Implicit Arguments.
Arguments lastn : simpl never.
Arguments Nat.sub : simpl never.
Arguments Nat.min : simpl never.

Section P.
Variable T : Type.
Notation stk := (stk T). Notation spec := (spec T).
Implicit Types (s : stk) (c : list T).

Lemma firstn_exact n (l l' : list T) : length l = n -> firstn n (l ++ l') = l.
Proof. intros <-. induction l; cbn; congruence. Qed.

Lemma skipn_exact n (l l' : list T) : length l = n -> skipn n (l ++ l') = l'.
Proof. intros <-. induction l; auto. Qed.

Lemma skipn_skipn' (x y : nat) (l : list T) : skipn x (skipn y l) = skipn (x + y) l.
Proof.
  revert l; induction y as [|y IH]; intros l.
  - now rewrite Nat.add_0_r.
  - rewrite Nat.add_succ_r. destruct l as [|a l]; [now rewrite !skipn_nil|]. cbn [skipn]. apply IH.
Qed.

Lemma lastn_app (l : list T) c : lastn (length c) (l ++ c) = c.
Proof. unfold lastn. rewrite app_length, Nat.add_sub. now apply skipn_exact. Qed.

Lemma lastn_length n c : n <= length c -> length (lastn n c) = n.
Proof. unfold lastn; intros; rewrite skipn_length; lia. Qed.

(* A frame (l, r) over the snapshot S and the live cache c says: S and c share their bottom r
   elements t, and what S had above t has been moved, reversed, onto the popped list. *)
Lemma Rep_cons l r ls pop S ss c :
  Rep ((l, r) :: ls) pop (S :: ss) c <->
  exists p q t pop', S = p ++ t /\ c = q ++ t /\ r = length t /\ l = length S /\
                     pop = rev p ++ pop' /\ Rep ls pop' ss S.
Proof.
  split.
  - intros (-> & Hrl & Hrc & Hlast & pop' & Hpop & HR).
    exists (firstn (length S - r) S), (firstn (length c - r) c), (lastn r S), pop'.
    rewrite Hlast at 2. unfold lastn at 1 2. rewrite !firstn_skipn, lastn_length; auto 10.
  - intros (p & q & t & pop' & -> & -> & -> & -> & -> & HR).
    cbn. rewrite !lastn_app, !app_length, Nat.add_sub, firstn_exact by reflexivity.
    repeat apply conj; try lia; eauto.
Qed.

Lemma csub_some (x y : nat) : y <= x -> csub x y = Some (x - y).
Proof. unfold csub; intros; destruct (Nat.leb_spec y x); auto; lia. Qed.

(* The two operations that touch the popped list, said with its pieces named:
   clear_snapshot drains the segment b, restore moves the segment a back. *)
Lemma clear_snapshot_last c b d l r : r <= l -> length b = l - r ->
  clear_snapshot {| cache := c; popped := b ++ d; lengths := [(l, r)] |}
  = Some {| cache := c; popped := d; lengths := [] |}.
Proof.
  intros Hr Hb. unfold clear_snapshot; cbn.
  rewrite csub_some, csub_some, skipn_exact; auto. rewrite app_length; lia.
Qed.

Lemma clear_snapshot_nested c a b d l r pl pr ls :
  r <= l -> length a = pr - Nat.min pr r -> length (a ++ b) = l - r ->
  clear_snapshot {| cache := c; popped := a ++ b ++ d; lengths := (l, r) :: (pl, pr) :: ls |}
  = Some {| cache := c; popped := a ++ d; lengths := (pl, Nat.min pr r) :: ls |}.
Proof.
  intros Hr Ha Hab. unfold clear_snapshot; cbn.
  assert (Hlen : l - r <= length (a ++ b ++ d)) by (rewrite app_assoc, app_length; lia).
  rewrite app_length in Hab.
  rewrite !csub_some by lia.
  destruct (Nat.leb_spec (length (a ++ b ++ d) - (l - r))
                         (length (a ++ b ++ d) - (l - r) + (l - r) - (pr - Nat.min pr r))); [|lia].
  rewrite firstn_exact by auto. rewrite app_assoc, skipn_exact; auto. rewrite app_length; lia.
Qed.

Lemma restore_frame (q t a d : list T) l r ls : length t = r -> length a = l - r ->
  restore {| cache := q ++ t; popped := a ++ d; lengths := (l, r) :: ls |}
  = Some {| cache := rev a ++ t; popped := d; lengths := ls |}.
Proof.
  intros Ht Ha. unfold restore; cbn [cache popped lengths].
  assert (Hc1 : (if r <? length (q ++ t) then skipn (length (q ++ t) - r) (q ++ t) else q ++ t) = t).
  { rewrite <- Ht at 2. fold (lastn (length t) (q ++ t)). rewrite lastn_app.
    destruct (Nat.ltb_spec r (length (q ++ t))); auto.
    rewrite app_length in *. destruct q; [reflexivity | cbn in *; lia]. }
  rewrite Hc1. destruct (Nat.ltb_spec r l).
  - rewrite csub_some, firstn_exact, skipn_exact; auto. rewrite app_length; lia.
  - destruct a; [reflexivity | cbn in Ha; lia].
Qed.

Lemma inv_empty : Inv (@empty T) (@sempty T).
Proof. split; cbn; auto. Qed.

Lemma inv_peek s a : Inv s a -> peek s = speek a.
Proof. intros [Hc _]. unfold peek, speek. now rewrite Hc. Qed.

Lemma inv_push s a x : Inv s a -> Inv (push s x) (spush a x).
Proof.
  destruct s as [c pd ls], a as [c' ss]. intros [Hc HR]; cbn in *; subst c'. split; [reflexivity|]. cbn.
  destruct ls as [|[l r] ls]; [exact HR|]. destruct ss as [|S ss]; [destruct HR|].
  apply Rep_cons in HR as (p & q & t & pop' & -> & -> & Hr & Hl & -> & HR).
  apply Rep_cons. now exists p, (x :: q), t, pop'.
Qed.

Lemma inv_snapshot s a : Inv s a -> Inv (snapshot s) (ssnapshot a).
Proof.
  intros [Hc HR]. split; [exact Hc|]. cbn. rewrite <- Hc.
  apply Rep_cons. now exists [], [], (cache s), (popped s).
Qed.

Lemma inv_pop s a : Inv s a ->
  Inv (fst (pop s)) (fst (spop a)) /\ snd (pop s) = snd (spop a).
Proof.
  destruct s as [c pd ls], a as [c' ss]. intros [Hc HR]; cbn in *; subst c'.
  unfold pop, spop; cbn [cache popped lengths cur snaps]. destruct c as [|x c]; [now repeat split|].
  destruct ls as [|[l r] ls]; [now repeat split|]. destruct ss as [|S ss]; [destruct HR|].
  apply Rep_cons in HR as (p & q & t & pop' & -> & E & Hr & Hl & -> & HR).
  destruct q as [|y q]; cbn in E.
  - (* the popped element is the top of the shared part: it joins the popped list *)
    subst t r. rewrite Nat.eqb_refl. split; [split; [reflexivity|] | reflexivity]. cbn.
    apply Rep_cons. exists (p ++ [x]), [], c, pop'.
    rewrite <- app_assoc, rev_unit. repeat apply conj; auto. exact (Nat.sub_0_r _).
  - injection E as <- ->. rewrite app_length.
    destruct (Nat.eqb_spec (S (length q + length t)) r); [lia|].
    split; [split; [reflexivity|] | reflexivity]. cbn.
    apply Rep_cons. now exists p, q, t, pop'.
Qed.

Lemma inv_clear s a : Inv s a -> exists s', clear_snapshot s = Some s' /\ Inv s' (sclear a).
Proof.
  destruct s as [c pd ls], a as [c' ss]. intros [Hc HR]; cbn in *; subst c'. unfold sclear; cbn.
  destruct ls as [|[l r] ls].
  { eexists; split; [reflexivity|]. split; [reflexivity|]. destruct ss; [exact HR | destruct HR]. }
  destruct ss as [|S ss]; [destruct HR|].
  apply Rep_cons in HR as (p & q & t & pop' & -> & -> & Hr & Hl & -> & HR).
  rewrite app_length in Hl.
  destruct ls as [|[pl pr] ls].
  - destruct ss; [|destruct HR]. cbn in HR; subst pop'.
    eexists; split; [apply clear_snapshot_last; rewrite ?rev_length; lia|]. now split.
  - destruct ss as [|S' ss]; [destruct HR|].
    apply Rep_cons in HR as (p' & q' & t' & pop'' & -> & E & Hr' & Hl' & -> & HR).
    (* the two snapshots' shared parts t, t' are both bottoms of S: one extends the other by u *)
    apply app_eq_app in E as [u [[-> ->]|[-> ->]]].
    + rewrite app_length in Hr'. rewrite rev_app_distr, <- app_assoc.
      eexists; split; [apply clear_snapshot_nested; rewrite ?app_length, ?rev_length in *; lia|].
      split; [reflexivity|]. cbn. apply Rep_cons. exists (p' ++ u), q, t, pop''.
      rewrite rev_app_distr, <- !app_assoc. repeat split; auto; lia.
    + rewrite app_length in Hr. eexists; split;
        [apply (clear_snapshot_nested _ [] (rev p)); cbn [app length]; rewrite ?app_length, ?rev_length in *; lia|].
      split; [reflexivity|]. cbn. apply Rep_cons. exists p', (q ++ u), t', pop''.
      rewrite <- app_assoc. repeat split; auto; lia.
Qed.

Lemma inv_restore s a : Inv s a -> exists s', restore s = Some s' /\ Inv s' (srestore a).
Proof.
  destruct s as [c pd ls], a as [c' ss]. intros [Hc HR]; cbn in *; subst c'. unfold srestore; cbn.
  destruct ls as [|[l r] ls].
  { destruct ss; [|destruct HR]. eexists; split; [reflexivity|]. now split. }
  destruct ss as [|S ss]; [destruct HR|].
  apply Rep_cons in HR as (p & q & t & pop' & -> & -> & Hr & Hl & -> & HR).
  rewrite app_length in Hl.
  eexists; split; [apply restore_frame; rewrite ?rev_length; lia|].
  rewrite rev_involutive. now split.
Qed.

End P.
