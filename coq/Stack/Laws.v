(* Transaction laws of the backtracking stack, for the implementation model, at every reachable
   state and any nesting depth: a snapshot followed by a well-bracketed body and a restore brings
   the stack back to a state that is observationally identical to the one before the snapshot
   (same contents now, same trace for every continuation); with clear_snapshot instead of restore
   the body's effect on the contents is kept and the outer snapshots are untouched.
   This is the shape in which ParserState uses the stack (checkpoint / restore / checkpoint_ok). *)
From Coq Require Import List Arith Lia Bool.
Import ListNotations.
Require Import PV.Stack.Model PV.Stack.Proofs PV.Stack.Top.
Set Implicit Arguments.

Section Laws.
Variable T : Type.
Notation op := (op T).

Fixpoint exec_spec (a : spec T) (ops : list op) : spec T :=
  match ops with [] => a | o :: r => exec_spec (fst (step_spec a o)) r end.
Fixpoint exec_impl (s : stk T) (ops : list op) : option (stk T) :=
  match ops with [] => Some s | o :: r =>
    match step_impl s o with None => None | Some (s', _) => exec_impl s' r end end.

(* well-bracketed body: the depth of snapshots opened inside the body never goes below 0
   (it never clears or restores a snapshot it did not take); result = depth left open *)
Fixpoint bal (d : nat) (ops : list op) : option nat :=
  match ops with
  | [] => Some d
  | Snapshot :: r => bal (S d) r
  | Clear :: r | Restore :: r => match d with 0 => None | S d' => bal d' r end
  | _ :: r => bal d r
  end.

Lemma exec_spec_app a xs ys : exec_spec a (xs ++ ys) = exec_spec (exec_spec a xs) ys.
Proof. revert a; induction xs as [|x xs IH]; intros a; cbn; auto. Qed.

Lemma run_spec_app a xs ys :
  run_spec a (xs ++ ys) = run_spec a xs ++ run_spec (exec_spec a xs) ys.
Proof.
  revert a; induction xs as [|x xs IH]; intros a; cbn; auto.
  destruct (step_spec a x) as [a' out] eqn:E. cbn. now rewrite IH.
Qed.

Lemma run_spec_length (a : spec T) (xs : list op) : length (run_spec a xs) = length xs.
Proof.
  revert a; induction xs as [|x xs IH]; intros a; cbn; auto.
  destruct (step_spec a x); cbn; now rewrite IH.
Qed.

Lemma bal_base body : forall d d' (a : spec T) top base,
  bal d body = Some d' -> snaps a = top ++ base -> length top = d ->
  exists top', snaps (exec_spec a body) = top' ++ base /\ length top' = d'.
Proof.
  induction body as [|o body IH]; intros d d' a top base Hb Hs Hl; cbn in Hb.
  - injection Hb as <-. now exists top.
  - destruct o; cbn [exec_spec step_spec fst].
    + apply (IH d d' _ top base Hb); auto.
    + apply (IH d d' _ top base Hb); [|exact Hl].
      unfold spop. destruct (cur a); cbn; exact Hs.
    + apply (IH d d' _ top base Hb); auto.
    + apply (IH (S d) d' _ (cur a :: top) base Hb); [cbn; rewrite Hs; reflexivity | cbn; now rewrite Hl].
    + destruct d as [|d0]; [discriminate|]. destruct top as [|t top0]; [discriminate|].
      apply (IH d0 d' _ top0 base Hb); [cbn; rewrite Hs; reflexivity | cbn in Hl; lia].
    + destruct d as [|d0]; [discriminate|]. destruct top as [|t top0]; [discriminate|].
      apply (IH d0 d' _ top0 base Hb); [unfold srestore; rewrite Hs; reflexivity | cbn in Hl; lia].
Qed.

Lemma spec_eta (a b : spec T) : cur a = cur b -> snaps a = snaps b -> a = b.
Proof. destruct a, b; cbn; intros -> ->; reflexivity. Qed.

Lemma bal_closed a body : bal 0 body = Some 0 -> snaps (exec_spec (ssnapshot a) body) = cur a :: snaps a.
Proof.
  intros Hb. destruct (@bal_base body 0 0 (ssnapshot a) [] (cur a :: snaps a) Hb eq_refl eq_refl) as ([|] & Hs & Hl);
    [exact Hs|discriminate].
Qed.

Lemma spec_snapshot_restore a body :
  bal 0 body = Some 0 -> exec_spec a (Snapshot :: body ++ [Restore]) = a.
Proof.
  intros Hb. cbn [exec_spec step_spec fst]. rewrite exec_spec_app. cbn [exec_spec step_spec fst].
  unfold srestore. rewrite (bal_closed _ _ Hb). apply spec_eta; reflexivity.
Qed.

Lemma spec_snapshot_clear a body :
  bal 0 body = Some 0 ->
  snaps (exec_spec a (Snapshot :: body ++ [Clear])) = snaps a /\
  cur (exec_spec a (Snapshot :: body ++ [Clear])) = cur (exec_spec (ssnapshot a) body).
Proof.
  intros Hb. cbn [exec_spec step_spec fst]. rewrite exec_spec_app. cbn. now rewrite (bal_closed _ _ Hb).
Qed.

(* impl level, through the refinement theorem: for every history h, every well-bracketed body and
   every continuation k the model of stack.rs does not panic, and after snapshot/body/restore it
   produces for k exactly the trace it produces for k straight after h. *)
Theorem checkpoint_restore_transparent (h body k : list op) :
  bal 0 body = Some 0 ->
  exists t0 t1 tk,
    run_impl (@empty T) (h ++ k) = Some (t0 ++ tk) /\
    run_impl (@empty T) (h ++ (Snapshot :: body ++ [Restore]) ++ k) = Some (t0 ++ t1 ++ tk) /\
    length t0 = length h /\ length t1 = S (S (length body)).
Proof.
  intros Hb. rewrite !C11_stack_transactional.
  exists (run_spec (@sempty T) h),
         (run_spec (exec_spec (@sempty T) h) (Snapshot :: body ++ [Restore])),
         (run_spec (exec_spec (@sempty T) h) k).
  pose proof run_spec_length as Hlen.
  split; [now rewrite run_spec_app|]. split.
  - rewrite run_spec_app. f_equal. rewrite run_spec_app. f_equal.
    now rewrite (spec_snapshot_restore _ _ Hb).
  - split; rewrite Hlen; auto. cbn. rewrite app_length. cbn. lia.
Qed.

(* clear_snapshot keeps the body's effect and leaves the enclosing snapshots alone: a later
   restore goes back to the enclosing snapshot exactly as if the inner one had never been taken *)
Theorem checkpoint_clear_keeps_outer (h body : list op) :
  bal 0 body = Some 0 ->
  snaps (exec_spec (@sempty T) (h ++ Snapshot :: body ++ [Clear])) = snaps (exec_spec (@sempty T) h) /\
  exists t, run_impl (@empty T) (h ++ Snapshot :: body ++ [Clear]) = Some t /\
            length t = length h + S (S (length body)).
Proof.
  intros Hb. split.
  - rewrite exec_spec_app. now destruct (spec_snapshot_clear (exec_spec (@sempty T) h) _ Hb).
  - rewrite C11_stack_transactional. eexists; split; [reflexivity|].
    pose proof run_spec_length as Hlen.
    rewrite Hlen, app_length. cbn. rewrite app_length. cbn. lia.
Qed.
End Laws.
