(* C01, part 11: the side conditions as one boolean checker `grammar_okb` (sound for `grammar_ok`),
   including a UTF-8 validity checker for the string constants.                                      *)
From Coq Require Import List Arith NArith ZArith Bool String Lia.
Require Import PV.Peg.AstFacts.
Import ListNotations.
Require Import PV.Comb.PState PV.Comb.Bytes PV.Comb.Utf8 PV.Comb.Utf8b.
Require Import PV.Peg.Ast PV.Peg.VmCompile PV.Peg.Refine6.

Fixpoint utf8b_fuel (k : nat) (l : list byte) : bool :=
  match l with
  | [] => true
  | _ :: _ =>
    match k with
    | O => false
    | S k' =>
      match decode1 l with
      | Some (c, n) => scalarb c && str_eqb (encode c) (firstn n l) && utf8b_fuel k' (skipn n l)
      | None => false
      end
    end
  end.
Definition utf8b (l : list byte) : bool := utf8b_fuel (List.length l) l.

Lemma utf8b_fuel_sound k : forall l, utf8b_fuel k l = true -> valid_utf8 l.
Proof.
  induction k as [|k IH]; intros l H.
  - destruct l; [apply valid_nil|discriminate].
  - destruct l as [|b l]; [apply valid_nil|]. cbn [utf8b_fuel] in H.
    destruct (decode1 (b :: l)) as [[c n]|]; [|discriminate].
    apply andb_true_iff in H. destruct H as [H H3]. apply andb_true_iff in H. destruct H as [H1 H2].
    apply scalarb_spec in H1. apply str_eqb_eq in H2.
    rewrite <- (firstn_skipn n (b :: l)), <- H2. apply valid_cons; [exact H1|]. now apply IH.
Qed.

Lemma utf8b_sound l : utf8b l = true -> valid_utf8 l.
Proof. apply utf8b_fuel_sound. Qed.

Fixpoint lits_validb (e : oexpr) : bool :=
  match e with
  | OStr s | OInsens s | OPushLiteral s => utf8b s
  | OSkip ss => forallb utf8b ss
  | OPosPred x | ONegPred x | OOpt x | ORep x | ORepOnce x | OPush x | ONodeTag x _ | ORestoreOnErr x => lits_validb x
  | OSeq l r | OChoice l r => lits_validb l && lits_validb r
  | _ => true
  end.

Lemma lits_validb_sound e : lits_validb e = true -> lits_valid e.
Proof.
  induction e; cbn [lits_validb lits_valid]; auto; try apply utf8b_sound.
  - intros H. apply andb_true_iff in H. destruct H. auto.
  - intros H. apply andb_true_iff in H. destruct H. auto.
  - intros H. rewrite forallb_forall in H. apply Forall_forall. intros x Hx. apply utf8b_sound. auto.
Qed.

Fixpoint nodupb (l : list name) : bool :=
  match l with [] => true | x :: r => negb (existsb (str_eqb x) r) && nodupb r end.

Lemma nodupb_sound l : nodupb l = true -> NoDup l.
Proof.
  induction l as [|x l IH]; [constructor|]. cbn [nodupb]. intros H. apply andb_true_iff in H. destruct H as [H1 H2].
  constructor; [|auto]. intros Hin. apply negb_true_iff in H1.
  assert (existsb (str_eqb x) l = true) by (apply existsb_exists; exists x; split; [exact Hin|apply str_eqb_refl]).
  congruence.
Qed.

Section Check.
Variable OG : ogrammar.
Variable extras : bool.
Variable uranges : name -> option (list (N * N)).
Variable pp : bool.

Definition rule_okb (r : orule) : bool :=
  in_fragment OG extras uranges pp (oexpr_of r) && rok OG (K OG) (oexpr_of r) && lits_validb (oexpr_of r).

Definition grammar_okb : bool :=
  nodupb (map oname OG) && forallb (fun r => negb (is_builtin (oname r))) OG && forallb rule_okb OG &&
  (negb (has_orule OG (nm "WHITESPACE")) || fclean OG (K OG) (OIdent (nm "WHITESPACE"))) &&
  (negb (has_orule OG (nm "COMMENT")) || fclean OG (K OG) (OIdent (nm "COMMENT"))).

Lemma grammar_okb_sound : grammar_okb = true -> grammar_ok OG extras uranges pp.
Proof.
  unfold grammar_okb. intros H.
  apply andb_true_iff in H. destruct H as [H H4]. apply andb_true_iff in H. destruct H as [H H3].
  apply andb_true_iff in H. destruct H as [H H2]. apply andb_true_iff in H. destruct H as [H1 Hnames].
  rewrite forallb_forall in H2. rewrite forallb_forall in Hnames.
  assert (R : forall r, In r OG -> in_fragment OG extras uranges pp (oexpr_of r) = true /\
                                   rok OG (K OG) (oexpr_of r) = true /\ lits_validb (oexpr_of r) = true).
  { intros r Hr. specialize (H2 r Hr). unfold rule_okb in H2.
    apply andb_true_iff in H2. destruct H2 as [H2 Hc]. apply andb_true_iff in H2. tauto. }
  split.
  - now apply nodupb_sound.
  - intros r Hr. apply negb_true_iff. now apply Hnames.
  - intros r Hr. apply (R r Hr).
  - intros r Hr. apply rok_rokP. apply (R r Hr).
  - intros r Hr. apply lits_validb_sound. apply (R r Hr).
  - intros Hw. rewrite Hw in H3. exact H3.
  - intros Hc. rewrite Hc in H4. exact H4.
Qed.

End Check.

(* what the real `restore_on_err` pass establishes *)
Definition restore_ok (OG : ogrammar) (e : oexpr) : bool := rok OG (K OG) e.

(* "the Spec evaluation never consults PEEK / POP on an empty stack", in its simplest (static) form: there is
   no PEEK / POP at all.  The fragment with pp = true and this condition is the fragment with pp = false.  *)
Fixpoint no_empty_stack_read (e : oexpr) : bool :=
  match e with
  | OIdent n => negb (str_eqb n (nm "PEEK") || str_eqb n (nm "POP"))
  | OPosPred x | ONegPred x | OOpt x | ORep x | ORepOnce x | OPush x | ONodeTag x _ | ORestoreOnErr x => no_empty_stack_read x
  | OSeq l r | OChoice l r => no_empty_stack_read l && no_empty_stack_read r
  | _ => true
  end.

Lemma fragment_no_peek_pop OG extras uranges e :
  in_fragment OG extras uranges true e = true -> no_empty_stack_read e = true ->
  in_fragment OG extras uranges false e = true.
Proof.
  induction e; cbn [in_fragment no_empty_stack_read]; auto.
  - unfold ident_ok. destruct (is_builtin n); [|auto]. intros _ H. rewrite H. reflexivity.
  - intros H1 H2. apply andb_true_iff in H1. apply andb_true_iff in H2. apply andb_true_iff. tauto.
  - intros H1 H2. apply andb_true_iff in H1. apply andb_true_iff in H2. apply andb_true_iff. tauto.
  - intros H1 H2. apply andb_true_iff in H1. apply andb_true_iff. tauto.
  - intros H1 H2. apply andb_true_iff in H1. apply andb_true_iff. tauto.
Qed.
