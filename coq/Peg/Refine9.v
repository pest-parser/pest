(* C01, part 9: the two-way simulation `vm_sim_spec` (every expression of the fragment, at every fuel) by
   induction on the fuel, structural induction inside.                                              *)
From Coq Require Import List Arith NArith ZArith Bool String Lia.
Import ListNotations.
Require Import PV.Iter.Queue PV.Iter.QueueFacts.
Require Import PV.Stack.Model PV.Stack.Proofs PV.Comb.PState PV.Comb.Bytes PV.Comb.Prog PV.Comb.Exec.
Require Import PV.Comb.Frame PV.Comb.Contracts PV.Comb.Utf8 PV.Comb.Utf8b PV.Comb.Utf8c.
Require Import PV.Peg.Ast PV.Peg.Spec PV.Peg.SpecFacts PV.Peg.VmCompile.
Require Import PV.Peg.Refine0 PV.Peg.Refine1 PV.Peg.Refine2 PV.Peg.Refine3 PV.Peg.Refine4 PV.Peg.Refine5
  PV.Peg.Refine6 PV.Peg.Refine7 PV.Peg.Refine8.

Lemma rep_eq (r1 : sres) f (U : nat -> list str -> sres) p sg :
  match r1 with SMatch p1 sg1 f1 => loop f U p1 sg1 f1 | SFail => SMatch p sg [] | SFuel => SFuel end =
  sres_opt p sg (sres_bind r1 (fun p1 sg1 => loop f U p1 sg1 [])).
Proof.
  destruct r1 as [p1 sg1 f1| |]; cbn; auto. rewrite loop_acc.
  destruct (loop f U p1 sg1 []) eqn:El; cbn; auto. exfalso. eapply loop_not_fail; exact El.
Qed.

Lemma if_true_eq {T} (c : bool) (x y : T) : c = true -> (if c then x else y) = x.
Proof. intros ->. reflexivity. Qed.

Lemma rep_once_eq (r1 : sres) f (U : nat -> list str -> sres) :
  match r1 with SMatch p1 sg1 f1 => loop f U p1 sg1 f1 | SFail => SFail | SFuel => SFuel end =
  sres_bind r1 (fun p1 sg1 => loop f U p1 sg1 []).
Proof. destruct r1 as [p1 sg1 f1| |]; cbn; auto. rewrite loop_acc. destruct (loop f U p1 sg1 []); reflexivity. Qed.

Section Main.
Variable OG : ogrammar.
Variable extras : bool.
Variable uranges : name -> option (list (N * N)).
Variable pp : bool.
Variable cfg : config.
Variable w : list byte.
Hypothesis Hcfg : cfg_ok cfg.
Hypothesis HG : grammar_ok OG extras uranges pp.

Notation G := (embed_g OG).
Notation E := (vm_env OG uranges).
Notation ev := (eval G extras (uprop uranges) w).
Notation sim := (@sim cfg E pp w).
Notation vm_expr := (vm_expr OG uranges).
Notation vm_skip := (vm_skip OG uranges).
Notation sim_at := (sim_at OG extras uranges pp cfg w).
Notation in_fragment := (in_fragment OG extras uranges pp).
Notation K := (K OG).
Notation Cl := (Cl OG).
Notation ClS := (ClS OG).
Notation HE := (HE OG extras uranges pp HG).

Lemma cl_of_K x : fclean OG K x = true -> Cl x.
Proof. intros H. exists K. exact H. Qed.
Lemma cls_of_cleanP x : cleanP OG K x -> ClS x.
Proof. intros [H|H]; [left; now apply cl_of_K|right; exact H]. Qed.

(* a tagged expression of the fragment produces at least one node whenever it matches and tokens are on *)
Lemma emits_last_nonempty e : emits_last OG e = true -> in_fragment e = true ->
  forall n a p sg p' sg' f, ev n a true (embed e) p sg = SMatch p' sg' f -> f <> [].
Proof.
  induction e; cbn [emits_last Refine6.in_fragment]; try discriminate; intros EL Fr n0 a p sg p' sg' f H;
    (destruct n0 as [|n0]; [discriminate|]); cbn [embed] in H.
  - (* OIdent *)
    apply andb_true_iff in EL. destruct EL as [EL EL3]. apply andb_true_iff in EL. destruct EL as [EL1 EL2].
    apply negb_true_iff in EL1. apply negb_true_iff in EL2.
    rewrite (eval_user OG extras uranges w n0 a true n p sg EL1) in H.
    change (is_special n) with (is_special_name n) in H. rewrite EL2 in H.
    destruct (find_orule OG n) as [r|]; [|discriminate]. unfold rule_mode in H.
    destruct (oty r); try discriminate; cbv zeta in H;
      destruct (eval _ _ _ _ _ _ _ _ _ _); cbn in H; try discriminate; injection H as <- <- <-; discriminate.
  - (* OSeq *)
    apply andb_true_iff in Fr. destruct Fr as [F1 F2]. cbn [eval] in H.
    destruct (eval _ _ _ _ n0 a true (embed e1) p sg) as [p1 sg1 f1| |]; try discriminate.
    destruct (skip_with _ _ _ _ _ _ _) as [p2 sg2 f2| |]; try discriminate.
    destruct (eval _ _ _ _ n0 a true (embed e2) p2 sg2) as [p3 sg3 f3| |] eqn:E3; try discriminate.
    injection H as <- <- <-. pose proof (IHe2 EL F2 _ _ _ _ _ _ _ E3) as N3.
    intros Heq. apply app_eq_nil in Heq. destruct Heq as [_ Heq]. apply app_eq_nil in Heq. tauto.
  - (* OChoice *)
    apply andb_true_iff in Fr. destruct Fr as [F1 F2]. apply andb_true_iff in EL. destruct EL as [L1 L2]. cbn [eval] in H.
    destruct (eval _ _ _ _ n0 a true (embed e1) p sg) as [p1 sg1 f1| |] eqn:E1; try discriminate.
    + injection H as <- <- <-. eapply IHe1; eauto.
    + eapply IHe2; eauto.
  - (* ORepOnce *)
    apply andb_true_iff in Fr. destruct Fr as [-> F1]. cbn [eval] in H.
    destruct (eval _ _ _ _ n0 a true (embed e) p sg) as [p1 sg1 f1| |] eqn:E1; try discriminate.
    unfold rep_from_with in H. rewrite loop_acc in H. destruct (loop _ _ _ _ _); try discriminate.
    injection H as <- <- <-. pose proof (IHe EL F1 _ _ _ _ _ _ _ E1) as N1.
    intros Heq. apply app_eq_nil in Heq. tauto.
  - (* OPush *)
    cbn [eval] in H. destruct (eval _ _ _ _ n0 a true (embed e) p sg) as [p1 sg1 f1| |] eqn:E1; try discriminate.
    injection H as <- <- <-. eapply IHe; eauto.
  - (* ONodeTag *)
    apply andb_true_iff in Fr. destruct Fr as [F1 F2]. cbn [eval] in H.
    destruct (eval _ _ _ _ n0 a true (embed e) p sg) as [p1 sg1 f1| |] eqn:E1; try discriminate.
    injection H as <- <- <-. apply tag_last_nonempty. eapply IHe; eauto.
  - (* ORestoreOnErr *)
    eapply (IHe EL Fr (S n0)); eauto.
Qed.

Lemma sim_rep_loop f x a emit p sg : sim_at f -> in_fragment x = true -> rokP OG K x -> lits_valid x ->
  sim grown (PRepeat (PSequence (PAndThen vm_skip (vm_expr x)))) a emit p sg
    (loop f (rep_unit G (ev f) f a emit (embed x)) p sg []) f.
Proof.
  intros IH Fx Rx Lx. apply sim_repeat.
  apply (sim_loop w Hcfg HE _ _ a emit (rep_unit G (ev f) f a emit (embed x)) f); [| |auto].
  - cbn. split; [apply pv_skip|now apply pv_expr].
  - intros p0 sg0. now apply sim_rep_unit.
Qed.

(* The Spec spends one unit of fuel on the expression, the VM one on each combinator of its program: `sim_le`
   names that number where it is more than one. *)
Lemma sim_step f : sim_at f -> sim_at (S f).
Proof.
  intros IH e. induction e; intros a emit p sg Fr Ro Li; apply sim_sem;
    cbn [embed VmCompile.vm_expr]; cbn [Refine6.in_fragment Refine6.rokP lits_valid] in Fr, Ro, Li.
  - (* OStr *) cbn [eval]. apply sim_str.
  - (* OInsens *) cbn [eval]. apply sim_insens.
  - (* ORange *) cbn [eval]. apply sim_range.
  - (* OIdent *)
    destruct (is_builtin n) eqn:B.
    + now apply sim_builtin.
    + now apply sim_user.
  - (* OPeekSlice *)
    eapply sim_eq; [|apply sim_peek_slice]. symmetry. cbn [eval]. apply spec_peek_slice.
  - (* OPosPred *)
    cbn [eval]. apply (sim_lookahead w (clean (ClS e)) _ true). now apply IH.
  - (* ONegPred *)
    cbn [eval]. apply (sim_lookahead w (clean (ClS e)) _ false). now apply IH.
  - (* OSeq *)
    (* `l ~ r` runs as sequence ((l ; skip) ; r): two and_thens, the inner one a step deeper; the Spec's three
       nested matches are the two binds *)
    apply andb_true_iff in Fr. destruct Fr as [F1 F2]. destruct Ro as [R1 R2]. destruct Li as [L1 L2].
    apply (sim_le w (S (S f))); [auto|].
    eapply sim_eq; [|apply sim_sequence;
      apply (sim_andthen_body w Hcfg HE _ _ a emit p sg
               (sres_bind (ev f a emit (embed e1) p sg) (fun p1 sg1 => skip_with G (ev f) f a emit p1 sg1))
               (fun p2 sg2 => ev f a emit (embed e2) p2 sg2));
      [cbn; split; [now apply pv_expr|apply pv_skip]
      |apply (sim_le w (S f)); [auto|];
       apply (sim_andthen_body w Hcfg HE _ _ a emit p sg (ev f a emit (embed e1) p sg)
                (fun p1 sg1 => skip_with G (ev f) f a emit p1 sg1));
        [now apply pv_expr
        |eapply sim_post; [apply clean_grown|now apply IH]
        |intros p1 sg1 f1 _; eapply sim_post; [apply clean_grown|now apply sim_skip]]
      |intros p2 sg2 f2 _; eapply sim_post; [apply clean_grown|now apply IH]]].
    cbn [eval]. destruct (eval _ _ _ _ f a emit (embed e1) p sg) as [p1 sg1 f1| |]; cbn [sres_bind]; auto.
    destruct (skip_with _ _ _ _ _ _ _) as [p2 sg2 f2| |]; cbn [sres_bind]; auto.
    destruct (eval _ _ _ _ f a emit (embed e2) p2 sg2) as [p3 sg3 f3| |]; cbn [sres_bind]; auto.
    now rewrite app_assoc.
  - (* OChoice *)
    apply andb_true_iff in Fr. destruct Fr as [F1 F2]. destruct Ro as (R1 & R2 & R3). destruct Li as [L1 L2].
    cbn [eval].
    apply (sim_post w (clean (ClS e2))).
    { intros s s'. apply clean_weaken. intros [k Hk]. left. exists k.
      destruct k; cbn [Refine6.fclean fclean_e] in Hk |- *; apply andb_true_iff in Hk; tauto. }
    apply (sim_orelse w Hcfg HE (ClS e1) (ClS e2)); [now apply pv_expr|now apply cls_of_cleanP|now apply IH|now apply IH].
  - (* OOpt *)
    destruct Ro as [R1 R2]. cbn [eval].
    apply (sim_optional w (ClS e)); [now apply cls_of_cleanP|now apply IH].
  - (* ORep *)
    destruct Ro as [R1 R2]. cbn [eval]. unfold rep_from_with. rewrite rep_eq.
    apply (sim_le w (S (S (S f)))); [auto|].
    apply sim_sequence, (sim_optional w (ClS e)); [now apply cls_of_cleanP|].
    apply (sim_andthen w Hcfg HE (clean (ClS e)) (fun _ _ => False)); [auto|contradiction|now apply pv_expr|now apply IH|].
    intros p1 sg1 f1 _. apply (sim_total w grown); [apply loop_not_fail|]. now apply sim_rep_loop.
  - (* ORepOnce *)
    apply andb_true_iff in Fr. destruct Fr as [Hx F1]. cbn [eval]. rewrite (if_true_eq extras _ _ Hx). unfold rep_from_with. rewrite rep_once_eq.
    apply (sim_le w (S (S f))); [auto|].
    apply sim_sequence, sim_andthen_body; [exact Hcfg|exact HE|now apply pv_expr| |].
    + eapply sim_post; [apply clean_grown|now apply IH].
    + intros p1 sg1 f1 _. now apply sim_rep_loop.
  - (* OSkip *) cbn [eval]. now apply sim_skip_until.
  - (* OPush *)
    cbn [eval]. apply (sim_post w (clean (ClS e))).
    { intros s s'. apply clean_weaken. intros [k Hk]. left. exists k. destruct k; exact Hk. }
    apply sim_push; [exact Hcfg|exact HE|now apply pv_expr|now apply IH].
  - (* OPushLiteral *) cbn [eval]. apply sim_push_lit.
  - (* ONodeTag *)
    apply andb_true_iff in Fr. destruct Fr as [F1 F2]. cbn [eval].
    apply (sim_post w (clean (ClS e))).
    { intros s s'. apply clean_weaken. intros [k Hk]. left. exists k. destruct k; exact Hk. }
    apply (sim_tag w Hcfg HE); [now apply pv_expr|now apply IH|].
    intros p' sg' f0 Hr ->. eapply emits_last_nonempty; eauto.
  - (* ORestoreOnErr *)
    apply (sim_le w (S (S f))); [auto|]. apply (sim_restore w (ClS e)). now apply IHe.
Qed.

Theorem vm_sim_spec : forall n, sim_at n.
Proof.
  induction n as [|n IH]; [|now apply sim_step].
  intros e a emit p sg _ _ _ s R. split; [intros N; exfalso; apply N; reflexivity|].
  intros (k & L & A). destruct k; [destruct A|lia].
Qed.

End Main.
