(* C01, part 0: the embedding of optimized rules into the grammar language, fuel monotonicity of
   `exec`, the fuel-free big-step view `runs` of Layer C and its converse `halts` (returns within
   a given fuel), and one step of `exec` for the combinators that bracket a run of their body
   (Comb.ExecInd.bracket_of), read for states without a call limit.  Everything here is independent
   of the grammar.                                                                              *)
From Coq Require Import List Arith NArith ZArith Bool Lia.
Import ListNotations.
Require Import PV.Stack.Model PV.Stack.Proofs PV.Comb.PState PV.Comb.Bytes PV.Comb.Prog PV.Comb.Exec.
Require Import PV.Comb.ExecInd PV.Comb.Frame PV.Comb.Contracts PV.Peg.Ast.
Require PV.Comb.CallLimit.

Arguments Nat.sub : simpl never.
Arguments Nat.ltb : simpl never.
Arguments Nat.leb : simpl never.
Arguments Nat.eqb : simpl never.
Arguments skipn : simpl never.
Arguments firstn : simpl never.

Fixpoint embed (e : oexpr) : expr :=
  match e with
  | OStr s => EStr s
  | OInsens s => EInsens s
  | ORange lo hi => ERange lo hi
  | OIdent n => EIdent n
  | OPeekSlice i j => EPeekSlice i j
  | OPosPred x => EPosPred (embed x)
  | ONegPred x => ENegPred (embed x)
  | OSeq l r => ESeq (embed l) (embed r)
  | OChoice l r => EChoice (embed l) (embed r)
  | OOpt x => EOpt (embed x)
  | ORep x => ERep (embed x)
  | ORepOnce x => ERepOnce (embed x)
  | OSkip ss => ESkip ss
  | OPush x => EPush (embed x)
  | OPushLiteral s => EPushLiteral s
  | ONodeTag x t => ENodeTag (embed x) t
  | ORestoreOnErr x => embed x
  end.
Definition embed_rule (r : orule) : rule := {| rname := oname r; rty := oty r; rexpr := embed (oexpr_of r) |}.
Definition embed_g (g : ogrammar) : grammar := map embed_rule g.

Section Mono.
Variable cfg : config.
Variable E : env.

Theorem exec_mono f f' p s :
  f <= f' -> exec cfg E f p s <> ROutOfFuel -> exec cfg E f' p s = exec cfg E f p s.
Proof. exact (CallLimit.exec_mono cfg E f f' p s). Qed.

Definition runs (p : prog) (s : pst) (r : res) : Prop :=
  r <> ROutOfFuel /\ exists m, exec cfg E m p s = r.

Lemma runs_det p s r1 r2 : runs p s r1 -> runs p s r2 -> r1 = r2.
Proof.
  intros [N1 [m1 E1]] [N2 [m2 E2]]. rewrite <- E1, <- E2. apply CallLimit.exec_fuel_irrelevant; congruence.
Qed.

Lemma runs_at p s r : runs p s r -> exists m, forall m', m <= m' -> exec cfg E m' p s = r.
Proof.
  intros [N [m Em]]. exists m. intros m' L. rewrite (exec_mono m m' p s L); congruence.
Qed.

Definition returns (r : res) : Prop := match r with ROk _ | RErr _ => True | _ => False end.
Definition halts (m : nat) (p : prog) (s : pst) : Prop := exists k, k <= m /\ returns (exec cfg E k p s).

Lemma halts_le m m' p s : m <= m' -> halts m p s -> halts m' p s.
Proof. intros L (k & Lk & A). exists k. split; [lia|exact A]. Qed.

Lemma runs_prim o s r : exec_prim cfg o s = r -> r <> ROutOfFuel -> runs (PPrim o) s r.
Proof. intros H N. split; [exact N|]. exists 1. exact H. Qed.

(* A combinator that runs its body q' once, from s', and maps the body's result through `fin`:
   both views follow from the one-step equation of `exec`. *)
Lemma runs_step {q s q' s'} {fin : res -> res} {r} :
  (forall k, exec cfg E (S k) q s = fin (exec cfg E k q' s')) -> runs q' s' r -> fin r <> ROutOfFuel -> runs q s (fin r).
Proof. intros Eq [_ [m A]] N. split; [exact N|]. exists (S m). rewrite Eq, A. reflexivity. Qed.

Lemma halts_step {q s q' s'} {fin : res -> res} {m} :
  (forall k, exec cfg E (S k) q s = fin (exec cfg E k q' s')) -> (forall x, returns (fin x) -> returns x) ->
  halts (S m) q s -> halts m q' s'.
Proof.
  intros Eq F (k & L & A). destruct k as [|k]; [contradiction|]. rewrite Eq in A. exists k. split; [lia|auto].
Qed.

(* and_then, or_else and the repetition loop run a first program and go on, or stop, according to its result x *)
Lemma runs_cont p q q' s s1 x r : runs p s x -> runs q' s1 r ->
  (forall k, exec cfg E k p s = x -> exec cfg E (S k) q s = exec cfg E k q' s1) -> runs q s r.
Proof.
  intros H1 H2 Eq. destruct (runs_at _ _ _ H1) as [m1 A1]. destruct (runs_at _ _ _ H2) as [m2 A2].
  split; [apply H2|]. exists (S (Nat.max m1 m2)). rewrite Eq by (apply A1; lia). apply A2. lia.
Qed.

Lemma runs_stop p q s x y : runs p s x -> (forall k, exec cfg E k p s = x -> exec cfg E (S k) q s = y) ->
  y <> ROutOfFuel -> runs q s y.
Proof. intros [_ [m A]] Eq N. split; [exact N|]. exists (S m). auto. Qed.

Lemma runs_andthen_ok p q s s1 r : runs p s (ROk s1) -> runs q s1 r -> runs (PAndThen p q) s r.
Proof. intros H1 H2. apply (runs_cont p _ q s s1 _ r H1 H2). intros k A. cbn [exec]. now rewrite A. Qed.

Lemma runs_andthen_stop p q s r : runs p s r -> (forall x, r <> ROk x) -> runs (PAndThen p q) s r.
Proof.
  intros H K. apply (runs_stop p _ s r r H); [|apply H]. intros k A. cbn [exec]. rewrite A.
  destruct r as [x|x| |]; try reflexivity. now elim (K x).
Qed.

Lemma runs_orelse_err p q s s1 r : runs p s (RErr s1) -> runs q s1 r -> runs (POrElse p q) s r.
Proof. intros H1 H2. apply (runs_cont p _ q s s1 _ r H1 H2). intros k A. cbn [exec]. now rewrite A. Qed.

Lemma runs_orelse_stop p q s r : runs p s r -> (forall x, r <> RErr x) -> runs (POrElse p q) s r.
Proof.
  intros H K. apply (runs_stop p _ s r r H); [|apply H]. intros k A. cbn [exec]. rewrite A.
  destruct r as [x|x| |]; try reflexivity. now elim (K x).
Qed.

Lemma runs_loop_ok p s s1 r : runs p s (ROk s1) -> runs (PRepeatLoop p) s1 r -> runs (PRepeatLoop p) s r.
Proof. intros H1 H2. apply (runs_cont p _ _ s s1 _ r H1 H2). intros k A. cbn [exec]. now rewrite A. Qed.

Lemma runs_loop_stop p s r : runs p s r -> (forall x, r <> ROk x) ->
  runs (PRepeatLoop p) s (match r with RErr s1 => ROk s1 | x => x end).
Proof.
  intros H K. apply (runs_stop p _ s r _ H); [|destruct H, r; congruence]. intros k A. cbn [exec]. rewrite A.
  destruct r as [x|x| |]; try reflexivity. now elim (K x).
Qed.

Lemma inc_call_none s : limit s = None -> inc_call s = Some s.
Proof. intros L. unfold inc_call, limit_reached. rewrite L. reflexivity. Qed.

Lemma exec_ifna k p q s :
  exec cfg E (S k) (PIfNonAtomic p q) s = exec cfg E k (if atom_eqb (atomicity s) NonAtomic then p else q) s.
Proof. cbn [exec]. destruct (atom_eqb (atomicity s) NonAtomic); reflexivity. Qed.

Lemma exec_call k f q s : E f = Some q -> exec cfg E (S k) (PCall f) s = exec cfg E k q s.
Proof. intros Ef. cbn [exec]. rewrite Ef. reflexivity. Qed.

(* the eight combinators that bracket one run of their body (ExecInd.bracket_of): counting the call is the identity *)
Lemma exec_wrap k p b s : bracket_of p = Some b -> limit s = None ->
  exec cfg E (S k) p s = bind (exec cfg E k (b_body b) (b_enter b s)) (b_ok b s) (b_err b s).
Proof.
  intros B L. rewrite (exec_bracket cfg E k p b s B). unfold guard.
  destruct (b_counted b); [rewrite (inc_call_none s L)|]; reflexivity.
Qed.

Lemma runs_wrap p b s r : bracket_of p = Some b -> limit s = None -> runs (b_body b) (b_enter b s) r ->
  bind r (b_ok b s) (b_err b s) <> ROutOfFuel -> runs p s (bind r (b_ok b s) (b_err b s)).
Proof. intros B L. exact (runs_step (fin := fun x => bind x (b_ok b s) (b_err b s)) (fun k => exec_wrap k p b s B L)). Qed.

Lemma halts_wrap p b s m : bracket_of p = Some b -> limit s = None -> halts (S m) p s -> halts m (b_body b) (b_enter b s).
Proof. intros B L. apply (halts_step (fin := fun x => bind x (b_ok b s) (b_err b s)) (fun k => exec_wrap k p b s B L)). intros [| | |] H; exact H || exact I. Qed.

Lemma exec_repeat k p s : limit s = None -> exec cfg E (S k) (PRepeat p) s = exec cfg E k (PRepeatLoop p) s.
Proof. intros L. rewrite (exec_wrap k (PRepeat p) _ s eq_refl L). apply bind_ret. Qed.

(* the repetition loop is `optional (body ; loop)`, one step of fuel apart *)
Lemma loop_no_err : forall k p s s', exec cfg E k (PRepeatLoop p) s <> RErr s'.
Proof. induction k as [|k IH]; intros p s s'; [discriminate|]. cbn [exec]. destruct (exec cfg E k p s); try discriminate. apply IH. Qed.

Lemma exec_loop_unfold k p s : limit s = None ->
  exec cfg E (S k) (POptional (PAndThen p (PRepeatLoop p))) s = exec cfg E k (PRepeatLoop p) s.
Proof.
  intros L. rewrite (exec_wrap k (POptional _) _ s eq_refl L). cbn [b_body b_enter b_ok b_err].
  destruct k as [|k]; [reflexivity|]. cbn [exec]. destruct (exec cfg E k p s) as [s1| | |]; try reflexivity.
  pose proof (loop_no_err k p s1) as N. cbn [bind]. destruct (exec cfg E k (PRepeatLoop p) s1) as [x|x| |]; try reflexivity. now elim (N x).
Qed.

Definition la_state (b : bool) (s : pst) : pst := checkpoint (set_lookahead s (enter_lookahead b (lookahead s))).
Definition at_enter (a : atom) (s : pst) : pst := if negb (atom_eqb (atomicity s) a) then set_atomicity s a else s.
Definition at_leave (a : atom) (s s' : pst) : pst := if negb (atom_eqb (atomicity s) a) then set_atomicity s' (atomicity s) else s'.

End Mono.
