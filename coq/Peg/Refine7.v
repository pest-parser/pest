(* C01, part 7: identifiers (hard-coded names, user rules of the five types incl. WHITESPACE/COMMENT,
   Unicode properties) under the induction hypothesis `sim_at f`.                                  *)
From Coq Require Import List Arith NArith ZArith Bool String Lia.
Import ListNotations.
Require Import PV.Iter.Queue PV.Iter.QueueFacts.
Require Import PV.Stack.Model PV.Stack.Proofs PV.Comb.PState PV.Comb.Bytes PV.Comb.Prog PV.Comb.Exec.
Require Import PV.Comb.Frame PV.Comb.Contracts PV.Comb.Utf8 PV.Comb.Utf8b PV.Comb.Utf8c.
Require Import PV.Peg.Ast PV.Peg.Spec PV.Peg.VmCompile.
Require Import PV.Peg.Refine0 PV.Peg.Refine1 PV.Peg.Refine2 PV.Peg.Refine3 PV.Peg.Refine4 PV.Peg.Refine5  PV.Peg.Refine6.

Section Sim.
Variable OG : ogrammar.
Variable extras : bool.
Variable uranges : name -> option (list (N * N)).
Variable pp : bool.
Variable cfg : config.
Variable w : list byte.
Hypothesis Hcfg : cfg_ok cfg.
Hypothesis HG : grammar_ok OG extras uranges pp.

Notation G := (embed_g OG).
Notation E := (vm_env OG uranges).
Notation ev := (eval G extras (uprop uranges) w).
Notation sim := (@sim cfg E pp w).
Notation vm_expr := (vm_expr OG uranges).
Notation vm_call := (vm_call OG uranges).
Notation in_fragment := (in_fragment OG extras uranges pp).
Notation K := (K OG).

Lemma HE : env_valid E.
Proof. apply env_valid_vm. apply (go_lits _ _ _ _ HG). Qed.

(* a failure leaves the stack alone: by the syntactic check at some depth, or in the semantic sense of C05 *)
Definition Cl (e : oexpr) : Prop := exists k, fclean OG k e = true.
Definition ClS (e : oexpr) : Prop := Cl e \/ sem_clean OG e.

Lemma sim_sem (C : Prop) e a emit p sg r m :
  sim (clean C) (vm_expr e) a emit p sg r m -> sim (clean (C \/ sem_clean OG e)) (vm_expr e) a emit p sg r m.
Proof.
  intros H s R. destruct (H s R) as [F B]. split; [|exact B]. intros N. destruct (F N) as (vr & R1 & S1).
  exists vr. split; [exact R1|].
  destruct vr as [s'|s'|k|]; cbn in *; auto. destruct S1 as (A0 & A1 & A2 & A3).
  split; [exact A0|]. split; [exact A1|]. split; [exact A2|]. intros [HC|HS]; [auto|].
  destruct R1 as [_ [m0 A]]. destruct (r_good R) as [W [a0 I0] _ _].
  exact (HS cfg uranges m0 s a0 s' W I0 A).
Qed.

(* both clauses at level n: Spec fuel n answers, and is answered by, VM fuel n *)
Definition sim_at (n : nat) : Prop :=
  forall e a emit p sg, in_fragment e = true -> rokP OG K e -> lits_valid e ->
    sim (clean (ClS e)) (vm_expr e) a emit p sg (ev n a emit (embed e) p sg) n.

Lemma eval_user f a emit n p sg : is_builtin n = false ->
  ev (S f) a emit (EIdent n) p sg =
  match find_orule OG n with
  | Some r => let '(tk, a2) := rule_mode (is_special n) (oty r) a emit in
              sres_node tk (orule_id OG n) p (ev f a2 emit (embed (oexpr_of r)) p sg)
  | None => match uranges n with Some rs => one_char w (in_ranges rs) p sg | None => SFail end
  end.
Proof.
  intros NB. cbn [eval]. skip_chain NB. unfold ascii_builtin. skip_chain NB.
  rewrite find_rule_embed. destruct (find_orule OG n) as [r|]; cbn [option_map].
  - cbn [rty rexpr embed_rule]. destruct (rule_mode _ _ _ _) as [tk a2]. rewrite rule_id_embed. unfold sres_node. destruct (eval _ _ _ _ _ _ _ _ _ _); reflexivity.
  - unfold uprop. destruct (uranges n); reflexivity.
Qed.

Lemma vm_call_user n : is_builtin n = false ->
  vm_call n = if has_orule OG n then PCall (orule_id OG n)
              else match uranges n with Some rs => PPrim (MMatchCharBy rs) | None => PCall (S (List.length OG)) end.
Proof. intros NB. unfold VmCompile.vm_call. skip_chain NB. destruct (has_orule OG n); reflexivity. Qed.

Lemma sres_node_false id p r : sres_node false id p r = r. Proof. destruct r; reflexivity. Qed.

Lemma sim_user f n a emit p sg : sim_at f -> is_builtin n = false -> ident_ok OG uranges pp n = true ->
  sim (clean (Cl (OIdent n))) (vm_call n) a emit p sg (ev (S f) a emit (EIdent n) p sg) (S f).
Proof.
  intros IH NB IO. rewrite (eval_user f a emit n p sg NB), (vm_call_user n NB).
  unfold ident_ok in IO. rewrite NB in IO. unfold has_orule in *.
  destruct (find_orule OG n) as [r|] eqn:Ef.
  - (* user rule *)
    destruct (find_orule_some OG n r Ef) as [Hin Hn].
    pose proof (go_frag _ _ _ _ HG r Hin) as Fr. pose proof (go_rok _ _ _ _ HG r Hin) as Ro.
    pose proof (go_lits _ _ _ _ HG r Hin) as Li.
    assert (CB : Cl (OIdent n) -> ClS (oexpr_of r)).
    { intros [k Hk]. left. destruct k as [|k]; cbn [Refine6.fclean fclean_e] in Hk; rewrite NB, Ef in Hk; [discriminate|exists k; exact Hk]. }
    assert (B : forall a2, sim (clean (Cl (OIdent n))) (vm_expr (oexpr_of r)) a2 emit p sg (ev f a2 emit (embed (oexpr_of r)) p sg) f).
    { intros a2. eapply sim_post; [intros s s'; apply clean_weaken, CB|]. apply IH; assumption. }
    apply (sim_call w _ _ (vm_rule_body OG uranges r)); [apply env_lookup; [apply (go_nodup _ _ _ _ HG)|exact Ef]|].
    unfold vm_rule_body. rewrite Hn. change (is_special_name n) with (is_special n).
    (* the node the Spec builds is the one `rule` emits under the atomicity the VM has set by then *)
    unfold rule_mode. destruct (is_special n), (oty r);
      repeat first [apply sim_atomic | apply sim_rule; [unfold tok; cbn; rewrite ?andb_true_r, ?andb_false_r; reflexivity|]];
      rewrite ?sres_node_false; apply B.
  - cbn [orb] in IO. destruct (uranges n) as [rs|]; [|discriminate]. apply sim_charby.
Qed.

Lemma cl_pop_false : Cl (OIdent (nm "POP")) -> False.
Proof. intros [[|k] Hk]; exact (diff_false_true Hk). Qed.
Lemma cl_pop_all_false : Cl (OIdent (nm "POP_ALL")) -> False.
Proof. intros [[|k] Hk]; exact (diff_false_true Hk). Qed.

Lemma newline_eq p sg :
  match lit w [10%N] p with Some q => SMatch q sg [] | None =>
  match lit w [13%N; 10%N] p with Some q => SMatch q sg [] | None =>
  match lit w [13%N] p with Some q => SMatch q sg [] | None => SFail end end end =
  sres_or (sres_or (match lit w [10%N] p with Some q => SMatch q sg [] | None => SFail end)
                   (match lit w [13%N; 10%N] p with Some q => SMatch q sg [] | None => SFail end))
          (match lit w [13%N] p with Some q => SMatch q sg [] | None => SFail end).
Proof. destruct (lit w [10%N] p), (lit w [13%N; 10%N] p), (lit w [13%N] p); reflexivity. Qed.

Lemma sim_builtin f n a emit p sg m : is_builtin n = true -> ident_ok OG uranges pp n = true ->
  sim (clean (Cl (OIdent n))) (vm_call n) a emit p sg (ev (S f) a emit (EIdent n) p sg) m.
Proof.
  intros B IO. unfold ident_ok in IO. rewrite B in IO.
  assert (HN : has_orule OG n = false) by (apply builtin_not_rule; [apply (go_names _ _ _ _ HG)|exact B]).
  unfold VmCompile.vm_call. rewrite HN. clear HN. pose proof HE as HE'.
  (* the VM's chain selects the program; from there on the name is a constant and the Spec's chain computes *)
  as_lookup. apply lookup_hit; [exact (builtin_in n B)|]. clear B.
  repeat apply Forall_cons; try apply Forall_nil; cbn [fst snd]; intros ->.
  - exact (sim_any w _ a emit p sg m).
  - (* EOI *) rewrite <- rule_id_embed. exact (sim_eoi w _ _ a emit p sg m).
  - exact (sim_soi w _ a emit p sg m).
  - (* PEEK *) apply (sim_peek w). intros _. cbn in IO. now rewrite orb_false_r in IO.
  - exact (sim_peek_all w _ a emit p sg m).
  - (* POP *) eapply sim_post; [intros s s'; apply clean_weaken, cl_pop_false|].
    apply (sim_pop w). intros _. cbn in IO. now rewrite orb_false_r in IO.
  - (* POP_ALL *) eapply sim_post; [intros s s'; apply clean_weaken, cl_pop_all_false|]. exact (sim_pop_all w a emit p sg m).
  - exact (sim_drop w _ a emit p sg m).
  - exact (sim_range w _ 48 57 a emit p sg m).
  - exact (sim_range w _ 49 57 a emit p sg m).
  - exact (sim_range w _ 48 49 a emit p sg m).
  - exact (sim_range w _ 48 55 a emit p sg m).
  - (* HEX *)
    exact (sim_class_or w Hcfg HE' _ (POrElse (prim_range 48 57) (prim_range 97 102)) _ (fun c => in_range 48 57 c || in_range 97 102 c) _ a emit p sg m (conj I I)
             (sim_class_or w Hcfg HE' _ (prim_range 48 57) _ _ _ a emit p sg m I (sim_range w _ 48 57 a emit p sg m) (sim_range w _ 97 102 a emit p sg m))
             (sim_range w _ 65 70 a emit p sg m)).
  - exact (sim_range w _ 97 122 a emit p sg m).
  - exact (sim_range w _ 65 90 a emit p sg m).
  - (* ALPHA *)
    exact (sim_class_or w Hcfg HE' _ (prim_range 97 122) _ _ _ a emit p sg m I (sim_range w _ 97 122 a emit p sg m) (sim_range w _ 65 90 a emit p sg m)).
  - (* ALPHANUMERIC *)
    exact (sim_class_or w Hcfg HE' _ (POrElse (prim_range 97 122) (prim_range 65 90)) _ (fun c => in_range 97 122 c || in_range 65 90 c) _ a emit p sg m (conj I I)
             (sim_class_or w Hcfg HE' _ (prim_range 97 122) _ _ _ a emit p sg m I (sim_range w _ 97 122 a emit p sg m) (sim_range w _ 65 90 a emit p sg m))
             (sim_range w _ 48 57 a emit p sg m)).
  - exact (sim_range w _ 0 127 a emit p sg m).
  - (* NEWLINE *)
    apply (sim_le w (S (S m))); [auto|]. eapply sim_eq; [symmetry; apply newline_eq|].
    apply (sim_orelse w Hcfg HE' True); [| exact I | | apply sim_str].
    + cbn. split; apply valid_ascii; repeat constructor.
    + apply (sim_le w (S m)); [auto|]. apply (sim_orelse w Hcfg HE' True); [| exact I | apply sim_str | apply sim_str].
      cbn. apply valid_ascii; repeat constructor.
Qed.

End Sim.
