(* C01, part 1: the token list `toks b f` of a forest on the reversed queue; the frame facts of any run
   (input/lookahead/atomicity/limit unchanged, wf, stack ghost, UTF-8 boundary) packaged in `run_inv`;
   what a body that ran from a checkpoint leaves to the exits of sequence, restore_on_err and
   look-ahead (`checkpoint_run`, `la_quiet`): stack CONTENTS and exact queues, no tag erasure.        *)
From Coq Require Import List Arith NArith ZArith Bool Lia.
Import ListNotations.
Require Import PV.Iter.Queue PV.Iter.QueueFacts.
Require Import PV.Stack.Model PV.Stack.Proofs PV.Comb.PState PV.Comb.Bytes PV.Comb.Prog PV.Comb.Exec.
Require Import PV.Comb.Frame PV.Comb.Contracts PV.Comb.Utf8 PV.Comb.Utf8b PV.Comb.Utf8c PV.Peg.Ast PV.Peg.Refine0.

Arguments Nat.sub : simpl never.
Arguments Nat.mul : simpl never.
Arguments Nat.ltb : simpl never.
Arguments Nat.leb : simpl never.
Arguments Nat.eqb : simpl never.
Arguments skipn : simpl never.
Arguments firstn : simpl never.

Definition unconv (t : Queue.qtoken) : qtoken :=
  match t with Queue.QStart e p => QStart e p | Queue.QEnd si r tg p => QEnd si r tg p end.
Definition conv (t : qtoken) : Queue.qtoken :=
  match t with QStart e p => Queue.QStart e p | QEnd si r tg p => Queue.QEnd si r tg p end.
Definition toks (b : nat) (f : list tree) : list qtoken := rev (map unconv (tokens_at b f)).

Lemma conv_unconv t : conv (unconv t) = t. Proof. destruct t; reflexivity. Qed.

Lemma toks_nil b : toks b [] = [].
Proof. reflexivity. Qed.

Lemma toks_app b f1 f2 : toks b (f1 ++ f2) = toks (b + 2 * fsize f1) f2 ++ toks b f1.
Proof. unfold toks. rewrite tokens_at_app, map_app, rev_app_distr. reflexivity. Qed.

Lemma toks_length b f : length (toks b f) = 2 * fsize f.
Proof. unfold toks. rewrite rev_length, map_length. apply length_tokens_at. Qed.

Lemma toks_node b r tg s e ch :
  toks b [Node r tg s e ch] = QEnd b r tg e :: toks (S b) ch ++ [QStart (S b + 2 * fsize ch) s].
Proof.
  unfold toks. rewrite tokens_at_cons. cbn [tokens_at]. cbn [map rev]. rewrite map_app, rev_app_distr.
  cbn [map rev app unconv]. reflexivity.
Qed.

Lemma toks_empty_inv b f : toks b f = [] -> f = [].
Proof.
  intros H. apply (f_equal (@length _)) in H. rewrite toks_length in H. cbn in H.
  destruct f as [|t f]; [reflexivity|]. cbn [fsize] in H. pose proof (tsize_pos t). lia.
Qed.

Lemma map_conv_rev_toks b f : map conv (rev (toks b f)) = tokens_at b f.
Proof.
  unfold toks. rewrite rev_involutive, map_map. rewrite <- (map_id (tokens_at b f)) at 2.
  apply map_ext. apply conv_unconv.
Qed.

Record good (s : pst) : Prop := {
  g_wf : wf s;
  g_inv : exists a : sspec, Inv (stack s) a;
  g_utf : utf8_ok s;
  g_lim : limit s = None }.

Record keeps (s s' : pst) : Prop := {
  k_input : input s' = input s;
  k_la : lookahead s' = lookahead s;
  k_at : atomicity s' = atomicity s;
  k_pos : pos s <= pos s' }.

Lemma keeps_refl s : keeps s s. Proof. split; auto. Qed.
Lemma keeps_trans s1 s2 s3 : keeps s1 s2 -> keeps s2 s3 -> keeps s1 s3.
Proof. intros [] []. split; try congruence. lia. Qed.

Lemma good_same s s' :
  good s -> input s' = input s -> pos s' = pos s -> stack s' = stack s -> limit s' = limit s -> good s'.
Proof.
  intros [W [a I] U L] E1 E2 E3 E4. split.
  - unfold wf in *. congruence.
  - exists a. congruence.
  - eapply utf8_ok_same; eauto. congruence.
  - congruence.
Qed.

Lemma good_checkpoint s : good s -> good (checkpoint s).
Proof.
  intros [W [a I] U L]. split; auto.
  - exists (ssnapshot a). cbn. now apply inv_snapshot.
Qed.

Section Know.
Variable cfg : config.
Variable E : env.
Hypothesis Hcfg : cfg_ok cfg.
Hypothesis HE : env_valid E.

Notation runs := (runs cfg E).

Lemma run_inv p s r : good s -> prog_valid p -> runs p s r ->
  match r with
  | ROk s' | RErr s' => good s' /\ keeps s s'
  | RPanic k => k <> PkInternal /\ k <> PkBoundary
  | ROutOfFuel => False
  end.
Proof.
  intros [W [a I] U L] V [N [m A]].
  pose proof (exec_post cfg E m p s a W I) as P. pose proof (exec_boundary cfg E Hcfg HE m p s a V W I U) as B.
  rewrite A in P, B. destruct r as [s'|s'|k|]; cbn in P, B; try congruence.
  - destruct P as (F & W' & a' & I' & _). destruct F. split; [split; eauto; congruence|split; auto].
  - destruct P as (F & W' & a' & I' & _). destruct F. split; [split; eauto; congruence|split; auto].
  - split; assumption.
Qed.

Lemma run_ghost p s a r : wf s -> Inv (stack s) a -> runs p s r ->
  match r with
  | ROk s' | RErr s' => exists a', Inv (stack s') a' /\ snaps a' = snaps a
  | _ => True
  end.
Proof.
  intros W I [N [m A]]. pose proof (exec_post cfg E m p s a W I) as P. rewrite A in P.
  destruct r as [s'|s'|k|]; cbn in P; auto; destruct P as (_ & _ & a' & I' & S'); eauto.
Qed.

(* after the body, the snapshot taken at the start can be dropped (contents as the body left them)
   or restored (contents as at the start) *)
Lemma checkpoint_run p s s0 s' (okb : bool) : good s -> wf s0 -> stack s0 = snapshot (stack s) ->
  runs p s0 (if okb then ROk s' else RErr s') ->
  (exists st, clear_snapshot (stack s') = Some st /\ cache st = cache (stack s')) /\
  (exists st, restore (stack s') = Some st /\ cache st = cache (stack s)).
Proof.
  intros [W [a I] U L] W0 E0 R.
  assert (I1 : Inv (stack s0) (ssnapshot a)) by (rewrite E0; now apply inv_snapshot).
  assert (GH : exists a', Inv (stack s') a' /\ snaps a' = snaps (ssnapshot a))
    by (pose proof (run_ghost p s0 _ _ W0 I1 R) as GH; destruct okb; exact GH).
  destruct GH as (a' & I' & S'). split.
  - destruct (inv_clear I') as (st & Ec & I2). exists st. split; [exact Ec|].
    rewrite (inv_cache _ _ I2), (inv_cache _ _ I'). reflexivity.
  - destruct (inv_restore I') as (st & Er & I2). exists st. split; [exact Er|].
    rewrite (inv_cache _ _ I2). unfold srestore. rewrite S'. cbn. symmetry. now apply inv_cache.
Qed.

Lemma good_la_state b s : good s -> good (la_state b s).
Proof.
  intros [W [a I] U L]. split; auto.
  exists (ssnapshot a). cbn. now apply inv_snapshot.
Qed.

(* under look-ahead the queue is not touched at all (Contracts.exec_quiet) *)
Lemma la_quiet b p s s' (okb : bool) : good s -> runs p (la_state b s) (if okb then ROk s' else RErr s') -> queue s' = queue s.
Proof.
  intros [W [a I] U L] [_ [m A]].
  apply (exec_quiet cfg E m p (la_state b s) (ssnapshot a) s' W); [cbn; now apply inv_snapshot| |].
  - cbn. destruct b, (lookahead s); cbn; congruence.
  - destruct okb; [left|right]; exact A.
Qed.

End Know.
