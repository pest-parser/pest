(* str_eqb (the derived PartialEq on names and literals) decides equality. *)
From Coq Require Import List NArith Bool.
Import ListNotations.
Require Import PV.Comb.PState PV.Peg.Ast.

Lemma str_eqb_eq a b : str_eqb a b = true <-> a = b.
Proof.
  revert b. induction a as [|x a IH]; intros [|y b]; cbn; split; intros H; try congruence; try discriminate; auto.
  - apply andb_true_iff in H. destruct H as [H1 H2]. apply N.eqb_eq in H1. apply IH in H2. congruence.
  - inversion H; subst. rewrite N.eqb_refl. cbn. now apply IH.
Qed.
Lemma str_eqb_refl a : str_eqb a a = true.
Proof. now apply str_eqb_eq. Qed.
Lemma str_eqb_neq a b : str_eqb a b = false <-> a <> b.
Proof.
  split; intros H.
  - intros E. apply str_eqb_eq in E. congruence.
  - destruct (str_eqb a b) eqn:E; auto. apply str_eqb_eq in E. contradiction.
Qed.
Lemma str_eqb_sym a b : str_eqb a b = str_eqb b a.
Proof.
  destruct (str_eqb a b) eqn:E.
  - apply str_eqb_eq in E. subst. now rewrite str_eqb_refl.
  - symmetry. apply str_eqb_neq. apply str_eqb_neq in E. congruence.
Qed.

Lemma find_rule_In G n r : find_rule G n = Some r -> In r G /\ rname r = n.
Proof.
  induction G as [|x G IH]; cbn; [discriminate|].
  destruct (find_rule G n) as [y|] eqn:E.
  - intros H. inversion H; subst. destruct (IH eq_refl) as [H1 H2]. auto.
  - destruct (str_eqb (rname x) n) eqn:E2; [|discriminate].
    intros H. inversion H; subst. apply str_eqb_eq in E2. auto.
Qed.
