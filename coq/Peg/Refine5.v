(* C01, part 5: the primitives against their Spec clauses, through Comb.ExecInd.prim_act: strings,
   character classes, SOI/EOI, skip_until, and the stack operations.                               *)
From Coq Require Import List Arith NArith ZArith Bool Lia.
Import ListNotations.
Require Import PV.Iter.Queue PV.Iter.QueueFacts.
Require Import PV.Stack.Model PV.Stack.Proofs PV.Comb.PState PV.Comb.Bytes PV.Comb.Prog PV.Comb.Exec.
Require Import PV.Comb.ExecInd PV.Comb.Frame PV.Comb.Contracts PV.Comb.Utf8 PV.Comb.Utf8b PV.Comb.Utf8c.
Require Import PV.Peg.Ast PV.Peg.Spec PV.Peg.Refine0 PV.Peg.Refine1 PV.Peg.Refine2 PV.Peg.Refine3 PV.Peg.Refine4.

Section Prims.
Context {cfg : config} {E : env} {pp : bool}.
Variable w : list byte.
Hypothesis Hcfg : cfg_ok cfg.
Hypothesis HE : env_valid E.

Notation rep := (rep w).
Notation sim := (@sim cfg E pp w).

Lemma rep_boundary {a emit p sg s} : rep a emit p sg s -> boundaryb w p = true.
Proof. intros [[_ _ (_ & B & _) _] I _ _ P _]. rewrite <- I, <- P. exact B. Qed.

Lemma sim_prim_gen (C : Prop) o a emit p sg p' sg' m :
  (forall s, rep a emit p sg s -> exists s', exec_prim cfg o s = ROk s' /\ pos s' = p' /\ queue s' = queue s /\
                                             cache (stack s') = sg') ->
  sim (clean C) (PPrim o) a emit p sg (SMatch p' sg' []) m.
Proof.
  intros H. apply sim_prim; [discriminate|]. intros s R. destruct (H s R) as (s' & -> & B1 & B2 & B3).
  cbn. rewrite B2. auto.
Qed.

Lemma sim_prim_err (C : Prop) o a emit p sg m :
  (forall s, rep a emit p sg s -> exists s', exec_prim cfg o s = RErr s' /\ pos s' = pos s /\ queue s' = queue s /\
                                             (C -> cache (stack s') = cache (stack s))) ->
  sim (clean C) (PPrim o) a emit p sg SFail m.
Proof.
  intros H. apply sim_prim; [discriminate|]. intros s R. destruct (H s R) as (s' & -> & B). split; [reflexivity|exact B].
Qed.

Lemma sim_prim_panic (C : Prop) o a emit p sg m : pp = true ->
  (forall s, rep a emit p sg s -> exec_prim cfg o s = RPanic PkEmptyStack) ->
  sim (clean C) (PPrim o) a emit p sg SFail m.
Proof. intros Hpp H. apply sim_prim; [discriminate|]. intros s R. rewrite (H s R). cbn. auto. Qed.

(* Every primitive but the node tag replaces the stack and applies a `pres` (ExecInd.prim_act): it is enough to
   compute both from input, position and stack contents.  A primitive that panics (PPanic, the boundary panic)
   is given the Spec result SFuel, about which `sim` claims nothing. *)
Lemma sim_act (C : Prop) o pr t a emit p sg sg' m :
  (forall s, rep a emit p sg s -> exists st', prim_act cfg o w p (stack s) = APres st' pr t /\ cache st' = sg') ->
  (pr = PStay -> C -> sg' = sg) ->
  sim (clean C) (PPrim o) a emit p sg (match pr with PMoved q => SMatch q sg' [] | PStay => SFail | PPanic => SFuel end) m.
Proof.
  intros H HC.
  assert (Hx : forall s, rep a emit p sg s -> exists st', exec_prim cfg o s = apply_pres (set_stack s st') pr t /\ cache st' = sg').
  { intros s R. destruct (H s R) as (st' & A & B). exists st'. rewrite exec_prim_act, (r_input R), (r_pos R), A. auto. }
  destruct pr as [q| |].
  - apply sim_prim_gen. intros s R. destruct (Hx s R) as (st' & -> & B).
    destruct (apply_pres_moved (set_stack s st') q t) as (s' & A & B1 & B2 & B3). exists s'. rewrite B3. cbn. auto.
  - apply sim_prim_err. intros s R. destruct (Hx s R) as (st' & -> & B).
    destruct (apply_pres_stay (set_stack s st') t) as (s' & A & B1 & B2 & B3). exists s'. rewrite B3. cbn.
    split; [exact A|]. split; [exact B1|]. split; [exact B2|]. intros c. rewrite B, (HC eq_refl c). symmetry. apply (r_stack R).
  - intros s R. split; [congruence|]. intros (k & _ & A). destruct k; [destruct A|]. cbn [exec] in A.
    destruct (Hx s R) as (st' & E' & _). rewrite E' in A. destruct A.
Qed.

Lemma sim_pres (C : Prop) o t (pr : pres) a emit p sg m :
  (forall st, prim_act cfg o w p st = APres st pr t) ->
  sim (clean C) (PPrim o) a emit p sg (match pr with PMoved p' => SMatch p' sg [] | PStay => SFail | PPanic => SFuel end) m.
Proof. intros H. apply (sim_act C o pr t); [|reflexivity]. intros s R. exists (stack s). split; [apply H|apply (r_stack R)]. Qed.

Lemma pres_lit (x : str) p (sg : list str) :
  match match_string w p x with PMoved q => SMatch q sg [] | PStay => SFail | PPanic => SFuel end =
  match lit w x p with Some q => SMatch q sg [] | None => SFail end.
Proof. unfold match_string, lit. destruct (prefixb _ _); reflexivity. Qed.

(* `rep` is inhabited wherever `sim` says something: the position is a character boundary *)
Lemma sim_at_boundary Q q a emit p sg r m :
  (boundaryb w p = true -> sim Q q a emit p sg r m) -> sim Q q a emit p sg r m.
Proof. intros H s R. exact (H (rep_boundary R) s R). Qed.

Lemma sim_str (C : Prop) str a emit p sg m :
  sim (clean C) (PPrim (MMatchString str)) a emit p sg (match lit w str p with Some q => SMatch q sg [] | None => SFail end) m.
Proof.
  eapply sim_eq; [|apply (sim_pres C _ (Some (TSens str)) (match_string w p str))].
  - apply pres_lit.
  - reflexivity.
Qed.

Lemma sim_insens (C : Prop) str a emit p sg m :
  sim (clean C) (PPrim (MMatchInsens str)) a emit p sg
    (if boundaryb w (p + length str) && prefixb_ci str (skipn p w) then SMatch (p + length str) sg [] else SFail) m.
Proof.
  apply sim_at_boundary. intros B. eapply sim_eq; [|apply (sim_pres C _ (Some (TInsens str)) (match_insensitive w p str))].
  - unfold match_insensitive. rewrite B. destruct (_ && _); reflexivity.
  - reflexivity.
Qed.

Lemma sim_range (C : Prop) lo hi a emit p sg m :
  sim (clean C) (PPrim (MMatchRange lo hi)) a emit p sg (one_char w (in_range lo hi) p sg) m.
Proof.
  apply sim_at_boundary. intros B. eapply sim_eq; [|apply (sim_pres C _ (Some (TRange lo hi)) (match_range w p lo hi))].
  - unfold match_range, char_at, one_char, char_here, in_range. rewrite B.
    destruct (decode1 _) as [[c n]|]; [destruct (_ && _)|]; reflexivity.
  - reflexivity.
Qed.

Lemma sim_charby (C : Prop) rs a emit p sg m :
  sim (clean C) (PPrim (MMatchCharBy rs)) a emit p sg (one_char w (in_ranges rs) p sg) m.
Proof.
  apply sim_at_boundary. intros B. eapply sim_eq; [|apply (sim_pres C _ (Some TBuiltin) (match_char_by w p rs))].
  - unfold match_char_by, char_at, one_char, char_here. rewrite B.
    destruct (decode1 _) as [[c n]|]; [destruct (in_ranges rs c)|]; reflexivity.
  - reflexivity.
Qed.

Lemma sim_any (C : Prop) a emit p sg m :
  sim (clean C) (PPrim (MSkip 1)) a emit p sg (one_char w (fun _ => true) p sg) m.
Proof.
  apply sim_at_boundary. intros B. eapply sim_eq; [|apply (sim_pres C _ None (skip w p 1))].
  - unfold skip, one_char, char_here. rewrite B. cbn [skip_len].
    destruct (decode1 _) as [[c n]|]; [rewrite Nat.add_0_r|]; reflexivity.
  - reflexivity.
Qed.

Lemma one_char_or ok1 ok2 p sg :
  one_char w (fun c => ok1 c || ok2 c) p sg = sres_or (one_char w ok1 p sg) (one_char w ok2 p sg).
Proof.
  unfold one_char. destruct (char_here w p) as [[c n]|]; [|reflexivity].
  destruct (ok1 c); cbn; [reflexivity|]. reflexivity.
Qed.

Lemma sim_class_or (C : Prop) q1 q2 ok1 ok2 a emit p sg m : prog_valid q1 ->
  sim (clean True) q1 a emit p sg (one_char w ok1 p sg) m -> sim (clean C) q2 a emit p sg (one_char w ok2 p sg) m ->
  sim (clean C) (POrElse q1 q2) a emit p sg (one_char w (fun c => ok1 c || ok2 c) p sg) m.
Proof.
  intros V H1 H2. rewrite one_char_or. apply (sim_le w (S m)); [auto|].
  exact (sim_orelse w Hcfg HE True C q1 q2 a emit p sg _ _ m V I H1 H2).
Qed.

Lemma sim_soi (C : Prop) a emit p sg m :
  sim (clean C) (PPrim MSoi) a emit p sg (if Nat.eqb p 0 then SMatch p sg [] else SFail) m.
Proof.
  eapply sim_eq; [|apply (sim_pres C _ None (if Nat.eqb p 0 then PMoved p else PStay)); reflexivity].
  destruct (Nat.eqb p 0); reflexivity.
Qed.

Lemma sim_eoi (C : Prop) id a emit p sg m :
  sim (clean C) (PRule id (PPrim MEoi)) a emit p sg
    (if Nat.eqb p (length w) then SMatch p sg (if tok a emit then [Node id None p p []] else []) else SFail) m.
Proof.
  apply (sim_eq w _ _ _ _ _ _ (sres_node (tok a emit) id p (if Nat.eqb p (length w) then SMatch p sg [] else SFail))).
  { destruct (Nat.eqb p (length w)); reflexivity. }
  apply sim_rule; [reflexivity|].
  eapply sim_eq; [|apply (sim_pres C _ None (if Nat.eqb p (length w) then PMoved p else PStay)); reflexivity].
  destruct (Nat.eqb p (length w)); reflexivity.
Qed.

Lemma sim_skip_until (C : Prop) ss a emit p sg m : Forall valid_utf8 ss ->
  sim (clean C) (PPrim (MSkipUntil ss)) a emit p sg (SMatch (skip_until_basic w p ss) sg []) m.
Proof.
  intros Vs. apply sim_at_boundary. intros B.
  eapply sim_eq; [|apply (sim_pres C _ None (match skip_until cfg w p ss with None => PPanic | Some q => PMoved q end)); reflexivity].
  rewrite (skip_until_eq_basic cfg w p ss Hcfg B Vs). reflexivity.
Qed.

Lemma sim_push_lit (C : Prop) str a emit p sg m :
  sim (clean C) (PPrim (MStackPushLit str)) a emit p sg (SMatch p (str :: sg) []) m.
Proof.
  apply (sim_act C _ (PMoved p) None); [|discriminate]. intros s R. eexists. split; [reflexivity|]. cbn. now rewrite (r_stack R).
Qed.

Lemma match_all_lit_all l : forall p, match_all w p l = lit_all w l p.
Proof.
  induction l as [|x l IH]; intros p; [reflexivity|]. cbn [match_all lit_all]. unfold match_string, lit.
  destruct (prefixb x (skipn p w)); [apply IH|reflexivity].
Qed.

Lemma pop_rep a emit p sg s : rep a emit p sg s ->
  pop (stack s) = (fst (pop (stack s)), hd_error sg) /\ cache (fst (pop (stack s))) = tl sg.
Proof.
  intros R. destruct (pop_cache (stack s)) as [P1 P2]. rewrite (r_stack R) in P1, P2.
  split; [rewrite (surjective_pairing (pop (stack s))) at 1; rewrite P2; reflexivity|exact P1].
Qed.

Lemma sim_peek (C : Prop) a emit p sg m : (sg = [] -> pp = true) ->
  sim (clean C) (PPrim MStackPeek) a emit p sg
    (match sg with top :: _ => match lit w top p with Some q => SMatch q sg [] | None => SFail end | [] => SFail end) m.
Proof.
  intros Hpp. destruct sg as [|top rest].
  - apply sim_prim_panic; [auto|]. intros s R. cbn [exec_prim]. unfold peek. rewrite (r_stack R). reflexivity.
  - rewrite <- pres_lit. apply (sim_act C _ _ (Some (TSens top))); [|reflexivity]. intros s R. exists (stack s).
    split; [|apply (r_stack R)]. cbn [prim_act]. unfold peek. rewrite (r_stack R). reflexivity.
Qed.

(* POP: on a mismatch the stack stays popped, so the failure is not clean *)
Lemma sim_pop a emit p sg m : (sg = [] -> pp = true) ->
  sim (clean False) (PPrim MStackPop) a emit p sg
    (match sg with top :: r => match lit w top p with Some q => SMatch q r [] | None => SFail end | [] => SFail end) m.
Proof.
  intros Hpp. destruct sg as [|top rest].
  - apply sim_prim_panic; [auto|]. intros s R. cbn [exec_prim]. rewrite (proj1 (pop_rep _ _ _ _ _ R)). reflexivity.
  - rewrite <- pres_lit. apply (sim_act False _ _ (Some (TSens top))); [|contradiction]. intros s R.
    destruct (pop_rep _ _ _ _ _ R) as [P1 P2]. exists (fst (pop (stack s))). split; [|exact P2].
    cbn [prim_act]. rewrite P1. reflexivity.
Qed.

Lemma sim_drop (C : Prop) a emit p sg m :
  sim (clean C) (PPrim MStackDrop) a emit p sg (match sg with _ :: r => SMatch p r [] | [] => SFail end) m.
Proof.
  destruct sg as [|top rest].
  - apply (sim_act C _ PStay None _ _ _ [] []); [|reflexivity]. intros s R. exists (stack s). split; [|apply (r_stack R)].
    cbn [prim_act]. rewrite (proj1 (pop_rep _ _ _ _ _ R)). reflexivity.
  - apply (sim_act C _ (PMoved p) None); [|discriminate]. intros s R.
    destruct (pop_rep _ _ _ _ _ R) as [P1 P2]. exists (fst (pop (stack s))). split; [|exact P2].
    cbn [prim_act]. rewrite P1. reflexivity.
Qed.

Definition slice_res (i : Z) (j : option Z) (d : dir) (p : nat) (sg : list (list byte)) : sres :=
  match constrain_idxs i j (length sg) with
  | None => SFail
  | Some (a0, b0) =>
    if Nat.leb b0 a0 then SMatch p sg []
    else match lit_all w (match d with BottomToTop => vslice a0 b0 sg | TopToBottom => rev (vslice a0 b0 sg) end) p with
         | Some q => SMatch q sg []
         | None => SFail
         end
  end.

Lemma sim_slice (C : Prop) o i j d a emit p (sg : list (list byte)) m :
  (forall inp q st, prim_act cfg o inp q st = APres st (slice_pres inp q st i j d) None) ->
  sim (clean C) (PPrim o) a emit p sg (slice_res i j d p sg) m.
Proof.
  intros Ho s0 R0. apply (fun H : sim (clean C) (PPrim o) a emit p sg (slice_res i j d p sg) m => H s0 R0).
  eapply sim_eq; [|apply (sim_act C o (slice_pres w p (stack s0) i j d) None a emit p sg sg); [|reflexivity]].
  - unfold slice_pres, slice_res. rewrite (r_stack R0). destruct (constrain_idxs _ _ _) as [[a0 b0]|]; [|reflexivity].
    destruct (Nat.leb b0 a0); [reflexivity|]. cbv zeta. rewrite match_all_lit_all. destruct (lit_all _ _ _); reflexivity.
  - intros s R. exists (stack s). split; [|apply (r_stack R)]. rewrite Ho. unfold slice_pres.
    rewrite (r_stack R), (r_stack R0). reflexivity.
Qed.

Lemma sim_peek_slice (C : Prop) i j d a emit p (sg : list (list byte)) m :
  sim (clean C) (PPrim (MPeekSlice i j d)) a emit p sg (slice_res i j d p sg) m.
Proof. apply sim_slice. reflexivity. Qed.

Lemma spec_peek_slice i j p (sg : list (list byte)) :
  (let len := length sg in
   match norm_idx i len, (match j with None => Some len | Some j' => norm_idx j' len end) with
   | Some s0, Some e0 =>
       if Nat.leb e0 s0 then SMatch p sg []
       else match lit_all w (firstn (e0 - s0) (skipn s0 (rev sg))) p with Some q => SMatch q sg [] | None => SFail end
   | _, _ => SFail
   end) = slice_res i j BottomToTop p sg.
Proof.
  cbv zeta. unfold slice_res, constrain_idxs. change (normalize_index i (length sg)) with (norm_idx i (length sg)).
  destruct (norm_idx i (length sg)) as [s0|]; [|reflexivity].
  destruct j as [j'|].
  - change (normalize_index j' (length sg)) with (norm_idx j' (length sg)).
    destruct (norm_idx j' (length sg)) as [e0|]; reflexivity.
  - reflexivity.
Qed.

(* PEEK_ALL = PEEK[0..] from the top *)
Lemma spec_peek_all p (sg : list (list byte)) :
  match lit_all w sg p with Some q => SMatch q sg [] | None => SFail end = slice_res 0%Z None TopToBottom p sg.
Proof.
  unfold slice_res, constrain_idxs, normalize_index.
  destruct (Z.ltb_spec (Z.of_nat (length sg)) 0); [lia|]. cbn [Z.leb Z.compare Z.to_nat].
  destruct (Nat.leb (length sg) 0) eqn:Le.
  - apply Nat.leb_le in Le. destruct sg; [reflexivity|cbn in Le; lia].
  - unfold vslice. rewrite Nat.sub_0_r. change (skipn 0 (rev sg)) with (rev sg).
    rewrite <- rev_length, firstn_all, rev_involutive. reflexivity.
Qed.

Lemma sim_peek_all (C : Prop) a emit p sg m :
  sim (clean C) (PPrim MStackMatchPeek) a emit p sg (match lit_all w sg p with Some q => SMatch q sg [] | None => SFail end) m.
Proof.
  rewrite spec_peek_all. apply sim_slice. reflexivity.
Qed.

Lemma match_pop_loop_spec : forall fuel (st : stk (list byte)) p, length (cache st) < fuel ->
  match lit_all w (cache st) p with
  | Some q => exists st', match_pop_loop fuel w st p = Some (st', q, true) /\ cache st' = []
  | None => exists st' p', match_pop_loop fuel w st p = Some (st', p', false)
  end.
Proof.
  induction fuel as [|fuel IH]; intros st p Hl; [lia|]. cbn [match_pop_loop].
  destruct (pop_cache st) as [P1 P2]. destruct (pop st) as [st1 o]. cbn [fst snd] in P1, P2.
  destruct (cache st) as [|x c] eqn:Ec; cbn in P2; subst o.
  - cbn [lit_all]. exists st1. cbn in P1. auto.
  - cbn [lit_all]. unfold match_string, lit. destruct (prefixb x (skipn p w)).
    + cbn in P1. specialize (IH st1 (p + length x)). rewrite P1 in IH. apply IH. cbn in Hl. lia.
    + eauto.
Qed.

Lemma sim_pop_all a emit p sg m :
  sim (clean False) (PPrim MStackMatchPop) a emit p sg (match lit_all w sg p with Some q => SMatch q [] [] | None => SFail end) m.
Proof.
  assert (M : forall s, rep a emit p sg s -> _) by
    (intros s R; exact (match_pop_loop_spec (S (length (cache (stack s)))) (stack s) p (Nat.lt_succ_diag_r _))).
  destruct (lit_all w sg p) as [q|] eqn:La.
  - apply (sim_act False _ (PMoved q) None a emit p sg []); [|discriminate]. intros s R. specialize (M s R).
    rewrite (r_stack R), La in M. destruct M as (st' & M & Hc). exists st'. split; [|exact Hc].
    cbn [prim_act]. rewrite (r_stack R), M. reflexivity.
  - apply sim_prim_err. intros s R. specialize (M s R). rewrite (r_stack R), La in M. destruct M as (st' & p' & M).
    cbn [exec_prim]. rewrite (r_input R), (r_stack R), (r_pos R), M.
    eexists. split; [reflexivity|]. cbn. split; [apply (r_pos R)|]. split; [reflexivity|contradiction].
Qed.

End Prims.
