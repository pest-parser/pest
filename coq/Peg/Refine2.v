(* C01, part 2: rule(), atomic() and `apply_pres`: exact effect on position, queue and stack when the
   sub-run is known.                                                                               *)
From Coq Require Import List Arith NArith ZArith Bool Lia.
Import ListNotations.
Require Import PV.Iter.Queue PV.Iter.QueueFacts.
Require Import PV.Stack.Model PV.Stack.Proofs PV.Comb.PState PV.Comb.Bytes PV.Comb.Prog PV.Comb.Exec.
Require Import PV.Comb.Frame PV.Comb.Contracts PV.Comb.Utf8 PV.Comb.Utf8b PV.Comb.Utf8c PV.Peg.Ast.
Require Import PV.Peg.Refine0 PV.Peg.Refine1.

Section Know2.
Variable cfg : config.
Variable E : env.

Notation runs := (runs cfg E).

Lemma rule_enter_facts s :
  let s2 := snd (rule_enter s) in
  queue s2 = (if emits s then QStart 0 (pos s) :: queue s else queue s) /\
  input s2 = input s /\ pos s2 = pos s /\ lookahead s2 = lookahead s /\ atomicity s2 = atomicity s /\
  stack s2 = stack s /\ limit s2 = limit s.
Proof.
  destruct (rule_enter_spec s) as (_ & _ & _ & _ & Q & SQ). cbv zeta in *. destruct SQ. repeat split; auto.
Qed.

Lemma good_rule_enter s : good s -> good (snd (rule_enter s)).
Proof.
  intros G. destruct (rule_enter_facts s) as (_ & e1 & e2 & _ & _ & e3 & e4). eapply good_same; eauto.
Qed.

(* what rule_ok / rule_err do to position, stack and queue of the body's final state; they only panic
   where `set_start_end` or the call-stack bookkeeping would *)
Lemma rule_ok_inv rule fr s :
  match rule_ok rule fr s with
  | ROk s' => pos s' = pos s /\ stack s' = stack s /\
              (if emits s
               then exists q, set_start_end (queue s) (rf_index fr) (length (queue s)) = Some q /\
                              queue s' = QEnd (rf_index fr) rule None (pos s) :: q
               else queue s' = queue s)
  | RPanic k => k = PkInternal
  | _ => False
  end.
Proof.
  unfold rule_ok. set (s1 := if lk_eqb (lookahead s) LNeg then _ else s).
  assert (T : same_but_attempts s s1) by (unfold s1; destruct (lk_eqb _ _); [apply track_same|split; reflexivity]).
  dtr T. rewrite (emits_frame s s1 t_la0 t_at0), t_queue0, t_pos0.
  assert (FIN : forall s2 y, pa_enabled s2 = pa_enabled s1 ->
            (if pa_enabled s1 then try_add_rule_to_stack s2 rule (rf_csn fr) (rf_max fr) else Some s2) = Some y ->
            pos y = pos s2 /\ stack y = stack s2 /\ queue y = queue s2).
  { intros s2 y _ Hy. destruct (pa_enabled s1); [apply try_add_rule_to_stack_core in Hy|injection Hy as <-; auto].
    rewrite (c_pos _ _ Hy), (c_stack _ _ Hy), (c_queue _ _ Hy). auto. }
  destruct (emits s).
  - destruct (set_start_end _ _ _) as [q|]; [|reflexivity]. set (s2 := set_queue s1 _).
    change (pa_enabled s2) with (pa_enabled s1).
    destruct (if pa_enabled s1 then try_add_rule_to_stack s2 rule (rf_csn fr) (rf_max fr) else Some s2) as [y|] eqn:Ey.
    + destruct (FIN s2 y eq_refl Ey) as (e1 & e2 & e3).
      destruct (pa_enabled s1); [rewrite Ey|injection Ey as <-]; cbn [lift]; rewrite ?e1, ?e2, ?e3; cbn; eauto.
    + destruct (pa_enabled s1); [rewrite Ey; reflexivity|discriminate].
  - destruct (if pa_enabled s1 then try_add_rule_to_stack s1 rule (rf_csn fr) (rf_max fr) else Some s1) as [y|] eqn:Ey.
    + destruct (FIN s1 y eq_refl Ey) as (e1 & e2 & e3).
      destruct (pa_enabled s1); [rewrite Ey|injection Ey as <-]; cbn [lift]; rewrite ?e1, ?e2, ?e3; auto.
    + destruct (pa_enabled s1); [rewrite Ey; reflexivity|discriminate].
Qed.

Lemma rule_err_inv rule fr s :
  match rule_err rule fr s with
  | RErr s' => pos s' = pos s /\ stack s' = stack s /\
               queue s' = (if emits s then vtruncate (rf_index fr) (queue s) else queue s)
  | RPanic k => k = PkInternal
  | _ => False
  end.
Proof.
  unfold rule_err.
  assert (FIN : forall y, pos y = pos s -> stack y = stack s -> queue y = queue s -> lookahead y = lookahead s ->
            atomicity y = atomicity s ->
            let z := (if emits y then set_queue y (vtruncate (rf_index fr) (queue y)) else y) in
            pos z = pos s /\ stack z = stack s /\ queue z = (if emits s then vtruncate (rf_index fr) (queue s) else queue s)).
  { intros y e1 e2 e3 e4 e5. rewrite (emits_frame s y e4 e5). destruct (emits s); cbn; rewrite ?e3; auto. }
  destruct (negb (lk_eqb (lookahead s) LNeg)); [|apply FIN; reflexivity].
  set (t := track s rule (rf_pos fr) (rf_pai fr) (rf_nai fr) (rf_attempts fr)).
  pose proof (track_same s rule (rf_pos fr) (rf_pai fr) (rf_nai fr) (rf_attempts fr)) as T. fold t in T. dtr T.
  destruct (pa_enabled t); [|now apply FIN].
  destruct (try_add_rule_to_stack t rule (rf_csn fr) (rf_max fr)) as [y|] eqn:Ey; [|reflexivity].
  apply try_add_rule_to_stack_core in Ey.
  apply FIN; [rewrite (c_pos _ _ Ey)|rewrite (c_stack _ _ Ey)|rewrite (c_queue _ _ Ey)|rewrite (c_la _ _ Ey)|rewrite (c_at _ _ Ey)];
    assumption.
Qed.

Lemma rule_body_run rule p s sb (okb : bool) : good s -> runs p (snd (rule_enter s)) (if okb then ROk sb else RErr sb) ->
  emits sb = emits s /\ (rule_ok rule (fst (rule_enter s)) sb <> RPanic PkInternal) /\
  (rule_err rule (fst (rule_enter s)) sb <> RPanic PkInternal).
Proof.
  intros [W [a I] U L] R.
  destruct (rule_enter_spec s) as (Rp & Ri & Rc & Rm & Q & SQ). cbv zeta in *. dsq SQ.
  assert (W2 : wf (snd (rule_enter s))) by (unfold wf in *; congruence).
  assert (I2 : Inv (stack (snd (rule_enter s))) a) by (rewrite q_stack0; exact I).
  assert (P : post (snd (rule_enter s)) a (ROk sb)).
  { destruct R as [_ [m A]]. pose proof (exec_post cfg E m p _ a W2 I2) as P. rewrite A in P. destruct okb; exact P. }
  destruct P as (F & Wb & ab & Ib & Sb).
  pose proof (rule_ok_post rule s sb a ab Wb F Ib Sb) as PO. pose proof (rule_err_post rule s sb a ab Wb F Ib Sb) as PE.
  split; [apply emits_frame; [rewrite (f_la _ _ F)|rewrite (f_at _ _ F)]; assumption|].
  split; intros K; [rewrite K in PO|rewrite K in PE]; cbn in *; congruence.
Qed.

Lemma rule_ok_run rule p s sb X : good s -> runs p (snd (rule_enter s)) (ROk sb) ->
  queue sb = X ++ queue (snd (rule_enter s)) ->
  exists s', rule_ok rule (fst (rule_enter s)) sb = ROk s' /\ pos s' = pos sb /\ stack s' = stack sb /\
    queue s' = (if emits s
                then QEnd (length (queue s)) rule None (pos sb) :: X ++
                     QStart (S (length X + length (queue s))) (pos s) :: queue s
                else queue sb).
Proof.
  intros G R Qsb. destruct (rule_body_run rule p s sb true G R) as (Em & NP & _).
  pose proof (rule_ok_inv rule (fst (rule_enter s)) sb) as K.
  destruct (rule_enter_spec s) as (_ & Ri & _ & _ & Q & _). cbv zeta in *.
  destruct (rule_ok rule (fst (rule_enter s)) sb) as [s'| |k|]; try contradiction; [|congruence].
  exists s'. split; [reflexivity|]. destruct K as (K1 & K2 & K3). split; [exact K1|]. split; [exact K2|].
  rewrite Em in K3. destruct (emits s); [|exact K3].
  destruct K3 as (q & Hq & ->). rewrite Qsb, Q, Ri, set_start_end_exact in Hq. injection Hq as <-.
  rewrite Ri, app_length. cbn [length].
  replace (length X + S (length (queue s))) with (S (length X + length (queue s))) by lia. reflexivity.
Qed.

Lemma rule_err_run rule p s sb X : good s -> runs p (snd (rule_enter s)) (RErr sb) ->
  queue sb = X ++ queue (snd (rule_enter s)) ->
  exists s', rule_err rule (fst (rule_enter s)) sb = RErr s' /\ pos s' = pos sb /\ stack s' = stack sb /\
    queue s' = (if emits s then queue s else queue sb).
Proof.
  intros G R Qsb. destruct (rule_body_run rule p s sb false G R) as (Em & _ & NP).
  pose proof (rule_err_inv rule (fst (rule_enter s)) sb) as K.
  destruct (rule_enter_spec s) as (_ & Ri & _ & _ & Q & _). cbv zeta in *.
  destruct (rule_err rule (fst (rule_enter s)) sb) as [|s'|k|]; try contradiction; [|congruence].
  exists s'. split; [reflexivity|]. destruct K as (K1 & K2 & K3). split; [exact K1|]. split; [exact K2|].
  rewrite K3, Em. destruct (emits s); [|reflexivity].
  rewrite Ri, Qsb, Q. replace (X ++ QStart 0 (pos s) :: queue s) with ((X ++ [QStart 0 (pos s)]) ++ queue s)
    by (rewrite <- app_assoc; reflexivity).
  apply vtruncate_app. reflexivity.
Qed.

Lemma at_enter_facts a s :
  atomicity (at_enter a s) = a /\ input (at_enter a s) = input s /\ pos (at_enter a s) = pos s /\
  queue (at_enter a s) = queue s /\ lookahead (at_enter a s) = lookahead s /\ stack (at_enter a s) = stack s /\
  limit (at_enter a s) = limit s.
Proof.
  unfold at_enter. destruct (atom_eqb (atomicity s) a) eqn:Ea; cbn; repeat split; auto.
  destruct (atomicity s), a; cbn in Ea; congruence.
Qed.

Lemma good_at_enter a s : good s -> good (at_enter a s).
Proof. intros G. destruct (at_enter_facts a s) as (_ & e1 & e2 & _ & _ & e3 & e4). eapply good_same; eauto. Qed.

Lemma at_leave_facts a s s' :
  pos (at_leave a s s') = pos s' /\ queue (at_leave a s s') = queue s' /\ stack (at_leave a s s') = stack s'.
Proof. unfold at_leave. destruct (negb _); cbn; auto. Qed.

Lemma apply_pres_moved s p' t :
  exists s', apply_pres s (PMoved p') t = ROk s' /\ pos s' = p' /\ queue s' = queue s /\ stack s' = stack s.
Proof.
  unfold apply_pres. destruct t as [tk|]; [destruct (pa_enabled s)|].
  - destruct (handle_token_core (set_pos s p') (pos s) tk true) as [C _].
    eexists. split; [reflexivity|]. rewrite (c_pos _ _ C), (c_queue _ _ C), (c_stack _ _ C). cbn. auto.
  - eexists. split; [reflexivity|]. cbn. auto.
  - eexists. split; [reflexivity|]. cbn. auto.
Qed.

Lemma apply_pres_stay s t :
  exists s', apply_pres s PStay t = RErr s' /\ pos s' = pos s /\ queue s' = queue s /\ stack s' = stack s.
Proof.
  unfold apply_pres. destruct t as [tk|]; [destruct (pa_enabled s)|].
  - destruct (handle_token_core s (pos s) tk false) as [C _].
    eexists. split; [reflexivity|]. rewrite (c_pos _ _ C), (c_queue _ _ C), (c_stack _ _ C). auto.
  - eexists. split; [reflexivity|]. auto.
  - eexists. split; [reflexivity|]. auto.
Qed.

End Know2.
