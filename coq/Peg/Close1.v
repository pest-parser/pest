(* C01, closing part 1: the optimizer's output, seen through `embed`, IS the output of the AST passes:
   embed (to_optimized e) = e, embed erases what restore_on_err adds; names are kept by every pass;
   literal validity survives the six passes; the two "built-in name" predicates agree; unique names
   from the validator's verdict.                                                                   *)
From Coq Require Import List Arith NArith ZArith Bool String Lia.
Import ListNotations.
Require Import PV.Comb.PState PV.Comb.Bytes PV.Comb.Utf8 PV.Peg.Ast PV.Peg.Spec.
Require Import PV.Opt.Sem PV.Opt.SemCong PV.Opt.MapExpr PV.Opt.MapExprProofs PV.Opt.Rotate PV.Opt.Skip PV.Opt.Unroll PV.Opt.Concat
  PV.Opt.Factor PV.Opt.FactorProofs PV.Opt.List PV.Opt.Restore PV.Opt.Pipeline PV.Opt.PassProofs PV.Opt.Statement PV.Opt.SkipProofs
  PV.Opt.ConcatProofs PV.Opt.PipelineProofs.
Require Import PV.Valid.Validator.
Require PV.Valid.Nullable.
Require Import PV.Peg.Refine0 PV.Peg.Refine6.

Lemma embed_to_optimized extras : forall e o, to_optimized extras e = Some o -> embed o = e.
Proof.
  induction e; intros o H; cbn [to_optimized] in H; try (injection H as <-; reflexivity); try discriminate;
    try (destruct (to_optimized extras e) as [y|]; [|discriminate]; injection H as <-; cbn [embed]; now rewrite (IHe y)).
  - destruct (to_optimized extras e1) as [y1|]; [|discriminate]. destruct (to_optimized extras e2) as [y2|]; [|discriminate].
    injection H as <-. cbn [embed]. now rewrite (IHe1 y1), (IHe2 y2).
  - destruct (to_optimized extras e1) as [y1|]; [|discriminate]. destruct (to_optimized extras e2) as [y2|]; [|discriminate].
    injection H as <-. cbn [embed]. now rewrite (IHe1 y1), (IHe2 y2).
  - destruct extras; [|discriminate]. destruct (to_optimized true e) as [y|]; [|discriminate]. injection H as <-.
    cbn [embed]. now rewrite (IHe y).
Qed.

Lemma embed_wrap_if fp fm rules x : embed (wrap_if fp fm rules x) = embed x.
Proof. unfold wrap_if. destruct (child_modifies_state fp fm rules x); reflexivity. Qed.

Lemma embed_wrap_branching fp fm rules e : embed (wrap_branching_exprs fp fm rules e) = embed e.
Proof. destruct e; cbn [wrap_branching_exprs embed]; rewrite ?embed_wrap_if; reflexivity. Qed.

Lemma embed_restore fp fm rules : forall e, embed (restore_expr fp fm rules e) = embed e.
Proof.
  unfold restore_expr. induction e; cbn [omap_bottom_up]; rewrite embed_wrap_branching; cbn [embed]; try reflexivity;
    try (now rewrite IHe); try (now rewrite IHe1, IHe2).
  - destruct fm; cbn [embed]; [now rewrite IHe|reflexivity].
  - destruct fm; cbn [embed]; [now rewrite IHe|reflexivity].
Qed.

Lemma rule_eta r : {| rname := rname r; rty := rty r; rexpr := rexpr r |} = r.
Proof. destruct r; reflexivity. Qed.

Lemma embed_g_map_orules extras : forall G OG, map_orules (rule_to_optimized_rule extras) G = Some OG -> embed_g OG = G.
Proof.
  induction G as [|r G IH]; intros OG H; cbn [map_orules] in H.
  - injection H as <-. reflexivity.
  - unfold rule_to_optimized_rule in H at 1. destruct (to_optimized extras (rexpr r)) as [o|] eqn:Eo; [|discriminate].
    cbn [option_map obind] in H. destruct (map_orules (rule_to_optimized_rule extras) G) as [OG'|]; [|discriminate].
    cbn [obind] in H. injection H as <-. cbn [embed_g map]. fold (embed_g OG'). rewrite (IH OG' eq_refl).
    unfold embed_rule. cbn [oname oty oexpr_of]. rewrite (embed_to_optimized extras _ _ Eo), rule_eta. reflexivity.
Qed.

Lemma embed_g_restore_all fp fm OG : embed_g (restore_all fp fm OG) = embed_g OG.
Proof.
  unfold restore_all, embed_g. rewrite map_map. apply map_ext. intros r.
  unfold embed_rule, restore_rule. cbn [oname oty oexpr_of]. now rewrite embed_restore.
Qed.

Lemma optimize_inv ovf extras fp fm G OG : optimize ovf extras fp fm G = Some OG ->
  exists G6 OG0, optimize_ast ovf extras G = Some G6 /\ map_orules (rule_to_optimized_rule extras) G6 = Some OG0 /\
                 OG = restore_all fp fm OG0 /\ embed_g OG = G6.
Proof.
  unfold optimize, to_optimized_rules. destruct (optimize_ast ovf extras G) as [G6|]; [|discriminate]. cbn [obind].
  destruct (map_orules (rule_to_optimized_rule extras) G6) as [OG0|] eqn:Em; [|discriminate]. cbn [option_map]. cbv beta iota.
  intros [= <-]. exists G6, OG0. split; [reflexivity|]. split; [exact Em|]. split; [reflexivity|]. rewrite embed_g_restore_all. exact (embed_g_map_orules extras G6 OG0 Em).
Qed.

Lemma pipeline_rule_sig ovf extras M r r' : ast_pipeline_rule ovf extras M r = Some r' -> rname r' = rname r /\ rty r' = rty r.
Proof.
  unfold ast_pipeline_rule. intros H.
  destruct (rotate_rule r) as [r1|] eqn:E1; [|discriminate]. cbn [obind] in H.
  destruct (skip_rule M r1) as [r2|] eqn:E2; [|discriminate]. cbn [obind] in H.
  destruct (unroll_rule ovf extras r2) as [r3|] eqn:E3; [|discriminate]. cbn [obind] in H.
  destruct (concat_rule r3) as [r4|] eqn:E4; [|discriminate]. cbn [obind] in H.
  destruct (factor_rule r4) as [r5|] eqn:E5; [|discriminate]. cbn [obind] in H.
  apply with_expr_sig in E1, E2, E3, E4, E5, H. intuition congruence.
Qed.

Lemma optimize_ast_names ovf extras G G6 : optimize_ast ovf extras G = Some G6 -> map rname G6 = map rname G.
Proof.
  intros H. apply map_rules_F2 in H.
  exact (F2_names (ast_pipeline_rule ovf extras G) (pipeline_rule_sig ovf extras G) G G6 H).
Qed.

Lemma has_rule_names G G' : map rname G' = map rname G -> forall n, has_rule G' n = has_rule G n.
Proof.
  revert G'. induction G as [|r G IH]; intros [|r' G'] H n; try discriminate; [reflexivity|].
  cbn [map] in H. injection H as Hn Ht. unfold has_rule in *. cbn [find_rule]. specialize (IH G' Ht n).
  destruct (find_rule G' n), (find_rule G n); try discriminate; auto. rewrite Hn. destruct (str_eqb (rname r) n); reflexivity.
Qed.

Lemma factor_fn_lits ty e : Forall valid_utf8 (estrs e) -> Forall valid_utf8 (estrs (factor_fn ty e)).
Proof.
  intros V. destruct (factor_fn_factored ty e); cbn [estrs] in *; repeat (rewrite Forall_app in *); intuition.
Qed.

Lemma factor_gvalid G G' : gvalid G -> map_rules factor_rule G = Some G' -> gvalid G'.
Proof.
  apply gvalid_step. intros r r' H V. apply with_expr_inv in H. unfold factor_expr in H.
  eapply (map_top_down_lits valid_utf8 (fun x => Some (factor_fn (rty r) x))); [|exact V|exact H].
  intros x y Vx [= <-]. now apply factor_fn_lits.
Qed.

Lemma list_fn_lits e : Forall valid_utf8 (estrs e) -> Forall valid_utf8 (estrs (list_fn e)).
Proof.
  intros V. unfold list_fn. destruct e; try exact V. destruct e1; try exact V. destruct e1; try exact V.
  destruct (expr_eqb e1_1 e2); [|exact V]. cbn [estrs] in *. repeat (rewrite Forall_app in *). intuition.
Qed.

Lemma list_gvalid G G' : gvalid G -> map_rules list_rule G = Some G' -> gvalid G'.
Proof.
  apply gvalid_step. intros r r' H V. apply with_expr_inv in H. unfold list_expr in H.
  eapply (map_bottom_up_lits valid_utf8 (fun x => Some (list_fn x))); [|exact V|exact H].
  intros x y Vx [= <-]. now apply list_fn_lits.
Qed.

Lemma optimize_ast_gvalid ovf extras G G6 : literals_valid G -> optimize_ast ovf extras G = Some G6 -> literals_valid G6.
Proof.
  intros V H. destruct (optimize_ast_stages _ _ _ _ H) as (G1 & G2 & G3 & G4 & G5 & H1 & H2 & H3 & H4 & H5 & H6 & _).
  assert (V1 := rotate_gvalid _ _ V H1).
  assert (V2 : literals_valid G2) by (eapply skip_gvalid; eauto; now apply gvalid_map).
  assert (V3 := unroll_gvalid _ _ _ _ V2 H3).
  assert (V4 := concat_gvalid _ _ V3 H4). assert (V5 := factor_gvalid _ _ V4 H5). exact (list_gvalid _ _ V5 H6).
Qed.

Lemma lits_valid_of_estrs : forall o, Forall valid_utf8 (estrs (embed o)) -> lits_valid o.
Proof.
  induction o; cbn [embed estrs lits_valid]; auto; intros H;
    try (inversion H; subst; assumption);
    try (apply Forall_app in H; destruct H; split; auto).
Qed.

Lemma is_builtin_builtin_name n : is_builtin n = true -> builtin_name n = true.
Proof. intros B. exact (proj1 (forallb_forall builtin_name builtin_names) eq_refl n (builtin_in n B)). Qed.

Lemma already_defined_nodup l : forall seen, already_defined seen l = [] -> NoDup l /\ forall x, In x l -> ~ In x seen.
Proof.
  induction l as [|n l IH]; intros seen H; [split; [constructor|intros x []]|].
  cbn [already_defined] in H. destruct (mem n seen) eqn:M; [discriminate|].
  destruct (IH (n :: seen) H) as [ND Hs]. split.
  - constructor; [|exact ND]. intros Hin. apply (Hs n Hin). now left.
  - intros x [<-|Hx] Hc.
    + apply Nullable.mem_In in Hc. congruence.
    + apply (Hs x Hx). now right.
Qed.

Lemma validate_unique kw builtin vcfg G : validate kw builtin vcfg G = [] -> NoDup (map rname G).
Proof.
  unfold validate. destruct (validate_pairs kw builtin G) eqn:Ep; [|discriminate]. intros _.
  unfold validate_pairs in Ep. apply app_eq_nil in Ep. destruct Ep as [_ Ep]. apply app_eq_nil in Ep. destruct Ep as [Ep _].
  exact (proj1 (already_defined_nodup _ _ Ep)).
Qed.
