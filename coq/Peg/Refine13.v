(* C01, part 13: `vm_terminates_spec`: if the VM returns (Ok / Err) on an expression of the fragment within
   fuel m, the Spec evaluation with fuel m is definite.                                               *)
From Coq Require Import List Arith NArith ZArith Bool String Lia.
Import ListNotations.
Require Import PV.Iter.Queue PV.Iter.QueueFacts.
Require Import PV.Stack.Model PV.Stack.Proofs PV.Comb.PState PV.Comb.Bytes PV.Comb.Prog PV.Comb.Exec.
Require Import PV.Comb.Frame PV.Comb.Contracts PV.Comb.Utf8 PV.Comb.Utf8b PV.Comb.Utf8c.
Require Import PV.Peg.Ast PV.Peg.Spec PV.Peg.SpecFacts PV.Peg.VmCompile.
Require Import PV.Peg.Refine0 PV.Peg.Refine1 PV.Peg.Refine2 PV.Peg.Refine3 PV.Peg.Refine4 PV.Peg.Refine5
  PV.Peg.Refine6 PV.Peg.Refine7 PV.Peg.Refine8 PV.Peg.Refine9 PV.Peg.Refine12.

Section TermMain.
Variable OG : ogrammar.
Variable extras : bool.
Variable uranges : name -> option (list (N * N)).
Variable pp : bool.
Variable cfg : config.
Variable w : list byte.
Hypothesis Hcfg : cfg_ok cfg.
Hypothesis HG : grammar_ok OG extras uranges pp.

Notation G := (embed_g OG).
Notation E := (vm_env OG uranges).
Notation ev := (eval G extras (uprop uranges) w).
Notation tdef := (tdef cfg E w).
Notation vm_expr := (vm_expr OG uranges).
Notation in_fragment := (in_fragment OG extras uranges pp).
Notation K := (K OG).

Definition term_at (m : nat) : Prop :=
  forall e a emit p sg, in_fragment e = true -> rokP OG K e -> lits_valid e ->
    tdef (vm_expr e) a emit p sg (ev m a emit (embed e) p sg) m.

Theorem vm_terminates_spec : forall m, term_at m.
Proof using Hcfg HG.
  intros m e a emit p sg Fr Ro Li. eapply sim_tdef. now apply (vm_sim_spec OG extras uranges pp cfg w Hcfg HG m).
Qed.

End TermMain.
