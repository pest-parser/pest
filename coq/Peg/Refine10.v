(* C01, part 10: the first clause of the simulation in explicit form (`vm_refines_spec`), the second in
   explicit form, and their corollaries for whole parses (`parse_refines_spec`, `parse_sound`,
   `parse_iff_spec_total`).                                                                           *)
From Coq Require Import List Arith NArith ZArith Bool Lia.
Import ListNotations.
Require Import PV.Iter.Queue PV.Iter.QueueFacts.
Require Import PV.Stack.Model PV.Stack.Proofs PV.Comb.PState PV.Comb.Bytes PV.Comb.Prog PV.Comb.Exec.
Require Import PV.Comb.Frame PV.Comb.Contracts PV.Comb.Utf8 PV.Comb.Utf8b PV.Comb.Utf8c.
Require Import PV.Peg.Ast PV.Peg.Spec PV.Peg.VmCompile.
Require Import PV.Peg.Refine0 PV.Peg.Refine1 PV.Peg.Refine2 PV.Peg.Refine3 PV.Peg.Refine4 PV.Peg.Refine5
  PV.Peg.Refine6 PV.Peg.Refine7 PV.Peg.Refine8 PV.Peg.Refine9 PV.Peg.Refine12 PV.Peg.Refine13.

(* the forest of a token queue in stream order (what `Pairs` shows) *)
Definition forest (q : list qtoken) : list tree := forest_of (map conv q) 0 (length q).

Lemma forest_rev_toks f : forest (rev (toks 0 f)) = f.
Proof.
  unfold forest. rewrite map_conv_rev_toks, rev_length, toks_length.
  change (tokens_at 0 f) with (tokens_of f). rewrite <- (length_tokens_at f 0). apply forest_of_tokens_of.
Qed.

Section Top.
Variable OG : ogrammar.
Variable extras : bool.
Variable uranges : name -> option (list (N * N)).
Variable pp : bool.
Variable cfg : config.
Variable w : list byte.
Hypothesis Hcfg : cfg_ok cfg.
Hypothesis HG : grammar_ok OG extras uranges pp.

Notation G := (embed_g OG).
Notation E := (vm_env OG uranges).
Notation ev := (eval G extras (uprop uranges) w).
Notation K := (K OG).

Theorem vm_refines_spec n e a emit p sg s :
  in_fragment OG extras uranges pp e = true -> rok OG K e = true -> lits_valid e ->
  rep w a emit p sg s ->
  match ev n a emit (embed e) p sg with
  | SMatch p' sg' f =>
      exists m vr, exec cfg E m (vm_expr OG uranges e) s = vr /\
      match vr with
      | ROk s' => pos s' = p' /\ cache (stack s') = sg' /\ queue s' = toks (length (queue s)) f ++ queue s /\
                  rep w a emit p' sg' s'
      | RPanic k => pp = true /\ k = PkEmptyStack
      | _ => False
      end
  | SFail =>
      exists m vr, exec cfg E m (vm_expr OG uranges e) s = vr /\
      match vr with
      | RErr s' => pos s' = pos s /\ queue s' = queue s /\
                   ((exists k, fclean OG k e = true) -> cache (stack s') = cache (stack s)) /\
                   good s' /\ keeps s s'
      | RPanic k => pp = true /\ k = PkEmptyStack
      | _ => False
      end
  | SFuel => True
  end.
Proof.
  intros Fr Ro Li R.
  pose proof (vm_sim_spec OG extras uranges pp cfg w Hcfg HG n e a emit p sg Fr (rok_rokP OG K e Ro) Li s R) as [H _].
  pose proof (HE OG extras uranges pp HG) as HE'.
  destruct (ev n a emit (embed e) p sg) as [p' sg' f| |] eqn:Ev; [| |exact I].
  - destruct (H ltac:(discriminate)) as (vr & R1 & S1). pose proof R1 as [_ [m A]].
    exists m, vr. split; [exact A|]. destruct vr as [s'|s'|k|]; cbn in S1.
    + destruct S1 as (A1 & A2 & A3). split; [exact A1|]. split; [exact A2|]. split; [exact A3|].
      apply (rep_step w Hcfg HE' (vm_expr OG uranges e) a emit p sg s s' p' sg' true R (pv_expr OG uranges e Li) R1 A1 A2).
    + destruct S1; discriminate.
    + exact S1.
    + exact S1.
  - destruct (H ltac:(discriminate)) as (vr & R1 & S1). pose proof R1 as [_ [m A]].
    exists m, vr. split; [exact A|]. destruct vr as [s'|s'|k|]; cbn in S1.
    + exact S1.
    + destruct S1 as (_ & A1 & A2 & A3). split; [exact A1|]. split; [exact A2|]. split; [intros Hc; apply A3; left; exact Hc|].
      exact (run_inv cfg E Hcfg HE' _ s _ (r_good R) (pv_expr OG uranges e Li) R1).
    + exact S1.
    + exact S1.
Qed.

Hypothesis Hw : valid_utf8 w.

Lemma rep_init detail : rep w NonAtomic true 0 [] (init w None detail).
Proof.
  destruct (init_wf_inv w None detail) as [W I]. split; try reflexivity.
  split; [exact W|eexists; exact I|now apply init_utf8_ok|reflexivity].
Qed.

Lemma limit_reached_none s : limit s = None -> limit_reached s = false.
Proof. unfold limit_reached. now intros ->. Qed.

Definition vm_parse (m : nat) (r : name) (detail : bool) : outcome :=
  outcome_of cfg (run_state cfg E m (vm_start OG uranges r) w None detail).

Theorem parse_refines_spec r detail n :
  ident_ok OG uranges pp r = true ->
  match spec_parse G extras (uprop uranges) w n r with
  | SMatch p sg f =>
      exists m, (exists q, vm_parse m r detail = OPairs q /\ forest q = f) \/ (pp = true /\ vm_parse m r detail = OPanic)
  | SFail =>
      exists m, (exists ps ns ap, vm_parse m r detail = OParsingError ps ns ap) \/ (pp = true /\ vm_parse m r detail = OPanic)
  | SFuel => True
  end.
Proof.
  intros IO. unfold spec_parse, vm_parse, run_state, vm_start.
  pose proof (vm_refines_spec n (OIdent r) NonAtomic true 0 [] (init w None detail) IO eq_refl I (rep_init detail)) as H.
  cbn [embed VmCompile.vm_expr] in H.
  destruct (ev n NonAtomic true (EIdent r) 0 []) as [p sg f| |]; [| |exact I].
  - destruct H as (m & vr & A & S1). exists m. rewrite A. destruct vr as [s'|s'|k|]; try contradiction.
    + left. destruct S1 as (_ & _ & Q & R'). cbn [outcome_of].
      rewrite (limit_reached_none s' (g_lim _ (r_good R'))), andb_false_r.
      eexists. split; [reflexivity|]. rewrite Q. cbn [init queue length]. rewrite app_nil_r. apply forest_rev_toks.
    + right. split; [apply S1|reflexivity].
  - destruct H as (m & vr & A & S1). exists m. rewrite A. destruct vr as [s'|s'|k|]; try contradiction.
    + left. destruct S1 as (_ & _ & _ & G' & _). cbn [outcome_of].
      rewrite (limit_reached_none s' (g_lim _ G')). eauto.
    + right. split; [apply S1|reflexivity].
Qed.

Theorem vm_terminates_spec_explicit m e a emit p sg s :
  in_fragment OG extras uranges pp e = true -> rok OG K e = true -> lits_valid e ->
  rep w a emit p sg s ->
  (exists s', exec cfg E m (vm_expr OG uranges e) s = ROk s' \/ exec cfg E m (vm_expr OG uranges e) s = RErr s') ->
  ev m a emit (embed e) p sg <> SFuel.
Proof.
  intros Fr Ro Li R (s' & Hs).
  apply (vm_terminates_spec OG extras uranges pp cfg w Hcfg HG m e a emit p sg Fr (rok_rokP OG K e Ro) Li s
           (exec cfg E m (vm_expr OG uranges e) s) R).
  - split; [destruct Hs as [-> | ->]; discriminate|]. exists m. split; [apply Nat.le_refl|reflexivity].
  - intros k Hk. destruct Hs as [Hs|Hs]; congruence.
Qed.

Lemma vm_parse_ok_inv m r detail q : vm_parse m r detail = OPairs q ->
  exists s', exec cfg E m (vm_call OG uranges r) (init w None detail) = ROk s' /\ q = rev (queue s').
Proof.
  unfold vm_parse, run_state, vm_start. destruct (exec cfg E m _ _) as [s'|s'|k|]; cbn [outcome_of]; try discriminate.
  - destruct (fixedlim cfg && limit_reached s'); [discriminate|]. intros [= <-]. eauto.
  - destruct (limit_reached s'); discriminate.
Qed.

Lemma vm_parse_err_inv m r detail ps ns ap : vm_parse m r detail = OParsingError ps ns ap ->
  exists s', exec cfg E m (vm_call OG uranges r) (init w None detail) = RErr s'.
Proof.
  unfold vm_parse, run_state, vm_start. destruct (exec cfg E m _ _) as [s'|s'|k|]; cbn [outcome_of]; try discriminate; eauto.
  destruct (fixedlim cfg && limit_reached s'); discriminate.
Qed.

Lemma vm_parse_det m m' r detail :
  vm_parse m r detail <> OOutOfFuel -> vm_parse m' r detail <> OOutOfFuel -> vm_parse m r detail = vm_parse m' r detail.
Proof.
  unfold vm_parse, run_state. intros H1 H2. f_equal. apply CallLimit.exec_fuel_irrelevant.
  - intros Ho. rewrite Ho in H1. apply H1. reflexivity.
  - intros Ho. rewrite Ho in H2. apply H2. reflexivity.
Qed.

(* soundness of a VM parse that returned, PEEK / POP allowed: the Spec, with the same fuel, matches with the same
   forest, or fails as well *)
Theorem parse_sound r detail m : ident_ok OG uranges pp r = true ->
  match vm_parse m r detail with
  | OPairs q => exists p sg, spec_parse G extras (uprop uranges) w m r = SMatch p sg (forest q)
  | OParsingError _ _ _ => spec_parse G extras (uprop uranges) w m r = SFail
  | _ => True
  end.
Proof.
  intros IO.
  assert (T : (exists s', exec cfg E m (vm_call OG uranges r) (init w None detail) = ROk s' \/
                          exec cfg E m (vm_call OG uranges r) (init w None detail) = RErr s') ->
              spec_parse G extras (uprop uranges) w m r <> SFuel)
    by exact (vm_terminates_spec_explicit m (OIdent r) NonAtomic true 0 [] (init w None detail) IO eq_refl Logic.I (rep_init detail)).
  pose proof (parse_refines_spec r detail m IO) as H.
  assert (D : forall m', vm_parse m r detail <> OOutOfFuel -> vm_parse m' r detail <> OOutOfFuel ->
            vm_parse m' r detail = vm_parse m r detail) by (intros m' N N'; now apply vm_parse_det).
  destruct (vm_parse m r detail) as [q| |ps ns ap| |] eqn:Hq; try exact Logic.I.
  - destruct (vm_parse_ok_inv m r detail q Hq) as (s' & Hs & _). specialize (T (ex_intro _ s' (or_introl Hs))).
    destruct (spec_parse G extras (uprop uranges) w m r) as [p sg f| |]; [| |congruence].
    + destruct H as (m' & [(q' & Hq' & <-)|[_ Hc]]); pose proof (D m' ltac:(discriminate) ltac:(congruence)) as Heq; [rewrite Hq' in Heq; injection Heq as <-; eauto|congruence].
    + destruct H as (m' & [(ps & ns & ap & Hq')|[_ Hc]]); pose proof (D m' ltac:(discriminate) ltac:(congruence)) as Heq; congruence.
  - destruct (vm_parse_err_inv m r detail ps ns ap Hq) as (s' & Hs). specialize (T (ex_intro _ s' (or_intror Hs))).
    destruct (spec_parse G extras (uprop uranges) w m r) as [p sg f| |]; [|reflexivity|congruence].
    destruct H as (m' & [(q' & Hq' & _)|[_ Hc]]); pose proof (D m' ltac:(discriminate) ltac:(congruence)) as Heq; congruence.
Qed.

Theorem parse_iff_spec_total r detail f : pp = false -> ident_ok OG uranges pp r = true ->
  ((exists m q, vm_parse m r detail = OPairs q /\ forest q = f) <->
   (exists n p sg, spec_parse G extras (uprop uranges) w n r = SMatch p sg f)).
Proof.
  intros Hpp IO. split.
  - intros (m & q & Hq & <-). pose proof (parse_sound r detail m IO) as H. rewrite Hq in H. destruct H as (p & sg & H). eauto.
  - intros (n & p & sg & Es). pose proof (parse_refines_spec r detail n IO) as H. rewrite Es in H.
    destruct H as (m & [(q & Hq & Hf)|[Hc _]]); [eauto|congruence].
Qed.

Theorem parse_fail_iff_spec_total r detail : pp = false -> ident_ok OG uranges pp r = true ->
  ((exists m ps ns ap, vm_parse m r detail = OParsingError ps ns ap) <->
   (exists n, spec_parse G extras (uprop uranges) w n r = SFail)).
Proof.
  intros Hpp IO. split.
  - intros (m & ps & ns & ap & Hq). pose proof (parse_sound r detail m IO) as H. rewrite Hq in H. eauto.
  - intros (n & Es). pose proof (parse_refines_spec r detail n IO) as H. rewrite Es in H.
    destruct H as (m & [(ps & ns & ap & Hq)|[Hc _]]); [eauto 6|congruence].
Qed.

(* both directions, given that the Spec evaluation of this parse terminates (validated grammars: C06) *)
Theorem parse_iff_spec r detail f : pp = false ->
  ident_ok OG uranges pp r = true ->
  (exists n, spec_parse G extras (uprop uranges) w n r <> SFuel) ->
  ((exists m q, vm_parse m r detail = OPairs q /\ forest q = f) <->
   (exists n p sg, spec_parse G extras (uprop uranges) w n r = SMatch p sg f)).
Proof using Hcfg HG Hw. intros Hpp IO _. now apply parse_iff_spec_total. Qed.

End Top.
