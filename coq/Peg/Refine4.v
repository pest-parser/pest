(* C01, part 4: the toolkit continued: look-ahead, rule, atomic, push, restore_on_err, call,
   repetition, node tags.  A lemma counts the combinator's own step of fuel (conclusion at `S m`) where the
   combinator can be the outermost one of a compiled expression; rule, atomic, if-non-atomic and repeat
   only occur below another combinator of the same expression, and their lemmas do not count it.      *)
From Coq Require Import List Arith NArith ZArith Bool Lia.
Import ListNotations.
Require Import PV.Iter.Queue PV.Iter.QueueFacts.
Require Import PV.Stack.Model PV.Stack.Proofs PV.Comb.PState PV.Comb.Bytes PV.Comb.Prog PV.Comb.Exec.
Require Import PV.Comb.ExecInd PV.Comb.Frame PV.Comb.Contracts PV.Comb.Utf8 PV.Comb.Utf8b PV.Comb.Utf8c.
Require Import PV.Peg.Ast PV.Peg.Spec PV.Peg.SpecFacts PV.Peg.Refine0 PV.Peg.Refine1 PV.Peg.Refine2 PV.Peg.Refine3.

Lemma tag_last_cons2 x y f t : tag_last (x :: y :: f) t = x :: tag_last (y :: f) t.
Proof. destruct x. reflexivity. Qed.

Lemma toks_tag_last f t : forall b, f <> [] ->
  exists si r tg p q', toks b f = QEnd si r tg p :: q' /\ toks b (tag_last f t) = QEnd si r (Some t) p :: q'.
Proof.
  induction f as [|x f IH]; intros b Hne; [congruence|].
  destruct f as [|y f].
  - destruct x as [r tg s e ch]. cbn [tag_last]. rewrite !toks_node. eauto 8.
  - rewrite tag_last_cons2.
    change (x :: y :: f) with ([x] ++ (y :: f)). change (x :: tag_last (y :: f) t) with ([x] ++ tag_last (y :: f) t).
    rewrite !toks_app. destruct (IH (b + 2 * fsize [x])) as (si & r & tg & p & q' & H1 & H2); [discriminate|].
    rewrite H1, H2. cbn [app]. eauto 8.
Qed.

Lemma tag_last_nonempty f t : f <> [] -> tag_last f t <> [].
Proof.
  intros H. destruct (toks_tag_last f t 0 H) as (si & r & tg & p & q' & _ & H2).
  intros Heq. rewrite Heq in H2. discriminate.
Qed.

Section Toolkit2.
Context {cfg : config} {E : env} {pp : bool}.
Variable w : list byte.
Hypothesis Hcfg : cfg_ok cfg.
Hypothesis HE : env_valid E.

Notation runs := (runs cfg E).
Notation halts := (halts cfg E).
Notation rep := (rep w).
Notation sim := (@sim cfg E pp w).
Notation res_sim := (@res_sim pp).

Lemma rep_la_state b a emit p sg s : rep a emit p sg s -> rep a false p sg (la_state b s).
Proof.
  intros [G I A L P S]. split; auto.
  - now apply good_la_state.
  - cbn. destruct b, (lookahead s); reflexivity.
Qed.

Lemma sim_lookahead Q (C : Prop) b q a emit p sg r m : sim Q q a false p sg r m ->
  sim (clean C) (PLookahead b q) a emit p sg (sres_la b p sg r) (S m).
Proof.
  apply (sim_bracket w Q (clean C) (PLookahead b q) _ a a emit false p sg r _ m eq_refl);
    [apply rep_la_state|destruct r, b; cbn; intuition congruence| |];
    intros s s1 R R1 S1; pose proof (r_good R) as G; cbn [b_ok b_err]; unfold restore_st; cbn [stack set_lookahead set_pos].
  - destruct (checkpoint_run cfg E q s (la_state b s) s1 true G (g_wf _ G) eq_refl R1) as [_ (st & -> & Cc)].
    pose proof (la_quiet cfg E b q s s1 true G R1) as Qq. destruct r as [p1 sg1 f1| |]; try contradiction.
    destruct b; cbn; unfold clean; cbn; rewrite Qq, Cc; auto using (r_pos R), (r_stack R).
  - destruct (checkpoint_run cfg E q s (la_state b s) s1 false G (g_wf _ G) eq_refl R1) as [_ (st & -> & Cc)].
    pose proof (la_quiet cfg E b q s s1 false G R1) as Qq. destruct S1 as (-> & _).
    destruct b; cbn; unfold clean; cbn; rewrite Qq, Cc; auto using (r_pos R), (r_stack R).
Qed.

Lemma rep_rule_enter a emit p sg s : rep a emit p sg s -> rep a emit p sg (snd (rule_enter s)).
Proof.
  intros R. destruct (rule_enter_facts s) as (_ & e1 & e2 & e3 & e4 & e5 & e6). eapply rep_same; eauto.
Qed.

Lemma emits_tok a emit p sg s : rep a emit p sg s -> emits s = tok a emit.
Proof. intros [G I A L P S]. unfold emits, tok. rewrite L, A. reflexivity. Qed.

Lemma sim_rule (C : Prop) id tk q a emit p sg r m : tk = tok a emit -> sim (clean C) q a emit p sg r m ->
  sim (clean C) (PRule id q) a emit p sg (sres_node tk id p r) m.
Proof.
  intros -> H. apply (sim_le w (S m)); [auto|]. revert H.
  apply (sim_bracket w (clean C) (clean C) (PRule id q) _ a a emit emit p sg r _ m eq_refl);
    [apply rep_rule_enter|destruct r; cbn; intuition congruence| |];
    intros s sb R R1 S1; pose proof (r_good R) as G; pose proof (emits_tok _ _ _ _ _ R) as Em;
    destruct (rule_enter_facts s) as (Q & e1 & e2 & e3 & e4 & e5 & e6); cbv zeta in Q; cbn [b_ok b_err b_enter b_body] in *.
  - destruct r as [p1 sg1 f1| |]; try contradiction. destruct S1 as (A1 & A2 & A3).
    destruct (rule_ok_run cfg E id q s sb _ G R1 A3) as (s' & -> & B1 & B2 & B3).
    cbn. rewrite B1, B2. split; [exact A1|]. split; [exact A2|].
    rewrite B3, Em. rewrite Em in Q. destruct (tok a emit).
    + rewrite toks_node, Q, toks_length. cbn [length app]. rewrite <- app_assoc. cbn [app].
      rewrite A1, (r_pos R).
      replace (S (2 * fsize f1 + length (queue s))) with (S (length (queue s)) + 2 * fsize f1) by lia. reflexivity.
    + rewrite A3, Q. reflexivity.
  - destruct S1 as (-> & A1 & A2 & A3).
    destruct (rule_err_run cfg E id q s sb [] G R1 A2) as (s' & -> & B1 & B2 & B3).
    cbn. split; [reflexivity|]. split; [congruence|]. split.
    + rewrite B3, Em. rewrite Em in Q. destruct (tok a emit); [reflexivity|]. rewrite A2, Q. reflexivity.
    + intros HC. rewrite B2, A3 by exact HC. rewrite e5. reflexivity.
Qed.

Lemma rep_at_enter a2 a emit p sg s : rep a emit p sg s -> rep a2 emit p sg (at_enter a2 s).
Proof.
  intros [G I A L P S]. destruct (at_enter_facts a2 s) as (e0 & e1 & e2 & e3 & e4 & e5 & e6).
  split; try congruence. now apply good_at_enter.
Qed.

Lemma sim_atomic (C : Prop) a2 q a emit p sg r m : sim (clean C) q a2 emit p sg r m ->
  sim (clean C) (PAtomic a2 q) a emit p sg r m.
Proof.
  intros H. apply (sim_le w (S m)); [auto|]. revert H.
  apply (sim_bracket w (clean C) (clean C) (PAtomic a2 q) _ a a2 emit emit p sg r r m eq_refl);
    [apply rep_at_enter|tauto| |];
    intros s s1 R R1 S1; destruct (at_enter_facts a2 s) as (e0 & e1 & e2 & e3 & e4 & e5 & e6);
    destruct (at_leave_facts a2 s s1) as (l1 & l2 & l3); change (b_enter _ s) with (at_enter a2 s) in S1;
    cbn [b_ok b_err]; fold (at_leave a2 s s1); cbn; unfold clean; rewrite l1, l2, l3.
  - destruct r; try contradiction. cbn [res_sim] in S1. rewrite e3 in S1. exact S1.
  - cbn [res_sim] in S1. unfold clean in S1. rewrite e2, e3, e5 in S1. exact S1.
Qed.

Lemma sim_push Q q a emit p sg r m : prog_valid q -> sim Q q a emit p sg r m ->
  sim Q (PStackPush q) a emit p sg
    (match r with SMatch q' sg2 f2 => SMatch q' (firstn (q' - p) (skipn p w) :: sg2) f2 | SFail => SFail | SFuel => SFuel end) (S m).
Proof.
  intros V. apply (sim_bracket w Q Q (PStackPush q) _ a a emit emit p sg r _ m eq_refl);
    [auto|destruct r; intuition congruence| |]; intros s s1 R R1 S1; cbn [b_ok b_err] in *.
  - destruct r as [p1 sg1 f1| |]; try contradiction. destruct S1 as (A1 & A2 & A3).
    pose proof (run_inv cfg E Hcfg HE q s _ (r_good R) V R1) as [G1 [k1 k2 k3 k4]].
    destruct (Nat.ltb (pos s1) (pos s)) eqn:Lt; [apply Nat.ltb_lt in Lt; lia|]. cbn.
    rewrite A1, A2, k1, (r_pos R), (r_input R). auto.
  - destruct S1 as (-> & S1). cbn. auto.
Qed.

Lemma sim_restore (C C' : Prop) q a emit p sg r m : sim (clean C) q a emit p sg r m ->
  sim (clean C') (PRestoreOnErr q) a emit p sg r (S m).
Proof.
  apply (sim_bracket w (clean C) (clean C') (PRestoreOnErr q) _ a a emit emit p sg r r m eq_refl);
    [apply rep_checkpoint|tauto| |]; intros s s1 R R1 S1; pose proof (r_good R) as G; cbn [b_ok b_err].
  - exact (cleared_ok w _ _ q a emit p sg r s s1 R R1 S1).
  - destruct (checkpoint_run cfg E q s (checkpoint s) s1 false G (g_wf _ G) eq_refl R1) as [_ (st & Er & Cc)].
    destruct S1 as (-> & A1 & A2 & _). unfold restore_st. rewrite Er. cbn. unfold clean. cbn. auto.
Qed.

(* call / if-non-atomic / repeat: one step, same result *)
Lemma sim_enter Q q q' a emit p sg r m :
  (forall s k, rep a emit p sg s -> exec cfg E (S k) q s = exec cfg E k q' s) ->
  sim Q q' a emit p sg r m -> sim Q q a emit p sg r (S m).
Proof.
  intros Eq H s R. specialize (Eq s). destruct (H s R) as [F B]. split.
  - intros N. destruct (F N) as (vr & R1 & S1). exists vr. split; [|exact S1].
    apply (@runs_step cfg E q s q' s (fun x => x) vr); [auto|exact R1|apply R1].
  - intros Hh. apply B. apply (@halts_step cfg E q s q' s (fun x => x) m); auto.
Qed.

Lemma sim_call Q f q a emit p sg r m : E f = Some q -> sim Q q a emit p sg r m -> sim Q (PCall f) a emit p sg r (S m).
Proof. intros Ef. apply sim_enter. intros s k _. now apply exec_call. Qed.

Lemma sim_ifna Q q1 q2 a emit p sg r m :
  sim Q (if atom_eqb a NonAtomic then q1 else q2) a emit p sg r m -> sim Q (PIfNonAtomic q1 q2) a emit p sg r m.
Proof. intros H. apply (sim_le w (S m)); [auto|]. revert H. apply sim_enter. intros s k R. rewrite exec_ifna, (r_at R). reflexivity. Qed.

Lemma sim_repeat Q body a emit p sg r m :
  sim Q (PRepeatLoop body) a emit p sg r m -> sim Q (PRepeat body) a emit p sg r m.
Proof. intros H. apply (sim_le w (S m)); [auto|]. revert H. apply sim_enter. intros s k R. apply exec_repeat, (rep_limit _ _ _ _ _ _ R). Qed.

Lemma sim_ok Q a emit p sg m : sim Q (PPrim MOk) a emit p sg (SMatch p sg []) m.
Proof.
  apply sim_prim; [discriminate|]. intros s R. cbn.
  split; [apply (r_pos R)|]. split; [apply (r_stack R)|reflexivity].
Qed.

(* iteration j of the Spec loop answers a VM loop that still has fuel j: both count down together *)
Lemma sim_loop Q body a emit (u : nat -> list str -> sres) m : prog_valid body ->
  (forall p sg, sim (clean True) body a emit p sg (u p sg) m) ->
  forall j, j <= S m -> forall p sg, sim Q (PRepeatLoop body) a emit p sg (loop j u p sg []) j.
Proof.
  intros V H. induction j as [|j IH]; intros Lj p sg.
  { intros s R. split; [intros N; exfalso; apply N; reflexivity|]. intros (k & L & A). destruct k; [destruct A|lia]. }
  rewrite loop_unroll. intros s R. revert s R.
  assert (X : sim Q (POptional (PAndThen body (PRepeatLoop body))) a emit p sg
                (sres_opt p sg (sres_bind (u p sg) (fun p1 sg1 => loop j u p1 sg1 []))) (S (S j))).
  { apply (sim_optional w True); [exact I|].
    apply (sim_andthen w Hcfg HE (clean True) (fun _ _ => False)); [auto|contradiction|exact V|apply (sim_le w m); [lia|apply H]|].
    intros p1 sg1 f1 _. apply (sim_total w Q); [apply loop_not_fail|apply IH; lia]. }
  intros s R. destruct (X s R) as [F B]. pose proof (fun k => exec_loop_unfold cfg E k body s (rep_limit w _ _ _ _ _ R)) as Eq. split.
  - intros N. destruct (F N) as (vr & [Nv [k A]] & S1). exists vr. split; [|exact S1]. split; [exact Nv|].
    destruct k; [cbn in A; congruence|]. exists k. now rewrite <- Eq.
  - intros (k & L & A). apply B. exists (S k). split; [lia|]. now rewrite Eq.
Qed.

Lemma sim_tag Q q a emit p sg r t m : prog_valid q -> sim Q q a emit p sg r m ->
  (forall p' sg' f, r = SMatch p' sg' f -> emit = true -> f <> []) ->
  sim Q (PAndThen q (PPrim (MTagNode t))) a emit p sg
    (match r with SMatch q' sg2 f2 => SMatch q' sg2 (tag_last f2 t) | SFail => SFail | SFuel => SFuel end) (S m).
Proof.
  intros V H NE s R. pose proof (r_good R) as G. split.
  - intros N. assert (N1 : r <> SFuel) by (intros ->; apply N; reflexivity).
    destruct (proj1 (H s R) N1) as (vr & R1 & S1).
    destruct vr as [s1|s1|k|]; cbn in S1.
    + destruct r as [p1 sg1 f1| |]; try contradiction. destruct S1 as (A1 & A2 & A3).
      pose proof (run_inv cfg E Hcfg HE q s _ G V R1) as [G1 [k1 k2 k3 k4]].
      destruct emit eqn:Em.
      * (* tokens are produced: the last node is this expression's own *)
        destruct (toks_tag_last f1 t (List.length (queue s)) (NE _ _ _ eq_refl eq_refl)) as (si & r & tg & p0 & q' & T1 & T2).
        eexists. split.
        -- eapply runs_andthen_ok; [exact R1|]. apply runs_prim;
           [cbn [exec_prim]; rewrite k2, (r_emit R); cbn [negb]; rewrite A3, T1; cbn [app]; reflexivity|discriminate].
        -- cbn. rewrite T2. auto.
      * (* under look-ahead nothing was produced and nothing is tagged *)
        assert (Q0 : queue s1 = queue s).
        { destruct R1 as [_ [m0 A]]. destruct G as [W [a0 I] U L].
          apply (exec_quiet cfg E m0 q s a0 s1 W I); [|left; exact A].
          intros HL. pose proof (r_emit R) as Hm. rewrite HL in Hm. discriminate. }
        assert (F0 : f1 = []).
        { rewrite Q0 in A3. apply (toks_empty_inv (List.length (queue s))).
          apply (app_inv_tail (queue s)). rewrite <- A3. reflexivity. }
        subst f1. exists (ROk s1). split.
        -- eapply runs_andthen_ok; [exact R1|]. apply runs_prim;
           [cbn [exec_prim]; rewrite k2, (r_emit R); reflexivity|discriminate].
        -- cbn. auto.
    + destruct S1 as (-> & S1). exists (RErr s1). split; [apply runs_andthen_stop; [exact R1|discriminate]|cbn; auto].
    + exists (RPanic k). split; [apply runs_andthen_stop; [exact R1|discriminate]|exact S1].
    + contradiction.
  - intros (k & L & A). destruct k as [|k]; [contradiction|]. cbn [exec] in A.
    assert (N1 : r <> SFuel).
    { apply (proj2 (H s R)). exists k. split; [lia|]. destruct (exec cfg E k q s); try exact A; exact I. }
    destruct r; congruence.
Qed.

End Toolkit2.
