(* Basic facts about Layer S: fuel monotonicity of `eval` (a result other than SFuel is stable
   under more fuel), hence determinism across fuels.                                          *)
From Coq Require Import List Arith NArith ZArith Bool Lia.
Import ListNotations.
Require Import PV.Comb.PState PV.Comb.Bytes PV.Iter.Queue PV.Peg.Ast PV.Peg.Spec.

Lemma loop_not_fail k u p sg acc : loop k u p sg acc <> SFail.
Proof. revert p sg acc; induction k as [|k IH]; intros p sg acc; cbn [loop]; [discriminate|]. destruct (u p sg); auto; discriminate. Qed.

Section Facts.
Variable G : grammar.
Variable extras : bool.
Variable uprop : name -> option (N -> bool).
Variable w : list byte.

Notation eval := (eval G extras uprop w).
Notation skip_with := (skip_with G).

(* `u2` extends `u1`: wherever u1 gives a definite answer, u2 gives the same *)
Definition ext_unit (u1 u2 : nat -> list str -> sres) : Prop :=
  forall p sg r, u1 p sg = r -> r <> SFuel -> u2 p sg = r.
Definition ext_ev (e1 e2 : evaluator) : Prop :=
  forall a emit x p sg r, e1 a emit x p sg = r -> r <> SFuel -> e2 a emit x p sg = r.

Lemma skip_not_fail ev k a emit p sg : skip_with ev k a emit p sg <> SFail.
Proof.
  unfold Spec.skip_with. destruct (negb _); [discriminate|]. destruct (has_rule G _), (has_rule G _); try discriminate; try apply loop_not_fail.
  unfold many_with. destruct (loop k _ p sg []) eqn:E; try discriminate; [apply loop_not_fail|]. now apply loop_not_fail in E.
Qed.

Lemma loop_mono n m u1 u2 p sg acc r :
  ext_unit u1 u2 -> n <= m -> loop n u1 p sg acc = r -> r <> SFuel -> loop m u2 p sg acc = r.
Proof.
  intros HU. revert m p sg acc. induction n as [|n IH]; intros m p sg acc Hm H Hr; [cbn in H; congruence|].
  destruct m as [|m]; [lia|]. cbn [loop] in *.
  destruct (u1 p sg) as [p1 sg1 f1| |] eqn:E1.
  - rewrite (HU _ _ _ E1) by discriminate. apply IH; auto; lia.
  - rewrite (HU _ _ _ E1) by discriminate. exact H.
  - congruence.
Qed.

Lemma many_mono e1 e2 n m a emit nm0 p sg acc r :
  ext_ev e1 e2 -> n <= m -> many_with e1 n a emit nm0 p sg acc = r -> r <> SFuel -> many_with e2 m a emit nm0 p sg acc = r.
Proof. intros HE Hm. unfold many_with. apply loop_mono; auto. intros p0 sg0 r0. apply HE. Qed.

Lemma skip_mono e1 e2 n m a emit p sg r :
  ext_ev e1 e2 -> n <= m -> skip_with e1 n a emit p sg = r -> r <> SFuel -> skip_with e2 m a emit p sg = r.
Proof.
  intros HE Hm. unfold Spec.skip_with. destruct (negb (atom_eqb a NonAtomic)); [auto|].
  destruct (has_rule G _), (has_rule G _); auto; try (apply many_mono; auto).
  intros H Hr.
  destruct (many_with e1 n a emit _ p sg []) as [p1 sg1 f1| |] eqn:E1; try congruence.
  - rewrite (many_mono e1 e2 n m _ _ _ _ _ _ _ HE Hm E1) by discriminate.
    revert H Hr. apply loop_mono; auto.
    intros p0 sg0 r0 H0 Hr0.
    destruct (e1 a emit (EIdent _) p0 sg0) as [p2 sg2 f2| |] eqn:E2; try congruence.
    + rewrite (HE _ _ _ _ _ _ E2) by discriminate. revert H0 Hr0. apply many_mono; auto.
    + rewrite (HE _ _ _ _ _ _ E2) by discriminate. exact H0.
  - rewrite (many_mono e1 e2 n m _ _ _ _ _ _ _ HE Hm E1) by discriminate. exact H.
Qed.

Lemma rep_unit_mono e1 e2 n m a emit x : ext_ev e1 e2 -> n <= m -> ext_unit (rep_unit G e1 n a emit x) (rep_unit G e2 m a emit x).
Proof.
  intros HE Hm p sg r H Hr. unfold rep_unit in *.
  destruct (skip_with e1 n a emit p sg) as [p1 sg1 f1| |] eqn:E1; try congruence.
  - rewrite (skip_mono e1 e2 n m _ _ _ _ _ HE Hm E1) by discriminate.
    destruct (e1 a emit x p1 sg1) as [p2 sg2 f2| |] eqn:E2; try congruence; rewrite (HE _ _ _ _ _ _ E2) by discriminate; exact H.
  - rewrite (skip_mono e1 e2 n m _ _ _ _ _ HE Hm E1) by discriminate. exact H.
Qed.

Lemma rep_from_mono e1 e2 n m a emit x p sg acc r :
  ext_ev e1 e2 -> n <= m -> rep_from_with G e1 n a emit x p sg acc = r -> r <> SFuel -> rep_from_with G e2 m a emit x p sg acc = r.
Proof. intros HE Hm. unfold rep_from_with. apply loop_mono; auto. now apply rep_unit_mono. Qed.

Theorem eval_mono : forall n m, n <= m -> ext_ev (eval n) (eval m).
Proof.
  induction n as [|n IH]; intros m Hm a emit e p sg r H Hr; [cbn in H; congruence|].
  destruct m as [|m]; [lia|]. assert (Hnm : n <= m) by lia. specialize (IH m Hnm).
  cbn [Spec.eval] in *.
  (* sub-evaluations: rewrite a definite result of eval n into eval m *)
  Ltac sub IH E := rewrite (IH _ _ _ _ _ _ E) by discriminate.
  destruct e; auto.
  - (* EIdent *)
    repeat match goal with |- context [if ?c then _ else _] => destruct c; [exact H|] end.
    destruct (ascii_builtin n0); [exact H|].
    destruct (find_rule G n0) as [rl|]; [|exact H].
    destruct (rule_mode _ _ _ _) as [tk a2].
    destruct (Spec.eval G extras uprop w n a2 emit (rexpr rl) p sg) as [q sg2 f2| |] eqn:E1; try congruence; sub IH E1; exact H.
  - (* EPosPred *)
    destruct (Spec.eval G extras uprop w n a false e p sg) as [q sg2 f2| |] eqn:E1; try congruence; sub IH E1; exact H.
  - (* ENegPred *)
    destruct (Spec.eval G extras uprop w n a false e p sg) as [q sg2 f2| |] eqn:E1; try congruence; sub IH E1; exact H.
  - (* ESeq *)
    destruct (Spec.eval G extras uprop w n a emit e1 p sg) as [p1 sg1 f1| |] eqn:E1; try congruence; sub IH E1; [|exact H].
    destruct (skip_with (Spec.eval G extras uprop w n) n a emit p1 sg1) as [p2 sg2 f2| |] eqn:E2; try congruence.
    + rewrite (skip_mono _ _ n m _ _ _ _ _ IH Hnm E2) by discriminate.
      destruct (Spec.eval G extras uprop w n a emit e2 p2 sg2) as [p3 sg3 f3| |] eqn:E3; try congruence; sub IH E3; exact H.
    + rewrite (skip_mono _ _ n m _ _ _ _ _ IH Hnm E2) by discriminate. exact H.
  - (* EChoice *)
    destruct (Spec.eval G extras uprop w n a emit e1 p sg) as [p1 sg1 f1| |] eqn:E1; try congruence; sub IH E1; [exact H|].
    now apply IH.
  - (* EOpt *)
    destruct (Spec.eval G extras uprop w n a emit e p sg) as [p1 sg1 f1| |] eqn:E1; try congruence; sub IH E1; exact H.
  - (* ERep *)
    destruct (Spec.eval G extras uprop w n a emit e p sg) as [p1 sg1 f1| |] eqn:E1; try congruence; sub IH E1; [|exact H].
    revert H Hr. apply rep_from_mono; auto.
  - (* ERepOnce *)
    destruct extras.
    + destruct (Spec.eval G true uprop w n a emit e p sg) as [p1 sg1 f1| |] eqn:E1; try congruence; sub IH E1; [|exact H].
      revert H Hr. apply rep_from_mono; auto.
    + now apply IH.
  - destruct (unroll_node extras (ERepExact e n0)); [now apply IH|exact H].
  - destruct (unroll_node extras (ERepMin e n0)); [now apply IH|exact H].
  - destruct (unroll_node extras (ERepMax e n0)); [now apply IH|exact H].
  - destruct (unroll_node extras (ERepMinMax e m0 n0)); [now apply IH|exact H].
  - (* EPush *)
    destruct (Spec.eval G extras uprop w n a emit e p sg) as [p1 sg1 f1| |] eqn:E1; try congruence; sub IH E1; exact H.
  - (* ENodeTag *)
    destruct (Spec.eval G extras uprop w n a emit e p sg) as [p1 sg1 f1| |] eqn:E1; try congruence; sub IH E1; exact H.
Qed.

Corollary eval_deterministic n m a emit e p sg r1 r2 :
  eval n a emit e p sg = r1 -> eval m a emit e p sg = r2 -> r1 <> SFuel -> r2 <> SFuel -> r1 = r2.
Proof.
  intros H1 H2 N1 N2. destruct (Nat.le_ge_cases n m) as [L|L].
  - rewrite (eval_mono n m L _ _ _ _ _ _ H1 N1) in H2. congruence.
  - rewrite (eval_mono m n L _ _ _ _ _ _ H2 N2) in H1. congruence.
Qed.

End Facts.
