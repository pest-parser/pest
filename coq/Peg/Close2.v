(* C01, closing part 2: `conformance` (props/C01.v's C01_conformance).  The composition is made here, with C05
   (pipeline_preserves_outside_class, restorer_fixed) and the validator's verdict; what cannot be derived is
   collected in the boolean `in_class`.                                                               *)
From Coq Require Import List Arith NArith ZArith Bool String Lia.
Require Import PV.Peg.AstFacts.
Import ListNotations.
Require Import PV.Iter.Queue PV.Stack.Model PV.Comb.PState PV.Comb.Bytes PV.Comb.Prog PV.Comb.Exec PV.Comb.Utf8 PV.Comb.Utf8c.
Require Import PV.Peg.Ast PV.Peg.Spec PV.Peg.VmCompile.
Require Import PV.Opt.Sem PV.Opt.SemCong PV.Opt.MapExpr PV.Opt.List PV.Opt.Restore PV.Opt.Pipeline PV.Opt.Statement PV.Opt.PipelineProofs.
Require Import PV.Valid.Validator.
Require PV.Valid.Nullable.
Require Import PV.Peg.Refine0 PV.Peg.Refine3 PV.Peg.Refine6 PV.Peg.Refine10 PV.Peg.Refine11 PV.Peg.Close1.

(* what restore_on_err establishes (C05, operational) is what the simulation needs *)
Lemma alts_rokP RG k : forall e, (forall c, In c (alternatives e) -> fails_clean RG c) -> rokP RG k e.
Proof.
  induction e; cbn [alternatives rokP]; intros H; auto.
  - split; [apply IHe1|apply IHe2]; intros c Hc; apply H; apply in_or_app; auto.
  - split; [|split].
    + apply IHe1. intros c Hc. apply H. right. right. apply in_or_app. auto.
    + apply IHe2. intros c Hc. apply H. right. right. apply in_or_app. auto.
    + right. apply H. now left.
  - split; [apply IHe; intros c Hc; apply H; now right|right; apply H; now left].
  - split; [apply IHe; intros c Hc; apply H; now right|right; apply H; now left].
Qed.

Definition names_okb (G : grammar) : bool := forallb (fun r => negb (builtin_name (rname r))) G.
Definition literals_validb (G : grammar) : bool := forallb (fun r => forallb utf8b (estrs (rexpr r))) G.
Definition frag_okb (OG : ogrammar) (extras : bool) (uranges : name -> option (list (N * N))) : bool :=
  forallb (fun r => in_fragment OG extras uranges false (oexpr_of r)) OG &&
  (negb (has_orule OG (nm "WHITESPACE")) || fclean OG (K OG) (OIdent (nm "WHITESPACE"))) &&
  (negb (has_orule OG (nm "COMMENT")) || fclean OG (K OG) (OIdent (nm "COMMENT"))).

(* Every conjunct, and why it is there:
   1. lister_class false/true extras G = false   KNOWN FINDING (C05-lister): the lister rewrite `(a ~ b)* ~ a => a ~ (b ~ a)*`
      changes the language; C05 proves the pipeline only outside this class (both arithmetic variants of the unroller).
   2. names_okb G        hypothesis of C05 (`names_ok`): no rule is named like a name the semantics resolves before the user's
      rules (SOI, EOI, PEEK, POP, DROP, PEEK_ALL, POP_ALL, NEWLINE, ANY, the ASCII_ classes); validator.rs only rejects the pest keywords.
   3. literals_validb G  string constants are valid UTF-8 (always true of Rust Strings; needed by the char-boundary invariant).
   4. optimize .. G = Some OG   the optimizer returns normally: NOT YET PROVED for the whole pipeline (C05 proves totality of
      rotate, factor, unroll with reader-accepted counts), so it is checked.
   5. every rule body of OG is `in_fragment .. false`:
        - no PEEK / POP               KNOWN FINDING (C01-emptystack): the VM panics on an empty stack where Spec says no match;
                                      with them `C01_sound` / `C01_forward` still hold up to that panic;
        - `#t = e` only with `emits_last e`   KNOWN FINDING (C02/C01 row 13): otherwise the VM tags the previous node;
        - identifiers defined (validator: VUndef) and ORepOnce only with grammar-extras (to_optimized): derivable, NOT YET
          PROVED through the six passes, so checked on OG.
   6. WHITESPACE / COMMENT fail with an unmodified stack (`fclean`): restore_on_err does not wrap the implicit-skip loops;
      a WHITESPACE = _{ POP } would leave the stack popped where Spec restores it (potential finding, not in the suite).
   (That no rule of OG is named like a hard-coded VM name - `go_names`, needed since pest_vm lets rules shadow them - follows
   from conjunct 2.)  The restorer's job (`rok`) is NOT in the class: it is C05_restorer_fixed (flags fixpop = fixmap = true, the repaired code). *)
Definition in_class (ovf extras : bool) (uranges : name -> option (list (N * N))) (G : grammar) : bool :=
  negb (lister_class false extras G) && negb (lister_class true extras G) &&
  names_okb G && literals_validb G &&
  match optimize ovf extras true true G with
  | Some OG => frag_okb OG extras uranges
  | None => false
  end.

Section Conformance.
Variable kw builtin : name -> bool.
Variable vcfg : Validator.vcfg.
Variable ovf extras : bool.
Variable uranges : name -> option (list (N * N)).
Variable cfg : config.
Hypothesis Hcfg : cfg_ok cfg.
Variable G : grammar.
Hypothesis Hvalid : validate kw builtin vcfg G = [].
Hypothesis Hclass : in_class ovf extras uranges G = true.

Lemma class_parts :
  (forall o, lister_class o extras G = false) /\ valid_grammar G /\
  exists OG, optimize ovf extras true true G = Some OG /\ frag_okb OG extras uranges = true.
Proof.
  unfold in_class in Hclass. apply andb_true_iff in Hclass. destruct Hclass as [H H5].
  apply andb_true_iff in H. destruct H as [H H4]. apply andb_true_iff in H. destruct H as [H H3].
  apply andb_true_iff in H. destruct H as [H1 H2]. apply negb_true_iff in H1, H2.
  split; [intros [|]; assumption|]. split.
  - split; [|split].
    + intros r Hr. unfold literals_validb in H4. rewrite forallb_forall in H4. specialize (H4 r Hr).
      rewrite forallb_forall in H4. apply Forall_forall. intros x Hx. apply utf8b_sound. auto.
    + intros r Hr. unfold names_okb in H3. rewrite forallb_forall in H3. apply negb_true_iff. auto.
    + exact (validate_unique kw builtin vcfg G Hvalid).
  - destruct (optimize ovf extras true true G) as [OG|]; [|discriminate]. eauto.
Qed.

Theorem optimized_grammar_ok OG : optimize ovf extras true true G = Some OG -> frag_okb OG extras uranges = true ->
  valid_grammar G -> (forall o, lister_class o extras G = false) ->
  grammar_ok OG extras uranges false /\ same_meaning extras G (embed_g OG) /\ map rname (embed_g OG) = map rname G.
Proof.
  intros Ho Hf (VL & VN & VU) HL.
  destruct (optimize_inv _ _ _ _ _ _ Ho) as (G6 & OG0 & Ha & Hm & HR & He).
  pose proof (optimize_ast_names _ _ _ _ Ha) as Hn.
  pose proof (optimize_ast_gvalid _ _ _ _ VL Ha) as VL6.
  assert (V6 : valid_grammar G6).
  { split; [exact VL6|]. split.
    - intros r Hr. assert (Hin : In (rname r) (map rname G)) by (rewrite <- Hn; now apply in_map).
      apply in_map_iff in Hin. destruct Hin as (r0 & E0 & H0). rewrite <- E0. now apply VN.
    - unfold unique_names. rewrite Hn. exact VU. }
  assert (Hro : restorer_ok true true OG0).
  { apply (restorer_fixed extras G6 V6). unfold to_optimized_rules. rewrite Hm. reflexivity. }
  unfold frag_okb in Hf. apply andb_true_iff in Hf. destruct Hf as [Hf Hcm]. apply andb_true_iff in Hf. destruct Hf as [Hfr Hws].
  rewrite forallb_forall in Hfr. rewrite He. split; [|split; [|exact Hn]].
  - split.
    + rewrite <- (rule_names_embed OG), He, Hn. exact VU.
    + intros r Hr. assert (Hin : In (oname r) (map rname G)).
      { rewrite <- Hn, <- He, (rule_names_embed OG). now apply in_map. }
      apply in_map_iff in Hin. destruct Hin as (r0 & E0 & H0). pose proof (VN r0 H0) as Hb. rewrite E0 in Hb.
      destruct (is_builtin (oname r)) eqn:B; [apply is_builtin_builtin_name in B; congruence|reflexivity].
    + exact Hfr.
    + intros r Hr. apply alts_rokP. intros c Hc. rewrite HR in Hr |- *. exact (Hro r Hr c Hc).
    + intros r Hr. apply lits_valid_of_estrs.
      assert (Hin : In (embed_rule r) G6) by (rewrite <- He; unfold embed_g; now apply in_map).
      exact (VL6 _ Hin).
    + intros Hw. rewrite Hw in Hws. exact Hws.
    + intros Hc. rewrite Hc in Hcm. exact Hcm.
  - apply (pipeline_preserves_outside_class extras G (conj VL (conj VN VU)) HL ovf G6 Ha).
Qed.

(* C01, closed with C05 and the validator: for every grammar the validator accepts, in the class *)
Theorem conformance :
  exists OG, optimize ovf extras true true G = Some OG /\
  forall r w f, valid_utf8 w -> has_rule G r = true ->
    ((exists m q, vm_parse OG uranges cfg w m r false = OPairs q /\ forest q = f) <->
     (exists n p sg, spec_parse G extras (uprop uranges) w n r = SMatch p sg f)).
Proof.
  destruct class_parts as (HL & HV & OG & Ho & Hf). exists OG. split; [exact Ho|].
  destruct (optimized_grammar_ok OG Ho Hf HV HL) as (HG & HS & Hn). intros r w f Hw Hr.
  assert (IO : ident_ok OG uranges false r = true).
  { unfold ident_ok. unfold has_rule in Hr. destruct (find_rule G r) as [rr|] eqn:Ef; [|discriminate].
    destruct (AstFacts.find_rule_In _ _ _ Ef) as [Hin Hnm]. destruct HV as (_ & VN & _). pose proof (VN rr Hin) as Hb. rewrite Hnm in Hb.
    destruct (is_builtin r) eqn:B; [apply is_builtin_builtin_name in B; congruence|].
    rewrite <- has_rule_embed, (has_rule_names _ _ Hn). unfold has_rule. rewrite Ef. reflexivity. }
  rewrite (parse_iff_spec_total OG extras uranges false cfg w Hcfg HG Hw r false f eq_refl IO).
  assert (EQ : forall res, res <> SFuel ->
            ((exists n, spec_parse (embed_g OG) extras (uprop uranges) w n r = res) <->
             (exists n, spec_parse G extras (uprop uranges) w n r = res))).
  { intros res Hres. unfold spec_parse.
    pose proof (HS (uprop uranges) w NonAtomic true (EIdent r) 0 [] res Hw (Forall_nil _) (boundaryb_0 w Hw) (Forall_nil _)) as X.
    unfold evaluates, definite in X. split.
    - intros [n Hn']. destruct (proj1 X (ex_intro _ n (conj Hn' Hres))) as [n' [H' _]]. eauto.
    - intros [n Hn']. destruct (proj2 X (ex_intro _ n (conj Hn' Hres))) as [n' [H' _]]. eauto. }
  split.
  - intros (n & p & sg & Hn'). destruct (proj1 (EQ (SMatch p sg f) ltac:(discriminate)) (ex_intro _ n Hn')) as [n' H']. eauto.
  - intros (n & p & sg & Hn'). destruct (proj2 (EQ (SMatch p sg f) ltac:(discriminate)) (ex_intro _ n Hn')) as [n' H']. eauto.
Qed.

End Conformance.
