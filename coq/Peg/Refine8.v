(* C01, part 8: the implicit skip and one iteration of a repetition under the induction hypothesis. *)
From Coq Require Import List Arith NArith ZArith Bool String Lia.
Import ListNotations.
Require Import PV.Iter.Queue PV.Iter.QueueFacts.
Require Import PV.Stack.Model PV.Stack.Proofs PV.Comb.PState PV.Comb.Bytes PV.Comb.Prog PV.Comb.Exec.
Require Import PV.Comb.Frame PV.Comb.Contracts PV.Comb.Utf8 PV.Comb.Utf8b PV.Comb.Utf8c.
Require Import PV.Peg.Ast PV.Peg.Spec PV.Peg.SpecFacts PV.Peg.VmCompile.
Require Import PV.Peg.Refine0 PV.Peg.Refine1 PV.Peg.Refine2 PV.Peg.Refine3 PV.Peg.Refine4 PV.Peg.Refine5 PV.Peg.Refine6 PV.Peg.Refine7.

Lemma loop_ext n (u1 u2 : nat -> list str -> sres) : (forall p sg, u1 p sg = u2 p sg) ->
  forall p sg acc, loop n u1 p sg acc = loop n u2 p sg acc.
Proof.
  intros H. induction n as [|n IH]; intros p sg acc; [reflexivity|]. cbn [loop]. rewrite H.
  destruct (u2 p sg); auto.
Qed.

Section Skip.
Variable OG : ogrammar.
Variable extras : bool.
Variable uranges : name -> option (list (N * N)).
Variable pp : bool.
Variable cfg : config.
Variable w : list byte.
Hypothesis Hcfg : cfg_ok cfg.
Hypothesis HG : grammar_ok OG extras uranges pp.

Notation G := (embed_g OG).
Notation E := (vm_env OG uranges).
Notation ev := (eval G extras (uprop uranges) w).
Notation sim := (@sim cfg E pp w).
Notation vm_expr := (vm_expr OG uranges).
Notation vm_call := (vm_call OG uranges).
Notation vm_skip := (vm_skip OG uranges).
Notation sim_at := (sim_at OG extras uranges pp cfg w).
Notation K := (K OG).
Notation HE := (HE OG extras uranges pp HG).

Lemma sim_rule_call f n a emit p sg : sim_at f -> has_orule OG n = true -> is_builtin n = false ->
  fclean OG K (OIdent n) = true -> sim (clean True) (vm_call n) a emit p sg (ev f a emit (EIdent n) p sg) f.
Proof.
  intros IH Hr NB Hc.
  assert (Fr : in_fragment OG extras uranges pp (OIdent n) = true).
  { cbn [in_fragment]. unfold ident_ok. rewrite NB, Hr. reflexivity. }
  apply (sim_post w (clean (ClS OG (OIdent n)))); [intros s s'; apply clean_weaken; intros _; left; exists K; exact Hc|].
  apply (IH (OIdent n)); [exact Fr|exact Logic.I|exact Logic.I].
Qed.

Lemma sim_many f n a emit p sg : sim_at f -> has_orule OG n = true -> is_builtin n = false ->
  fclean OG K (OIdent n) = true ->
  sim (clean True) (PRepeat (vm_call n)) a emit p sg (many_with (ev f) f a emit n p sg []) f.
Proof.
  intros IH Hr NB Hc. unfold many_with. apply sim_repeat.
  apply (sim_loop w Hcfg HE _ (vm_call n) a emit (fun p0 sg0 => ev f a emit (EIdent n) p0 sg0) f); [apply pv_call| |auto].
  intros p0 sg0. now apply sim_rule_call.
Qed.

Lemma ws_nb : is_builtin (nm "WHITESPACE") = false. Proof. reflexivity. Qed.
Lemma cm_nb : is_builtin (nm "COMMENT") = false. Proof. reflexivity. Qed.

Lemma skip_tt_eq (evl : evaluator) f a emit p sg :
  match many_with evl f a emit (nm "WHITESPACE") p sg [] with
  | SMatch p1 sg1 f1 =>
      loop f (fun p sg => match evl a emit (EIdent (nm "COMMENT")) p sg with
                          | SMatch p2 sg2 f2 => many_with evl f a emit (nm "WHITESPACE") p2 sg2 f2
                          | r => r end) p1 sg1 f1
  | r => r
  end =
  sres_bind (many_with evl f a emit (nm "WHITESPACE") p sg [])
    (fun p1 sg1 => loop f (fun p sg => sres_bind (evl a emit (EIdent (nm "COMMENT")) p sg)
                                          (fun p2 sg2 => many_with evl f a emit (nm "WHITESPACE") p2 sg2 [])) p1 sg1 []).
Proof.
  destruct (many_with evl f a emit (nm "WHITESPACE") p sg []) as [p1 sg1 f1| |]; cbn [sres_bind]; auto.
  rewrite loop_acc. erewrite loop_ext; [reflexivity|]. intros p0 sg0. cbn beta.
  destruct (evl a emit (EIdent (nm "COMMENT")) p0 sg0) as [p2 sg2 f2| |]; cbn [sres_bind]; auto.
  unfold many_with. apply loop_acc.
Qed.

(* [x ; y] as a unit: a sequence of two *)
Lemma sim_pair (C C1 C2 : Prop) q1 q2 a emit p sg r1 (k : nat -> list str -> sres) m : prog_valid q1 ->
  sim (clean C1) q1 a emit p sg r1 m -> (forall p1 sg1, sim (clean C2) q2 a emit p1 sg1 (k p1 sg1) m) ->
  sim (clean C) (PSequence (PAndThen q1 q2)) a emit p sg (sres_bind r1 k) m.
Proof.
  intros V H1 H2. apply (sim_le w (S (S m))); [auto|]. apply sim_sequence, sim_andthen_body; [exact Hcfg|exact HE|exact V| |].
  - eapply sim_post; [apply clean_grown|exact H1].
  - intros p1 sg1 f1 _. eapply sim_post; [apply clean_grown|apply H2].
Qed.

Lemma sim_skip f a emit p sg : sim_at f -> sim (clean True) vm_skip a emit p sg (skip_with G (ev f) f a emit p sg) f.
Proof.
  intros IH. unfold skip_with, VmCompile.vm_skip. rewrite !has_rule_embed.
  pose proof (go_ws _ _ _ _ HG) as CW. pose proof (go_cm _ _ _ _ HG) as CC.
  destruct (has_orule OG (nm "WHITESPACE")) eqn:HW, (has_orule OG (nm "COMMENT")) eqn:HC;
    try (apply sim_ifna; destruct a; cbn [atom_eqb negb]; try apply sim_ok).
  - (* both *)
    rewrite skip_tt_eq. apply (sim_pair _ True True); [apply pv_call|apply sim_many; auto using ws_nb|].
    intros p1 sg1. apply sim_repeat.
    apply (sim_loop w Hcfg HE _ _ NonAtomic emit
             (fun p0 sg0 => sres_bind (ev f NonAtomic emit (EIdent (nm "COMMENT")) p0 sg0)
                              (fun p2 sg2 => many_with (ev f) f NonAtomic emit (nm "WHITESPACE") p2 sg2 [])) f); [| |auto].
    + cbn. split; apply pv_call.
    + intros p0 sg0. apply (sim_pair _ True True); [apply pv_call|apply sim_rule_call; auto using cm_nb|].
      intros p2 sg2. apply sim_many; auto using ws_nb.
  - apply sim_many; auto using ws_nb.
  - apply sim_many; auto using cm_nb.
  - destruct (negb (atom_eqb a NonAtomic)); apply sim_ok.
Qed.

Lemma skip_not_fail (evl : evaluator) f a emit p sg : skip_with G evl f a emit p sg <> SFail.
Proof. apply SpecFacts.skip_not_fail. Qed.

Lemma sim_rep_unit f x a emit p sg : sim_at f ->
  in_fragment OG extras uranges pp x = true -> rokP OG K x -> lits_valid x ->
  sim (clean True) (PSequence (PAndThen vm_skip (vm_expr x))) a emit p sg (rep_unit G (ev f) f a emit (embed x) p sg) f.
Proof.
  intros IH Fx Rx Lx.
  change (rep_unit G (ev f) f a emit (embed x) p sg) with
    (sres_bind (skip_with G (ev f) f a emit p sg) (fun p1 sg1 => ev f a emit (embed x) p1 sg1)).
  eapply sim_pair; [apply pv_skip|now apply sim_skip|].
  intros p1 sg1. now apply IH.
Qed.

End Skip.
