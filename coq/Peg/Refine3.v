(* C01, part 3: the simulation relation between Layer S results and Layer C results, and the
   compositional toolkit: one lemma per combinator.  `sim Q q a emit p sg r m` reads: from every machine
   state representing the Spec state (a, emit, p, sg), (1) if the Spec result r is definite, program q
   terminates with a result that matches it, and (2) if q returns Ok or Err within fuel m, r is definite.  *)
From Coq Require Import List Arith NArith ZArith Bool Lia.
Import ListNotations.
Require Import PV.Iter.Queue PV.Iter.QueueFacts.
Require Import PV.Stack.Model PV.Stack.Proofs PV.Comb.PState PV.Comb.Bytes PV.Comb.Prog PV.Comb.Exec.
Require Import PV.Comb.ExecInd PV.Comb.Frame PV.Comb.Contracts PV.Comb.Utf8 PV.Comb.Utf8b PV.Comb.Utf8c.
Require Import PV.Peg.Ast PV.Peg.Spec PV.Peg.SpecFacts PV.Peg.Refine0 PV.Peg.Refine1 PV.Peg.Refine2.

Definition sres_bind (r1 : sres) (k : nat -> list str -> sres) : sres :=
  match r1 with
  | SMatch p1 sg1 f1 =>
      match k p1 sg1 with SMatch p2 sg2 f2 => SMatch p2 sg2 (f1 ++ f2) | SFail => SFail | SFuel => SFuel end
  | SFail => SFail
  | SFuel => SFuel
  end.
Definition sres_opt (p : nat) (sg : list str) (r : sres) : sres :=
  match r with SMatch p1 sg1 f1 => SMatch p1 sg1 f1 | SFail => SMatch p sg [] | SFuel => SFuel end.
Definition sres_or (r1 r2 : sres) : sres :=
  match r1 with SMatch p1 sg1 f1 => SMatch p1 sg1 f1 | SFail => r2 | SFuel => SFuel end.
Definition sres_la (b : bool) (p : nat) (sg : list str) (r : sres) : sres :=
  match r with
  | SMatch _ _ _ => if b then SMatch p sg [] else SFail
  | SFail => if b then SFail else SMatch p sg []
  | SFuel => SFuel
  end.
Definition sres_node (tk : bool) (id : nat) (p : nat) (r : sres) : sres :=
  match r with
  | SMatch q sg2 f2 => SMatch q sg2 (if tk then [Node id None p q f2] else f2)
  | SFail => SFail
  | SFuel => SFuel
  end.

Lemma sres_bind_assoc r k1 k2 :
  sres_bind (sres_bind r k1) k2 = sres_bind r (fun p sg => sres_bind (k1 p sg) k2).
Proof.
  destruct r as [p1 sg1 f1| |]; cbn; auto. destruct (k1 p1 sg1) as [p2 sg2 f2| |]; cbn; auto.
  destruct (k2 p2 sg2) as [p3 sg3 f3| |]; cbn; auto. now rewrite app_assoc.
Qed.

Lemma loop_acc n (u : nat -> list str -> sres) : forall p sg acc,
  loop n u p sg acc = match loop n u p sg [] with SMatch p' sg' f => SMatch p' sg' (acc ++ f) | x => x end.
Proof.
  induction n as [|n IH]; intros p sg acc; [reflexivity|]. cbn [loop].
  destruct (u p sg) as [p1 sg1 f1| |]; auto.
  - rewrite (IH p1 sg1 (acc ++ f1)), (IH p1 sg1 ([] ++ f1)). cbn [app].
    destruct (loop n u p1 sg1 []); auto. now rewrite app_assoc.
  - now rewrite app_nil_r.
Qed.

Lemma loop_unroll n (u : nat -> list str -> sres) p sg :
  loop (S n) u p sg [] = sres_opt p sg (sres_bind (u p sg) (fun p1 sg1 => loop n u p1 sg1 [])).
Proof.
  cbn [loop]. destruct (u p sg) as [p1 sg1 f1| |]; cbn; auto.
  rewrite loop_acc. pose proof (loop_not_fail n u p1 sg1 []) as NF.
  destruct (loop n u p1 sg1 []); cbn; auto. congruence.
Qed.

Section Toolkit.
Context {cfg : config} {E : env} {pp : bool}.   (* pp: PEEK / POP may occur: the VM may then stop with the documented empty-stack panic *)
Variable w : list byte.
Hypothesis Hcfg : cfg_ok cfg.
Hypothesis HE : env_valid E.

Notation runs := (runs cfg E).
Notation halts := (halts cfg E).

(* the machine state s represents the Spec state (a, emit, p, sg) on input w *)
Record rep (a : atom) (emit : bool) (p : nat) (sg : list str) (s : pst) : Prop := {
  r_good : good s;
  r_input : input s = w;
  r_at : atomicity s = a;
  r_emit : lk_eqb (lookahead s) LNone = emit;
  r_pos : pos s = p;
  r_stack : cache (stack s) = sg }.

(* what a failure leaves behind: position and queue as before, and the stack contents too when C holds
   ("a failure of this expression leaves the stack contents alone") ... *)
Definition clean (C : Prop) (s s' : pst) : Prop :=
  pos s' = pos s /\ queue s' = queue s /\ (C -> cache (stack s') = cache (stack s)).
(* ... or, inside a sequence body, where nothing need be restored: the queue only grew *)
Definition grown (s s' : pst) : Prop := exists X, queue s' = X ++ queue s.

Definition res_sim (Q : pst -> pst -> Prop) (s : pst) (r : sres) (vr : res) : Prop :=
  match vr with
  | ROk s' => match r with
              | SMatch p' sg' f => pos s' = p' /\ cache (stack s') = sg' /\ queue s' = toks (length (queue s)) f ++ queue s
              | _ => False
              end
  | RErr s' => r = SFail /\ Q s s'
  | RPanic k => pp = true /\ k = PkEmptyStack
  | ROutOfFuel => False
  end.

Definition sim (Q : pst -> pst -> Prop) (q : prog) (a : atom) (emit : bool) (p : nat) (sg : list str) (r : sres) (m : nat) : Prop :=
  forall s, rep a emit p sg s ->
    (r <> SFuel -> exists vr, runs q s vr /\ res_sim Q s r vr) /\
    (halts m q s -> r <> SFuel).

Lemma sim_post (Q Q' : pst -> pst -> Prop) q a emit p sg r m :
  (forall s s', Q s s' -> Q' s s') -> sim Q q a emit p sg r m -> sim Q' q a emit p sg r m.
Proof.
  intros HQ H s R. destruct (H s R) as [F B]. split; [|exact B]. intros N. destruct (F N) as (vr & R1 & S1).
  exists vr. split; [exact R1|]. destruct vr; cbn in *; auto. destruct S1. auto.
Qed.

Lemma clean_grown C s s' : clean C s s' -> grown s s'.
Proof. intros (_ & H & _). exists []. exact H. Qed.

Lemma clean_weaken (C C' : Prop) s s' : (C' -> C) -> clean C s s' -> clean C' s s'.
Proof. intros HC (A1 & A2 & A3). repeat split; auto. Qed.

Lemma sim_eq Q q a emit p sg r r' m : r = r' -> sim Q q a emit p sg r m -> sim Q q a emit p sg r' m.
Proof. intros ->. auto. Qed.

Lemma sim_le m Q q a emit p sg r m' : m' <= m -> sim Q q a emit p sg r m -> sim Q q a emit p sg r m'.
Proof. intros L H s R. destruct (H s R) as [F B]. split; [exact F|]. intros Hh. apply B. eapply halts_le; eauto. Qed.

Lemma sim_total Q Q' q a emit p sg r m : r <> SFail -> sim Q q a emit p sg r m -> sim Q' q a emit p sg r m.
Proof.
  intros NF H s R. destruct (H s R) as [F B]. split; [|exact B]. intros N. destruct (F N) as (vr & R1 & S1).
  exists vr. split; [exact R1|]. destruct vr; cbn in *; auto. destruct S1. contradiction.
Qed.

(* a run that returned is the run the first clause speaks of *)
Lemma sim_run Q q a emit p sg r m s k : sim Q q a emit p sg r m -> rep a emit p sg s ->
  k <= m -> returns (exec cfg E k q s) -> r <> SFuel /\ res_sim Q s r (exec cfg E k q s).
Proof.
  intros H R L A. destruct (H s R) as [F B]. assert (N : r <> SFuel) by (apply B; exists k; auto).
  split; [exact N|]. destruct (F N) as (vr & R1 & S1). replace (exec cfg E k q s) with vr; [exact S1|].
  apply (runs_det cfg E q s); [exact R1|]. split; [intros Ho; rewrite Ho in A; exact A|eauto].
Qed.

Lemma rep_step q a emit p sg s s' p' sg' (okb : bool) : rep a emit p sg s -> prog_valid q ->
  runs q s (if okb then ROk s' else RErr s') -> pos s' = p' -> cache (stack s') = sg' -> rep a emit p' sg' s'.
Proof.
  intros [G I A L P S] V R P' S'.
  pose proof (run_inv cfg E Hcfg HE q s _ G V R) as K.
  assert (K' : good s' /\ keeps s s') by (destruct okb; exact K). destruct K' as [G' [k1 k2 k3 k4]].
  split; auto; congruence.
Qed.

Lemma rep_same a emit p sg s s' : rep a emit p sg s ->
  input s' = input s -> pos s' = pos s -> stack s' = stack s -> limit s' = limit s ->
  atomicity s' = atomicity s -> lookahead s' = lookahead s -> rep a emit p sg s'.
Proof.
  intros [G I A L P S] e1 e2 e3 e4 e5 e6. split; try congruence. eapply good_same; eauto.
Qed.

Lemma rep_checkpoint a emit p sg s : rep a emit p sg s -> rep a emit p sg (checkpoint s).
Proof. intros [G I A L P S]. split; auto. now apply good_checkpoint. Qed.

Lemma rep_limit a emit p sg s : rep a emit p sg s -> limit s = None.
Proof. intros R. apply (g_lim _ (r_good _ _ _ _ _ R)). Qed.

Lemma toks_after s s1 s2 f1 f2 : queue s1 = toks (length (queue s)) f1 ++ queue s ->
  queue s2 = toks (length (queue s1)) f2 ++ queue s1 -> queue s2 = toks (length (queue s)) (f1 ++ f2) ++ queue s.
Proof.
  intros A3 B3. rewrite B3, A3, app_length, toks_length, toks_app, <- app_assoc.
  replace (2 * fsize f1 + length (queue s)) with (length (queue s) + 2 * fsize f1) by lia. reflexivity.
Qed.

Lemma sim_prim Q o a emit p sg r m : r <> SFuel ->
  (forall s, rep a emit p sg s -> res_sim Q s r (exec_prim cfg o s)) -> sim Q (PPrim o) a emit p sg r m.
Proof.
  intros N H s R. split; [|intros _; exact N]. intros _. specialize (H s R).
  exists (exec_prim cfg o s). split; [|exact H]. apply runs_prim; [reflexivity|].
  intros Ho. rewrite Ho in H. exact H.
Qed.

Lemma sim_orelse (C1 C2 : Prop) q1 q2 a emit p sg r1 r2 m : prog_valid q1 -> C1 ->
  sim (clean C1) q1 a emit p sg r1 m -> sim (clean C2) q2 a emit p sg r2 m ->
  sim (clean C2) (POrElse q1 q2) a emit p sg (sres_or r1 r2) (S m).
Proof.
  intros V HC1 H1 H2 s R.
  assert (R' : forall s1, runs q1 s (RErr s1) -> clean C1 s s1 -> rep a emit p sg s1).
  { intros s1 R1 (A1 & A2 & A3). apply (rep_step q1 a emit p sg s s1 p sg false R V R1).
    - rewrite A1. apply (r_pos _ _ _ _ _ R).
    - rewrite A3 by exact HC1. apply (r_stack _ _ _ _ _ R). }
  split.
  - intros N. assert (N1 : r1 <> SFuel) by (intros ->; apply N; reflexivity).
    destruct (proj1 (H1 s R) N1) as (vr1 & R1 & S1).
    destruct vr1 as [s1|s1|k|]; cbn in S1.
    + exists (ROk s1). split; [apply runs_orelse_stop; [exact R1|discriminate]|].
      destruct r1; try contradiction. exact S1.
    + destruct S1 as (-> & S1). cbn [sres_or] in *.
      destruct (proj1 (H2 s1 (R' s1 R1 S1)) N) as (vr2 & R2 & S2).
      exists vr2. split; [eapply runs_orelse_err; eauto|]. destruct S1 as (A1 & A2 & A3).
      destruct vr2 as [s2|s2|k|]; cbn in *; auto.
      * destruct r2; try contradiction. rewrite A2 in S2. exact S2.
      * destruct S2 as (B0 & B1 & B2 & B3). split; [exact B0|]. split; [congruence|]. split; [congruence|].
        intros HC. rewrite B3 by exact HC. apply A3. exact HC1.
    + exists (RPanic k). split; [apply runs_orelse_stop; [exact R1|discriminate]|exact S1].
    + contradiction.
  - intros (k & L & A). destruct k as [|k]; [contradiction|]. cbn [exec] in A.
    destruct (exec cfg E k q1 s) as [s1|s1|kk|] eqn:Ex; try contradiction;
      destruct (sim_run _ _ _ _ _ _ _ _ s k H1 R ltac:(lia) ltac:(rewrite Ex; exact I)) as [N1 S1]; rewrite Ex in S1; cbn in S1.
    + destruct r1; try contradiction. discriminate.
    + destruct S1 as (-> & S1). cbn [sres_or].
      assert (R1 : runs q1 s (RErr s1)) by (split; [discriminate|eauto]).
      apply (proj2 (H2 s1 (R' s1 R1 S1))). exists k. split; [lia|exact A].
Qed.

(* Q1, Q2: what a failure of the first, of the second component leaves; Q: of the composition *)
Lemma sim_andthen (Q1 Q2 Q : pst -> pst -> Prop) q1 q2 a emit p sg r1 (k : nat -> list str -> sres) m :
  (forall s s', Q1 s s' -> Q s s') -> (forall s s1 s', grown s s1 -> Q2 s1 s' -> Q s s') -> prog_valid q1 ->
  sim Q1 q1 a emit p sg r1 m ->
  (forall p1 sg1 f1, r1 = SMatch p1 sg1 f1 -> sim Q2 q2 a emit p1 sg1 (k p1 sg1) m) ->
  sim Q (PAndThen q1 q2) a emit p sg (sres_bind r1 k) (S m).
Proof.
  intros HQ1 HQ2 V H1 H2 s R. split.
  - intros N. assert (N1 : r1 <> SFuel) by (intros ->; apply N; reflexivity).
    destruct (proj1 (H1 s R) N1) as (vr1 & R1 & S1).
    destruct vr1 as [s1|s1|kk|]; cbn in S1.
    + destruct r1 as [p1 sg1 f1| |]; try contradiction. destruct S1 as (A1 & A2 & A3). cbn [sres_bind] in *.
      assert (N2 : k p1 sg1 <> SFuel) by (intros Hk; rewrite Hk in N; apply N; reflexivity).
      pose proof (rep_step q1 a emit p sg s s1 p1 sg1 true R V R1 A1 A2) as R'.
      destruct (proj1 (H2 p1 sg1 f1 eq_refl s1 R') N2) as (vr2 & R2 & S2).
      exists vr2. split; [eapply runs_andthen_ok; eauto|].
      destruct vr2 as [s2|s2|kk|]; cbn in *; auto.
      * destruct (k p1 sg1) as [p2 sg2 f2| |]; try contradiction. destruct S2 as (B1 & B2 & B3).
        split; [exact B1|]. split; [exact B2|]. eapply toks_after; eauto.
      * destruct S2 as (B0 & B1). rewrite B0. split; [reflexivity|]. apply (HQ2 s s1 s2); [eexists; exact A3|exact B1].
    + destruct S1 as (-> & S1). exists (RErr s1). split; [apply runs_andthen_stop; [exact R1|discriminate]|].
      cbn. auto.
    + exists (RPanic kk). split; [apply runs_andthen_stop; [exact R1|discriminate]|exact S1].
    + contradiction.
  - intros (j & L & A). destruct j as [|j]; [contradiction|]. cbn [exec] in A.
    destruct (exec cfg E j q1 s) as [s1|s1|kk|] eqn:Ex; try contradiction;
      destruct (sim_run _ _ _ _ _ _ _ _ s j H1 R ltac:(lia) ltac:(rewrite Ex; exact I)) as [N1 S1]; rewrite Ex in S1; cbn in S1.
    + destruct r1 as [p1 sg1 f1| |]; try contradiction. destruct S1 as (A1 & A2 & A3). cbn [sres_bind].
      assert (R1 : runs q1 s (ROk s1)) by (split; [discriminate|eauto]).
      pose proof (rep_step q1 a emit p sg s s1 p1 sg1 true R V R1 A1 A2) as R'.
      assert (N2 : k p1 sg1 <> SFuel) by (apply (proj2 (H2 p1 sg1 f1 eq_refl s1 R')); exists j; split; [lia|exact A]).
      destruct (k p1 sg1); congruence.
    + destruct S1 as (-> & _). discriminate.
Qed.

Lemma grown_trans s s1 s' : grown s s1 -> grown s1 s' -> grown s s'.
Proof. intros [X HX] [Y HY]. exists (Y ++ X). rewrite HY, HX, app_assoc. reflexivity. Qed.

Lemma sim_andthen_body q1 q2 a emit p sg r1 (k : nat -> list str -> sres) m : prog_valid q1 ->
  sim grown q1 a emit p sg r1 m ->
  (forall p1 sg1 f1, r1 = SMatch p1 sg1 f1 -> sim grown q2 a emit p1 sg1 (k p1 sg1) m) ->
  sim grown (PAndThen q1 q2) a emit p sg (sres_bind r1 k) (S m).
Proof. apply sim_andthen; [auto|apply grown_trans]. Qed.

(* The combinators that bracket one run of their body (ExecInd.bracket_of): it is enough to say what their
   exits make of a body's Ok and of its Err. *)
Lemma sim_bracket (Q Q' : pst -> pst -> Prop) q b a a' emit emit' p sg r r' m : bracket_of q = Some b ->
  (forall s, rep a emit p sg s -> rep a' emit' p sg (b_enter b s)) -> (r' = SFuel <-> r = SFuel) ->
  (forall s s1, rep a emit p sg s -> runs (b_body b) (b_enter b s) (ROk s1) -> res_sim Q (b_enter b s) r (ROk s1) ->
                res_sim Q' s r' (b_ok b s s1)) ->
  (forall s s1, rep a emit p sg s -> runs (b_body b) (b_enter b s) (RErr s1) -> res_sim Q (b_enter b s) r (RErr s1) ->
                res_sim Q' s r' (b_err b s s1)) ->
  sim Q (b_body b) a' emit' p sg r m -> sim Q' q a emit p sg r' (S m).
Proof.
  intros B Hrep Hf Hok Herr H s R. pose proof (rep_limit _ _ _ _ _ R) as L. destruct (H _ (Hrep s R)) as [F Bk]. split.
  - intros N. destruct (F (fun X => N (proj2 Hf X))) as (vr & R1 & S1).
    assert (S' : res_sim Q' s r' (bind vr (b_ok b s) (b_err b s))) by (destruct vr; [apply Hok|apply Herr|exact S1|exact S1]; auto).
    exists (bind vr (b_ok b s) (b_err b s)). split; [|exact S']. apply (runs_wrap cfg E q b s vr B L R1).
    intros Ho. rewrite Ho in S'. exact S'.
  - intros Hh X. apply (Bk (halts_wrap cfg E q b s m B L Hh)), Hf, X.
Qed.

(* sequence and restore_on_err leave a matching body the same way: the snapshot is dropped *)
Lemma cleared_ok (Q Q' : pst -> pst -> Prop) q a emit p sg r s s1 : rep a emit p sg s -> runs q (checkpoint s) (ROk s1) ->
  res_sim Q (checkpoint s) r (ROk s1) -> res_sim Q' s r (lift ROk (checkpoint_ok s1)).
Proof.
  intros R R1 S1. pose proof (r_good _ _ _ _ _ R) as G.
  destruct (checkpoint_run cfg E q s (checkpoint s) s1 true G (g_wf _ G) eq_refl R1) as [(st & Ec & Cc) _].
  unfold checkpoint_ok. rewrite Ec. cbn. destruct r; try contradiction. rewrite Cc. exact S1.
Qed.

Lemma sim_sequence (C : Prop) q a emit p sg r m : sim grown q a emit p sg r m -> sim (clean C) (PSequence q) a emit p sg r (S m).
Proof.
  apply (sim_bracket grown (clean C) (PSequence q) _ a a emit emit p sg r r m eq_refl); [apply rep_checkpoint|tauto| |];
    intros s s1 R R1 S1; pose proof (r_good _ _ _ _ _ R) as G; cbn [b_ok b_err].
  - exact (cleared_ok _ _ q a emit p sg r s s1 R R1 S1).
  - destruct (checkpoint_run cfg E q s (checkpoint s) s1 false G (g_wf _ G) eq_refl R1) as [_ (st & Er & Cc)].
    destruct S1 as (-> & X & A1). unfold restore_st. cbn [stack set_queue set_pos]. rewrite Er. cbn.
    split; [reflexivity|]. split; [reflexivity|]. split; [rewrite A1; apply vtruncate_app; reflexivity|intros _; exact Cc].
Qed.

Lemma sim_optional (C : Prop) Q q a emit p sg r m : C -> sim (clean C) q a emit p sg r m ->
  sim Q (POptional q) a emit p sg (sres_opt p sg r) (S m).
Proof.
  intros HC. apply (sim_bracket (clean C) Q (POptional q) _ a a emit emit p sg r _ m eq_refl); [auto|destruct r; cbn; intuition congruence| |];
    intros s s1 R R1 S1; cbn [b_ok b_err] in *.
  - destruct r; try contradiction. exact S1.
  - destruct S1 as (-> & A1 & A2 & A3). cbn. rewrite A1, A2, A3 by exact HC.
    split; [apply (r_pos _ _ _ _ _ R)|]. split; [apply (r_stack _ _ _ _ _ R)|reflexivity].
Qed.

End Toolkit.

Arguments r_good {w a emit p sg s}.
Arguments r_input {w a emit p sg s}.
Arguments r_at {w a emit p sg s}.
Arguments r_emit {w a emit p sg s}.
Arguments r_pos {w a emit p sg s}.
Arguments r_stack {w a emit p sg s}.
