(* C01, part 6: grammar-level definitions: the fragment, the side conditions (`rok` / `rokP`, literal
   validity, defined identifiers), name resolution of Spec vs VM, validity of the compiled programs.  *)
From Coq Require Import List Arith NArith ZArith Bool String Lia.
Import ListNotations.
Require Import PV.Iter.Queue PV.Iter.QueueFacts.
Require Import PV.Stack.Model PV.Stack.Proofs PV.Comb.PState PV.Comb.Bytes PV.Comb.Prog PV.Comb.Exec.
Require Import PV.Comb.Frame PV.Comb.Contracts PV.Comb.Utf8 PV.Comb.Utf8b PV.Comb.Utf8c.
Require Import PV.Peg.Ast PV.Peg.AstFacts PV.Peg.Spec PV.Peg.VmCompile.
Require Import PV.Peg.Refine0 PV.Peg.Refine1 PV.Peg.Refine2 PV.Peg.Refine3 PV.Peg.Refine4 PV.Peg.Refine5.

Definition builtin_names : list name :=
  [nm "ANY"; nm "EOI"; nm "SOI"; nm "PEEK"; nm "PEEK_ALL"; nm "POP"; nm "POP_ALL"; nm "DROP";
   nm "ASCII_DIGIT"; nm "ASCII_NONZERO_DIGIT"; nm "ASCII_BIN_DIGIT"; nm "ASCII_OCT_DIGIT"; nm "ASCII_HEX_DIGIT";
   nm "ASCII_ALPHA_LOWER"; nm "ASCII_ALPHA_UPPER"; nm "ASCII_ALPHA"; nm "ASCII_ALPHANUMERIC"; nm "ASCII"; nm "NEWLINE"].
Definition is_builtin (n : name) : bool := existsb (str_eqb n) builtin_names.

Lemma builtin_in n : is_builtin n = true -> In n builtin_names.
Proof.
  unfold is_builtin. rewrite existsb_exists. intros (x & Hx & Eq). apply str_eqb_eq in Eq. now subst.
Qed.
Lemma not_builtin n c : is_builtin n = false -> In c builtin_names -> str_eqb n c = false.
Proof.
  unfold is_builtin. intros H Hc. destruct (str_eqb n c) eqn:Eq; auto.
  assert (existsb (str_eqb n) builtin_names = true) by (apply existsb_exists; eauto). congruence.
Qed.

(* an if-chain over names, read as a table: a name that is not hard-coded falls through every chain
   whose keys are hard-coded names *)
Fixpoint lookup {A} (tbl : list (name * A)) (d : A) (n : name) : A :=
  match tbl with [] => d | (c, x) :: t => if str_eqb n c then x else lookup t d n end.

Lemma lookup_miss {A} (tbl : list (name * A)) d n :
  forallb is_builtin (map fst tbl) = true -> is_builtin n = false -> lookup tbl d n = d.
Proof.
  intros H NB. induction tbl as [|[c x] t IH]; [reflexivity|]. cbn [forallb map fst] in H. apply andb_true_iff in H. destruct H as [Hc Ht].
  cbn [lookup]. rewrite (not_builtin n c NB (builtin_in c Hc)). auto.
Qed.

Lemma lookup_all {A} (P : A -> Prop) tbl d n : Forall (fun cx => P (snd cx)) tbl -> P d -> P (lookup tbl d n).
Proof.
  intros H Hd. induction H as [|[c x] t Hx _ IH]; [exact Hd|]. cbn [lookup]. destruct (str_eqb n c); [exact Hx|exact IH].
Qed.

Lemma lookup_hit {A} (P : A -> Prop) tbl d n :
  In n (map fst tbl) -> Forall (fun cx => n = fst cx -> P (snd cx)) tbl -> P (lookup tbl d n).
Proof.
  intros Hin H. induction H as [|[c x] t Hx _ IH]; [destruct Hin|]. cbn [lookup].
  destruct (str_eqb n c) eqn:Eq; [exact (Hx (proj1 (str_eqb_eq _ _) Eq))|]. apply IH. destruct Hin as [<-|Hin]; [|exact Hin].
  cbn [fst] in Eq. rewrite str_eqb_refl in Eq. discriminate.
Qed.

(* the first chain of tests `str_eqb n c` in the goal becomes a `lookup`; k gets table, last branch and n *)
Ltac with_chain k :=
  let rec tbl_of t :=
    lazymatch t with
    | (if str_eqb _ ?c then ?x else ?r) => let tl := tbl_of r in constr:((c, x) :: tl)
    | _ => lazymatch type of t with ?A => constr:(@nil (name * A)) end
    end in
  let rec last_of t := lazymatch t with (if str_eqb _ _ then _ else ?r) => last_of r | _ => t end in
  match goal with
  | |- context [if str_eqb ?n ?c then ?x else ?r] =>
      let t := constr:(if str_eqb n c then x else r) in
      let tbl := tbl_of t in let d := last_of t in change t with (lookup tbl d n); k tbl d n
  end.
Ltac as_lookup := with_chain ltac:(fun _ _ _ => idtac).
(* NB : is_builtin n = false: that chain is replaced by its last branch *)
Ltac skip_chain NB := with_chain ltac:(fun tbl d n => rewrite (lookup_miss tbl d n eq_refl NB)).

Section Gram.
Variable OG : ogrammar.
Variable extras : bool.
Variable uranges : name -> option (list (N * N)).
Variable pp : bool.

Definition uprop (n : name) : option (N -> bool) := option_map in_ranges (uranges n).

(* a failing expression leaves the stack contents alone (k bounds the chain of rule names followed) *)
Fixpoint fclean_e (rec : oexpr -> bool) (e : oexpr) : bool :=
  match e with
  | OIdent n =>
      if is_builtin n then negb (str_eqb n (nm "POP") || str_eqb n (nm "POP_ALL"))
      else match find_orule OG n with Some r => rec (oexpr_of r) | None => true end
  | OChoice l r => fclean_e rec l && fclean_e rec r
  | OPush x => fclean_e rec x
  | ONodeTag x _ => fclean_e rec x
  | _ => true
  end.
Fixpoint fclean (k : nat) (e : oexpr) : bool :=
  match k with O => fclean_e (fun _ => false) e | S k' => fclean_e (fclean k') e end.

(* what restore_on_err establishes: wherever the VM goes on after a failure without a sequence or a
   look-ahead around it (first alternative of a choice, body of an optional, first iteration of a
   repetition), that failure is clean *)
Fixpoint rok (k : nat) (e : oexpr) : bool :=
  match e with
  | OChoice l r => rok k l && rok k r && fclean k l
  | OOpt x | ORep x => rok k x && fclean k x
  | OPosPred x | ONegPred x | ORepOnce x | OPush x | ONodeTag x _ | ORestoreOnErr x => rok k x
  | OSeq l r => rok k l && rok k r
  | _ => true
  end.

(* the semantic reading of "fails clean" (what C05 proves of restore_on_err's output: Opt.Statement.fails_clean) *)
Definition sem_clean (c : oexpr) : Prop :=
  forall cfg uranges' fuel s a s', wf s -> Inv (stack s) a ->
    exec cfg (vm_env OG uranges') fuel (vm_expr OG uranges' c) s = RErr s' -> cache (stack s') = cache (stack s).
Definition cleanP (k : nat) (e : oexpr) : Prop := fclean k e = true \/ sem_clean e.

(* `rok` with either reading of cleanliness at each alternative *)
Fixpoint rokP (k : nat) (e : oexpr) : Prop :=
  match e with
  | OChoice l r => rokP k l /\ rokP k r /\ cleanP k l
  | OOpt x | ORep x => rokP k x /\ cleanP k x
  | OPosPred x | ONegPred x | ORepOnce x | OPush x | ONodeTag x _ | ORestoreOnErr x => rokP k x
  | OSeq l r => rokP k l /\ rokP k r
  | _ => True
  end.

Lemma rok_rokP k e : rok k e = true -> rokP k e.
Proof.
  induction e; cbn [rok rokP]; auto; intros H; repeat (apply andb_true_iff in H; destruct H as [H ?]);
    repeat split; auto; left; assumption.
Qed.

Definition is_some {A} (o : option A) : bool := match o with Some _ => true | None => false end.

(* identifiers: hard-coded names (PEEK/POP only when pp), defined rules, Unicode properties *)
Definition ident_ok (n : name) : bool :=
  if is_builtin n then pp || negb (str_eqb n (nm "PEEK") || str_eqb n (nm "POP"))
  else has_orule OG n || is_some (uranges n).

(* a tagged expression must produce a node of its own whenever it matches (else the VM tags the previous node) *)
Fixpoint emits_last (e : oexpr) : bool :=
  match e with
  | OIdent n =>
      negb (is_builtin n) && negb (is_special_name n) &&
      match find_orule OG n with
      | Some r => match oty r with RCompound | RNonAtomic => true | _ => false end
      | None => false
      end
  | OSeq _ r => emits_last r
  | OChoice l r => emits_last l && emits_last r
  | ORepOnce x | OPush x | ONodeTag x _ | ORestoreOnErr x => emits_last x
  | _ => false
  end.

Fixpoint in_fragment (e : oexpr) : bool :=
  match e with
  | OStr _ | OInsens _ | ORange _ _ | OSkip _ | OPushLiteral _ | OPeekSlice _ _ => true
  | OIdent n => ident_ok n
  | OPosPred x | ONegPred x | OOpt x | ORep x | OPush x | ORestoreOnErr x => in_fragment x
  | ORepOnce x => extras && in_fragment x
  | OSeq l r | OChoice l r => in_fragment l && in_fragment r
  | ONodeTag x _ => in_fragment x && emits_last x
  end.

(* string constants are Rust &str: valid UTF-8 *)
Fixpoint lits_valid (e : oexpr) : Prop :=
  match e with
  | OStr s | OInsens s | OPushLiteral s => valid_utf8 s
  | OSkip ss => Forall valid_utf8 ss
  | OPosPred x | ONegPred x | OOpt x | ORep x | ORepOnce x | OPush x | ONodeTag x _ | ORestoreOnErr x => lits_valid x
  | OSeq l r | OChoice l r => lits_valid l /\ lits_valid r
  | _ => True
  end.

(* the depth to which `fclean` follows rule names: a chain of distinct names has at most as many as the grammar has rules *)
Definition K : nat := List.length OG.

Record grammar_ok : Prop := {
  go_nodup : NoDup (map oname OG);
  (* pest_vm lets a rule of the grammar shadow a hard-coded name (fix 76a77f3), the Spec resolves the hard-coded names
     first: the two agree only when no rule bears such a name *)
  go_names : forall r, In r OG -> is_builtin (oname r) = false;
  go_frag : forall r, In r OG -> in_fragment (oexpr_of r) = true;
  go_rok : forall r, In r OG -> rokP K (oexpr_of r);
  go_lits : forall r, In r OG -> lits_valid (oexpr_of r);
  (* the implicit-skip repetitions `WHITESPACE*` / `COMMENT*` go on after a failed call *)
  go_ws : has_orule OG (nm "WHITESPACE") = true -> fclean K (OIdent (nm "WHITESPACE")) = true;
  go_cm : has_orule OG (nm "COMMENT") = true -> fclean K (OIdent (nm "COMMENT")) = true }.

Lemma find_rule_embed n : find_rule (embed_g OG) n = option_map embed_rule (find_orule OG n).
Proof.
  induction OG as [|r g IH]; [reflexivity|]. cbn [embed_g map find_rule find_orule].
  fold (embed_g g). rewrite IH. destruct (find_orule g n); cbn; [reflexivity|].
  destruct (str_eqb (oname r) n); reflexivity.
Qed.

Lemma has_rule_embed n : has_rule (embed_g OG) n = has_orule OG n.
Proof. unfold has_rule, has_orule. rewrite find_rule_embed. destruct (find_orule OG n); reflexivity. Qed.

Lemma rule_names_embed : map rname (embed_g OG) = map oname OG.
Proof. unfold embed_g. rewrite map_map. apply map_ext. reflexivity. Qed.

Lemma rule_id_embed n : rule_id (embed_g OG) n = orule_id OG n.
Proof.
  unfold rule_id, orule_id, rule_names, onames. rewrite rule_names_embed. unfold embed_g. rewrite map_length. reflexivity.
Qed.

Lemma find_orule_some g n r : find_orule g n = Some r -> In r g /\ oname r = n.
Proof.
  induction g as [|r0 g IH]; [discriminate|]. cbn [find_orule].
  destruct (find_orule g n) as [x|] eqn:Ef.
  - intros [= <-]. destruct (IH eq_refl) as [H1 H2]. split; [right; exact H1|exact H2].
  - destruct (str_eqb (oname r0) n) eqn:Eq; [|discriminate]. intros [= <-].
    split; [left; reflexivity|now apply str_eqb_eq].
Qed.

Lemma builtin_not_rule n : (forall r, In r OG -> is_builtin (oname r) = false) -> is_builtin n = true -> has_orule OG n = false.
Proof.
  intros H B. unfold has_orule. destruct (find_orule OG n) as [r|] eqn:Ef; [|reflexivity].
  destruct (find_orule_some OG n r Ef) as [Hin Hn]. specialize (H r Hin). congruence.
Qed.

Lemma index_of_find g n r : NoDup (map oname g) -> find_orule g n = Some r ->
  forall k, exists i, index_of (map oname g) n k = Some (k + i) /\ nth_error g i = Some r.
Proof.
  induction g as [|r0 g IH]; [discriminate|]. intros ND Hf k. cbn [find_orule] in Hf. cbn [map index_of].
  inversion ND as [|? ? Hnin ND']; subst.
  destruct (find_orule g n) as [x|] eqn:Ef.
  - injection Hf as ->. destruct (find_orule_some g n r Ef) as [Hin Hn].
    assert (Ne : oname r0 <> n). { intros Heq. apply Hnin. rewrite Heq, <- Hn. now apply in_map. }
    rewrite (proj2 (str_eqb_neq _ _) Ne). destruct (IH ND' eq_refl (S k)) as (i & H1 & H2).
    exists (S i). split; [rewrite H1; f_equal; lia|exact H2].
  - destruct (str_eqb (oname r0) n) eqn:Eq; [|discriminate]. injection Hf as ->.
    exists 0. split; [f_equal; lia|reflexivity].
Qed.

Lemma env_lookup n r : NoDup (map oname OG) -> find_orule OG n = Some r ->
  vm_env OG uranges (orule_id OG n) = Some (vm_rule_body OG uranges r).
Proof.
  intros ND Hf. destruct (index_of_find OG n r ND Hf 0) as (i & H1 & H2).
  unfold vm_env, orule_id, onames. rewrite H1. cbn [plus]. rewrite H2. reflexivity.
Qed.

Lemma pv_call n : prog_valid (vm_call OG uranges n).
Proof.
  unfold vm_call, prim_range. destruct (has_orule OG n); [exact I|]. as_lookup. apply lookup_all.
  - repeat (apply Forall_cons; [cbn; repeat split; try (apply valid_ascii; repeat constructor)|]). apply Forall_nil.
  - destruct (uranges n); cbn; auto.
Qed.

Lemma pv_skip : prog_valid (vm_skip OG uranges).
Proof.
  unfold vm_skip. pose proof (pv_call (nm "WHITESPACE")). pose proof (pv_call (nm "COMMENT")).
  destruct (has_orule OG _), (has_orule OG _); cbn [prog_valid prim_valid]; auto.
Qed.

Lemma pv_expr e : lits_valid e -> prog_valid (vm_expr OG uranges e).
Proof.
  induction e; cbn [lits_valid vm_expr prog_valid prim_valid]; auto; try tauto.
  - intros _. apply pv_call.
  - intros [H1 H2]. pose proof pv_skip. auto.
  - intros H. pose proof pv_skip. auto.
  - intros H. pose proof pv_skip. auto.
Qed.

Lemma pv_rule_body r : lits_valid (oexpr_of r) -> prog_valid (vm_rule_body OG uranges r).
Proof.
  intros H. apply pv_expr in H. unfold vm_rule_body. destruct (is_special_name _), (oty r); cbn; exact H.
Qed.

Lemma env_valid_vm : (forall r, In r OG -> lits_valid (oexpr_of r)) -> env_valid (vm_env OG uranges).
Proof.
  intros H f q. unfold vm_env. destruct (nth_error OG f) as [r|] eqn:En; [|discriminate].
  intros [= <-]. apply pv_rule_body. apply H. eapply nth_error_In; eauto.
Qed.

End Gram.
