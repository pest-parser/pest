(* C01, part 12: termination transfers from the VM to the Spec.  `tdef q a emit p sg r m` reads: whenever
   program q, started in a state representing (a, emit, p, sg), returns (Ok or Err, not a panic) within
   fuel m, the Spec result r is definite: the second clause of `sim`.                                  *)
From Coq Require Import List Arith NArith ZArith Bool Lia.
Import ListNotations.
Require Import PV.Iter.Queue PV.Iter.QueueFacts.
Require Import PV.Stack.Model PV.Stack.Proofs PV.Comb.PState PV.Comb.Bytes PV.Comb.Prog PV.Comb.Exec.
Require Import PV.Comb.Frame PV.Comb.Contracts PV.Comb.Utf8 PV.Comb.Utf8b PV.Comb.Utf8c.
Require Import PV.Peg.Ast PV.Peg.Spec PV.Peg.Refine0 PV.Peg.Refine1 PV.Peg.Refine2 PV.Peg.Refine3 PV.Peg.Refine4.

Section Term.
Variable cfg : config.
Variable E : env.
Variable w : list byte.
Variable pp : bool.
Hypothesis Hcfg : cfg_ok cfg.
Hypothesis HE : env_valid E.

Notation rep := (rep w).

Definition runs_le (m : nat) (q : prog) (s : pst) (vr : res) : Prop :=
  vr <> ROutOfFuel /\ exists k, k <= m /\ exec cfg E k q s = vr.
Definition nopanic (vr : res) : Prop := forall k, vr <> RPanic k.

Definition tdef (q : prog) (a : atom) (emit : bool) (p : nat) (sg : list str) (r : sres) (m : nat) : Prop :=
  forall s vr, rep a emit p sg s -> runs_le m q s vr -> nopanic vr -> r <> SFuel.

Lemma sub_run m k q s (vr : res) (X : res -> res) :
  S k <= S m -> X (exec cfg E k q s) = vr -> vr <> ROutOfFuel -> X ROutOfFuel = ROutOfFuel ->
  runs_le m q s (exec cfg E k q s).
Proof.
  intros L A N HX. split; [intros Ho; rewrite Ho in A; congruence|]. exists k. split; [lia|reflexivity].
Qed.

Lemma sim_tdef Q q a emit p sg r m : @sim cfg E pp w Q q a emit p sg r m -> tdef q a emit p sg r m.
Proof.
  intros H s vr R (N & k & L & A) NP. apply (proj2 (H s R)). exists k. split; [exact L|].
  rewrite A. destruct vr as [x|x|kk|]; try exact I; [exact (NP kk eq_refl)|exact (N eq_refl)].
Qed.

End Term.
