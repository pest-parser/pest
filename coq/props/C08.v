(* C08 - failure reports point at the furthest failure with sound expectations.
   This file holds ONLY the statements of the property, their closing theorems, non-vacuity examples and
   Print Assumptions.

   Model: PV.Comb.Exec (rule(), track(), attempts_at(), state() of pest/src/parser_state.rs, line by
   line) instrumented in PV.Comb.Attempts: `exec_log` also returns the forest of rule attempts
   `Attempt rule pos matched sign atomic children` in execution order; `parse_with_log` is the
   public entry point state() (outcome_of: ParsingError { positives, negatives } at a position,
   after sort + dedup) together with that forest.  The instrumentation is a ghost: the first
   component is the uninstrumented model (C08_instrumentation_erases).

   Specification (PV.Comb.Attempts, second half):
     counts m sg at   the attempt is reportable (not made in Atomic mode; silent rules make no
                      attempt at all) and failed under a non-negative sign or matched under the
                      negative sign;
     max_reportable_pos   the furthest position of such an attempt, 0 if none;
     failed_at / matched_negated_at   a reportable attempt of that rule with that outcome and sign
                      exactly at that position exists in the forest;
     strictly_increasing  sorted without duplicates;
     report_of_log    the last sentence of the property read recursively over the forest, by SETS
                      of rules (the children's report is a singleton set);
     report_counted   the same with "exactly one" counting reported attempts (comment in track());
     KnownClass       decidable: some attempt that counts at the final position has a children's
                      report consisting of one rule listed more than once.                       *)
From Coq Require Import List Arith NArith Bool.
Import ListNotations.
Require Import PV.Comb.PState PV.Comb.Bytes PV.Comb.Prog PV.Comb.Exec PV.Comb.Attempts PV.Comb.AttemptsProofs.

(* The full statement, with the literal reading of the last sentence. *)
Definition C08_statement : Prop :=
  forall cfg E fuel p inp lim detail positives negatives position log,
    parse_with_log cfg E fuel p inp lim detail = (OParsingError positives negatives position, log) ->
    position = max_reportable_pos log /\
    (forall r, In r positives -> failed_at log r position) /\
    (forall r, In r negatives -> matched_negated_at log r position) /\
    strictly_increasing positives /\ strictly_increasing negatives /\
    (positives, negatives) = report_of_log log.

(* It is FALSE of the code: a rule inside which the same rule was tried twice at the same position
   (and nothing else) is reported itself.  Witness = the VM's closure tree for
       r0 = { r1 ~ "x" | s }   s = _{ r1 ~ "y" }   r1 = { "q" }       on input "z"
   (rule ids 0, -, 2): pest reports `expected r0`; the literal reading gives `expected r1`.       *)
Definition C08_witness_cfg : config := {| memchr := true; fixed3 := true; fixedlim := false |}.
Definition C08_witness_env : env := fun f =>
  match f with
  | 0 => Some (PRule 0 (POrElse (PSequence (PAndThen (PAndThen (PCall 2) (PPrim MOk)) (PPrim (MMatchString [120%N])))) (PCall 1)))
  | 1 => Some (PSequence (PAndThen (PAndThen (PCall 2) (PPrim MOk)) (PPrim (MMatchString [121%N]))))
  | 2 => Some (PRule 2 (PPrim (MMatchString [113%N])))
  | _ => None
  end.
Definition C08_witness_log : list attempt :=
  [Attempt 0 0 false LNone false [Attempt 2 0 false LNone false []; Attempt 2 0 false LNone false []]].

Lemma C08_witness_run :
  parse_with_log C08_witness_cfg C08_witness_env 40 (PCall 0) [122%N] None false = (OParsingError [0] [] 0, C08_witness_log).
Proof. vm_compute. reflexivity. Qed.

Definition C08_report_refuted_statement : Prop := ~ C08_statement.
Theorem C08_report_refuted : C08_report_refuted_statement.
Proof.
  intros H. specialize (H _ _ _ _ _ _ _ _ _ _ _ C08_witness_run).
  destruct H as (_ & _ & _ & _ & _ & H). vm_compute in H. discriminate H.
Qed.

Definition C08_report_refuted_witness_statement : Prop :=
  exists cfg E fuel p inp lim detail positives negatives position log,
    parse_with_log cfg E fuel p inp lim detail = (OParsingError positives negatives position, log) /\
    (positives, negatives) = ([0], []) /\ report_of_log log = ([2], []) /\ KnownClass log = true.
Theorem C08_report_refuted_witness : C08_report_refuted_witness_statement.
Proof.
  do 11 eexists. split; [exact C08_witness_run|]. split; [reflexivity|]. split; vm_compute; reflexivity.
Qed.

(* What is PROVED, for every run whatsoever: clauses (a), (b), (c); clause (d) with the counted
   reading on every run and with the literal reading outside KnownClass.                          *)
Definition C08_proved_statement : Prop :=
  forall cfg E fuel p inp lim detail positives negatives position log,
    parse_with_log cfg E fuel p inp lim detail = (OParsingError positives negatives position, log) ->
    position = max_reportable_pos log /\
    (forall r, In r positives -> failed_at log r position) /\
    (forall r, In r negatives -> matched_negated_at log r position) /\
    strictly_increasing positives /\ strictly_increasing negatives /\
    (positives, negatives) = report_counted log /\
    (KnownClass log = false -> (positives, negatives) = report_of_log log).

Theorem C08_failure_reports : C08_proved_statement.
Proof. intros cfg E fuel p inp lim detail ps ns at_ log H. exact (failure_report cfg E fuel p inp lim detail ps ns at_ log H). Qed.

(* the full statement restricted by the decidable class *)
Definition C08_outside_known_class_statement : Prop :=
  forall cfg E fuel p inp lim detail positives negatives position log,
    parse_with_log cfg E fuel p inp lim detail = (OParsingError positives negatives position, log) ->
    KnownClass log = false ->
    position = max_reportable_pos log /\
    (forall r, In r positives -> failed_at log r position) /\
    (forall r, In r negatives -> matched_negated_at log r position) /\
    strictly_increasing positives /\ strictly_increasing negatives /\
    (positives, negatives) = report_of_log log.

Theorem C08_outside_known_class : C08_outside_known_class_statement.
Proof.
  intros cfg E fuel p inp lim detail ps ns at_ log H K.
  destruct (failure_report cfg E fuel p inp lim detail ps ns at_ log H) as (A & B & C & D & F & _ & G).
  repeat split; auto.
Qed.

(* The generalisation the induction needs, from ANY start state: look-ahead mode and atomicity are
   restored, and the three attempt fields after the run are a function of the fields before and of
   the forest (Tr: new furthest position = max; lists = report of the forest at that position,
   appended to the old lists iff the position did not move).                                      *)
Definition C08_transfer_statement : Prop :=
  forall cfg E fuel p s r log s',
    exec_log cfg E fuel p s = (r, log) -> r = ROk s' \/ r = RErr s' ->
    lookahead s' = lookahead s /\ atomicity s' = atomicity s /\
    attempt_pos s' = Nat.max (attempt_pos s) (max_reportable_pos log) /\
    pos_attempts s' = rev (positives_of (flat_map (rep_cnt (attempt_pos s')) log))
                      ++ (if Nat.eqb (attempt_pos s) (attempt_pos s') then pos_attempts s else []) /\
    neg_attempts s' = rev (negatives_of (flat_map (rep_cnt (attempt_pos s')) log))
                      ++ (if Nat.eqb (attempt_pos s) (attempt_pos s') then neg_attempts s else []).

Theorem C08_transfer : C08_transfer_statement.
Proof. intros cfg E fuel p s r log s' H R. exact (exec_log_transfer cfg E fuel p s r log s' H R). Qed.

(* the instrumentation is a ghost *)
Definition C08_erasure_statement : Prop :=
  (forall cfg E fuel p s, fst (exec_log cfg E fuel p s) = exec cfg E fuel p s) /\
  (forall cfg E fuel p inp lim detail, fst (parse_with_log cfg E fuel p inp lim detail) = parse_with cfg E fuel p inp lim detail).

Theorem C08_instrumentation_erases : C08_erasure_statement.
Proof. split; [exact exec_log_erasure|exact parse_with_log_erasure]. Qed.

(* Vec::sort + Vec::dedup of state() *)
Definition C08_sort_dedup_statement : Prop :=
  forall l, strictly_increasing (sort_dedup l) /\ (forall x, In x (sort_dedup l) <-> In x l).

Theorem C08_sort_dedup : C08_sort_dedup_statement.
Proof. intros l. split; [apply sort_dedup_sorted|intros x; apply sort_dedup_in]. Qed.

Definition C08_str (b : N) : prog := PPrim (MMatchString [b]).
Definition C08_noenv : env := fun _ => None.
(* rule 0 { !rule 1 {"a"} ~ (rule 2 {"b"} | rule 3 {"c"}) } *)
Definition C08_ex1 : prog :=
  PRule 0 (PSequence (PAndThen (PLookahead false (PRule 1 (C08_str 97%N)))
                               (POrElse (PRule 2 (C08_str 98%N)) (PRule 3 (C08_str 99%N))))).
(* on "a": rule 1 matches under negation; it is the only attempt recorded inside rule 0, so it stays *)
Example C08_example_negated :
  parse_with_log C08_witness_cfg C08_noenv 40 C08_ex1 [97%N] None false =
  (OParsingError [] [1] 0, [Attempt 0 0 false LNone false [Attempt 1 0 true LNeg false []]]).
Proof. vm_compute. reflexivity. Qed.
(* on "x": rule 1 fails under negation (not a failure of the parse), rules 2 and 3 fail at 0: rule 0 replaces them *)
Example C08_example_replaced :
  parse_with_log C08_witness_cfg C08_noenv 40 C08_ex1 [120%N] None false =
  (OParsingError [0] [] 0,
   [Attempt 0 0 false LNone false
      [Attempt 1 0 false LNeg false []; Attempt 2 0 false LNone false []; Attempt 3 0 false LNone false []]]).
Proof. vm_compute. reflexivity. Qed.
(* rule 0 { "a" ~ (rule 1 { rule 2 {"b"} } | rule 3 { atomic: rule 4 {"c"} }) } on "ax": the furthest failures are
   at 1; rule 2 is the one attempt inside rule 1 (reported in its place), rule 4 is inside an atomic section (not
   reportable), so rule 3 is reported; rule 0 started at 0 and contributes nothing *)
Definition C08_ex2 : prog :=
  PRule 0 (PSequence (PAndThen (C08_str 97%N)
     (POrElse (PRule 1 (PRule 2 (C08_str 98%N))) (PRule 3 (PAtomic Atomic (PRule 4 (C08_str 99%N))))))).
Example C08_example_furthest :
  parse_with_log C08_witness_cfg C08_noenv 40 C08_ex2 [97%N; 120%N] None false =
  (OParsingError [2; 3] [] 1,
   [Attempt 0 0 false LNone false
      [Attempt 1 1 false LNone false [Attempt 2 1 false LNone false []];
       Attempt 3 1 false LNone false [Attempt 4 1 false LNone true []]]]).
Proof. vm_compute. reflexivity. Qed.
Example C08_example_furthest_spec :
  let log := snd (parse_with_log C08_witness_cfg C08_noenv 40 C08_ex2 [97%N; 120%N] None false) in
  max_reportable_pos log = 1 /\ report_of_log log = ([2; 3], []) /\ report_counted log = ([2; 3], []) /\ KnownClass log = false.
Proof. vm_compute. repeat split; reflexivity. Qed.

Print Assumptions C08_failure_reports.
Print Assumptions C08_outside_known_class.
Print Assumptions C08_report_refuted.
Print Assumptions C08_report_refuted_witness.
Print Assumptions C08_transfer.
Print Assumptions C08_instrumentation_erases.
Print Assumptions C08_sort_dedup.
