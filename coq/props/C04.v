(* C04 - the token stream is a well-formed tree and every Pairs view agrees with it.
   This file states the property and closes it from the theorems of PV.Iter (iterators, views, PairsBuilder) and
   PV.Comb.Wfq* (the parser half), with non-vacuity examples.

   Models (PV.Iter.Model) are line-by-line transcriptions of pest/src/iterators/{pairs,pair,flat_pairs,tokens,
   pairs_builder,line_index}.rs; `Panic` stands for a Rust panic (index, unreachable!, usize underflow, unwrap,
   slice off a char boundary, failed assert!/debug_assert!), `Fuel` for a loop that did not terminate within the
   model's budget.  `fixes_none` is the code as it is in the repository, `fixes_all` the code after
   fixes/C04-1..3 (Pairs::single, FlatPairs::len, Serialize for Pairs).

   SCOPE: this file covers PairsBuilder and all iterator/view clauses for EVERY well-formed queue.  The clause
   "every successful parse yields a well-formed queue" (exec_preserves_wfq, about parser_state.rs) is proved over the
   parser-state model (second half of this file) and enters `C04_statement_with` as its first conjunct. *)
From Coq Require Import String Ascii List Arith Bool.
Import ListNotations.
Require Import PV.Iter.Queue PV.Iter.QueueFacts PV.Iter.Model PV.Iter.Spec PV.Iter.PairsProofs PV.Iter.Machines
               PV.Iter.FlatTokens PV.Iter.Views PV.Iter.BuilderProofs PV.Iter.Top PV.Iter.Refuted.
Open Scope list_scope.
Open Scope nat_scope.

(* ---- well-formedness (definition in PV.Iter.Queue) ----
   wfq bounds len q :=  (exists f, q = tokens_of f)            balanced, properly nested, cross-links correct
                     /\ chain 0 (map qpos q)                   positions never decrease in stream order
                     /\ Forall (pos_ok bounds len) (map qpos q) every position is a char boundary <= len
   Win q s f       :=  exists pre post, q = pre ++ tokens_at s f ++ post /\ length pre = s     (a window)
   Rep q p f       :=  Win q (p_start p) f /\ p_end p = p_start p + 2 * fsize f /\ p_count p = length f
   PairAt q i t    :=  Win q i [t] *)

Definition C04_wfq_meaning : Prop :=
  (* the generative reading equals the grammar reading (Start .. inner .. End groups with mutual links) *)
  (forall q, (exists f, q = tokens_of f) <-> wf_seg 0 q) /\
  (* the boolean checker decides wfq *)
  (forall bounds len q, wfqb bounds len q = true <-> wfq bounds len q) /\
  (* forest_of inverts tokens_of *)
  (forall f, forest_of (tokens_of f) 0 (length (tokens_of f)) = f).

(* every view of a Pairs value p that stands for the forest f *)
Definition C04_pairs_views (fx : fixes) (input : string) (rname tname : nat -> string) (esc : string -> string)
           (q : list qtoken) (p : pairs) (f : list tree) : Prop :=
  (forall ops, run_pairs q input p ops = Ok (run_list f ops)) /\
  (forall ops, run_flat fx q input (pairs_flatten p) ops = Ok (run_list (preorder f) ops)) /\
  (exists k, pairs_tokens q input p = Ok k /\
             forall ops, run_tokens q input k ops = Ok (run_list (token_list f) ops)) /\
  pairs_len p = length f /\
  pairs_is_empty p = (match f with [] => true | _ => false end) /\
  pairs_as_str q input p = Ok (forest_str input f) /\
  pairs_concat q input p = Ok (forest_concat input f) /\
  (forall tg, exists idxs, pairs_find_tagged q tg p = Ok idxs /\ Forall2 (PairAt q) idxs (forest_find_tagged tg f)) /\
  (forall tg, exists o, pairs_find_first_tagged q tg p = Ok o /\
     match forest_find_tagged tg f with [] => o = None | t :: _ => exists i, o = Some i /\ PairAt q i t end) /\
  (forall alternate, display_pairs q input rname alternate p = Ok (display_forest input rname alternate f)) /\
  debug_pairs q input rname tname esc p = Ok (debug_forest input rname tname esc f) /\
  pairs_to_json fx q input rname p = Ok (json_forest input rname f) /\
  walk_pairs q input p = Ok f.

(* every view of a Pair value (start index i) that stands for the tree t *)
Definition C04_pair_views (fx : fixes) (input : string) (rname tname : nat -> string) (esc : string -> string)
           (q : list qtoken) (i : nat) (t : tree) : Prop :=
  pair_as_rule q i = Ok (t_rule t) /\
  pair_as_node_tag q i = Ok (t_tag t) /\
  pair_as_span q input i = Ok (t_start t, t_end t) /\
  pair_as_str q input i = Ok (tree_str input t) /\
  (exists p, pair_into_inner q i = Ok p /\ Rep q p (t_children t)) /\
  (exists p, pairs_single fx q i = Ok p /\ Rep q p [t]) /\
  (exists k, pair_tokens q input i = Ok k /\
             forall ops, run_tokens q input k ops = Ok (run_list (token_list [t]) ops)) /\
  (forall li, pair_line_col q input li i = li_line_col li input (t_start t)) /\
  display_pair q input i = Ok (tree_str input t) /\
  alt_pair q rname (fuel0 q) i = Ok (alt_tree rname t) /\
  debug_pair q input rname tname esc (fuel0 q) i = Ok (debug_tree input rname tname esc t) /\
  pair_to_json fx q input rname i = Ok (json_tree input rname t) /\
  walk_pair q input (fuel0 q) i = Ok t.

(* the iterator clauses, for every well-formed queue, every window, every interleaving *)
Definition C04_iter_part (fx : fixes) : Prop :=
  forall (input : string) (rname tname : nat -> string) (esc : string -> string) (q : list qtoken),
    wfq (is_char_boundary input) (String.length input) q ->
    (exists p0, pairs_new q 0 (length q) = Ok p0 /\ Rep q p0 (forest_of q 0 (length q))) /\
    (exists hi, fnested 0 (forest_of q 0 (length q)) hi /\ hi <= String.length input) /\
    (forall s f, Win q s f ->
       forest_of q s (s + 2 * fsize f) = f /\ exists p, pairs_new q s (s + 2 * fsize f) = Ok p /\ Rep q p f) /\
    (forall p f, Rep q p f -> C04_pairs_views fx input rname tname esc q p f) /\
    (forall i t, PairAt q i t -> C04_pair_views fx input rname tname esc q i t).

(* the PairsBuilder clauses *)
Definition C04_builder_part : Prop :=
  forall (input : string) (f : list tree),
    run_bops (bops_of f) [] = Ok f /\
    (forall t rest, run_bops (BTag t :: rest) [] = Panic) /\
    (build_queue input f = Panic <-> spans_okb input f = false) /\
    (forest_ok (is_char_boundary input) (String.length input) f ->
       exists p, build input f = Ok (tokens_of f, p) /\ Rep (tokens_of f) p f /\
                 wfq (is_char_boundary input) (String.length input) (tokens_of f) /\
                 forest_of (tokens_of f) 0 (length (tokens_of f)) = f).

(* the parser clause is a parameter here, so that the iterator half does not depend on the parser-state model;
   it is instantiated with C04_parse_part below *)
Definition C04_statement_with (parse_part : Prop) : Prop :=
  parse_part /\ C04_builder_part /\ C04_iter_part fixes_all.

Theorem C04_wfq_checker_and_abstraction : C04_wfq_meaning.
Proof.
  split; [exact balanced_iff|]. split; [exact wfqb_iff|exact forest_of_tokens_of].
Qed.

Theorem C04_builder : C04_builder_part.
Proof.
  intros input f. split; [exact (run_bops_of f [])|]. split; [exact tag_before_rule_panics|].
  split; [exact (build_panics_iff input f)|exact (build_ok input f)].
Qed.

(* views: the theorems of PV.Iter saying what one view of a Pairs / Pair value returns; every conjunct of
   C04_pairs_views / C04_pair_views that needs no further step is one of them *)
Local Hint Resolve pairs_is_empty_ok pairs_as_str_ok pairs_concat_ok pairs_find_tagged_ok pairs_find_first_tagged_ok
  display_pairs_ok debug_pairs_ok pairs_to_json_ok pair_as_rule_ok pair_as_node_tag_ok pair_as_span_ok pair_as_str_ok
  pair_into_inner_ok pair_line_col_ok alt_pair_ok debug_pair_ok pair_to_json_ok walk_pair_ok : views.

Lemma pairs_views_all input rname tname esc q p f :
  wf_for input q -> Rep q p f -> C04_pairs_views fixes_all input rname tname esc q p f.
Proof.
  intros Hwf R. pose proof (Rep_fok _ _ Hwf R) as H. pose proof (or_intror (f <> []) (eq_refl true)) as J.
  repeat split; intros; eauto 2 with views nocore.
  - apply pairs_interleaving_refines. split; assumption.
  - apply flat_run_refines_on; [apply Forall_forall; right; reflexivity|]. apply flatten_RepF; assumption.
  - destruct (pairs_tokens_ok q input p f Hwf R) as (k & E & RT). exists k. split; [exact E|].
    intros ops. exact (tokens_run_refines q input k _ ops RT).
  - exact (pairs_len_ok q 0 R).
  - unfold walk_pairs. destruct (pairs_collect_fuel0 _ R) as (idxs & E & F2). rewrite E.
    exact (walk_forest _ _ _ _ _ (fuel0_enough _ R) F2 H).
Qed.

Lemma pair_views_all input rname tname esc q i t :
  wf_for input q -> PairAt q i t -> C04_pair_views fixes_all input rname tname esc q i t.
Proof.
  intros Hwf W. assert (H := Win_forest_ok Hwf W).
  repeat split; intros; eauto 2 with views nocore.
  - exact (pairs_single_ok _ fixes_all _ _ W).
  - destruct (pair_tokens_ok q input i _ Hwf W) as (k & E & RT). exists k. split; [exact E|].
    intros ops. exact (tokens_run_refines q input k _ ops RT).
Qed.

Theorem C04_views_agree_fixed : C04_iter_part fixes_all.
Proof.
  intros input rname tname esc q Hwf. destruct (whole input q Hwf) as (F & HW & HL & HF & EF).
  split; [|split; [|split; [|split]]].
  - destruct (pairs_new_ok q 0 F HW) as (p0 & E & R). exists p0. rewrite EF.
    replace (length q) with (0 + 2 * fsize F) by (rewrite HL; reflexivity). auto.
  - exists (String.length input). rewrite EF. split; [exact (forest_ok_nested HF)|apply le_n].
  - intros s f W. split; [exact (forest_of_Win q s f W)|exact (pairs_new_ok q s f W)].
  - intros p f. exact (pairs_views_all input rname tname esc q p f Hwf).
  - intros i t. exact (pair_views_all input rname tname esc q i t Hwf).
Qed.

Theorem C04_iterators_partial : forall parse_part : Prop, parse_part -> C04_statement_with parse_part.
Proof. intros P HP. split; [exact HP|]. split; [exact C04_builder|exact C04_views_agree_fixed]. Qed.

(* the same statement about the code as it is in the repository is FALSE: three witnesses *)
Theorem C04_views_agree_current_refuted : ~ C04_iter_part fixes_none.
Proof.
  intros H. apply Refuted.C04_json_empty_refuted. intros input rname q p f Hwf R _.
  destruct (H input rname rname (fun s => s) q Hwf) as (_ & _ & _ & HP & _).
  destruct (HP p f R) as (_ & _ & _ & _ & _ & _ & _ & _ & _ & _ & _ & J & _). exact J.
Qed.

Theorem C04_single_refuted : ~ single_statement fixes_none any_op.
Proof. exact Refuted.C04_single_refuted. Qed.
Theorem C04_flat_len_refuted : ~ flat_statement fixes_none any_op.
Proof. exact Refuted.C04_flat_len_refuted. Qed.
Theorem C04_json_empty_refuted : ~ json_statement fixes_none any_forest.
Proof. exact Refuted.C04_json_empty_refuted. Qed.

(* ... and true of it outside the three decidable classes *)
Theorem C04_current_outside_known_classes :
  single_statement fixes_none not_next_back /\ flat_statement fixes_none not_len /\ json_statement fixes_none non_empty.
Proof.
  split; [apply single_holds|split; [apply flat_holds|apply json_holds]]; intros x Hx; left; exact Hx.
Qed.

(* a(0,5)[ b#t0(0,2)[ a(1,2) ] b(3,5) ] c(5,6): nesting depth 3, siblings, a tag; input with a 2-byte char *)
(* "xy" ++ U+00E9 ++ "z w": 7 bytes, the 2-byte char occupies offsets 2..4 *)
Definition ex_input : string :=
  String "x" (String "y" (String (Ascii.ascii_of_nat 195) (String (Ascii.ascii_of_nat 169) (String "z" (String " " (String "w" EmptyString)))))).
Definition ex_forest : list tree :=
  [Node 0 None 0 5 [Node 1 (Some 0) 0 2 [Node 0 None 1 2 []]; Node 1 None 4 5 []]; Node 2 None 5 6 []].

Example ex_forest_ok : forest_okb (is_char_boundary ex_input) (String.length ex_input) ex_forest = true.
Proof. vm_compute. reflexivity. Qed.

Example ex_not_boundary : is_char_boundary ex_input 3 = false.
Proof. vm_compute. reflexivity. Qed.

Example ex_build :
  build_queue ex_input ex_forest =
  Ok [QStart 7 0; QStart 4 0; QStart 3 1; QEnd 2 0 None 2; QEnd 1 1 (Some 0) 2; QStart 6 4; QEnd 5 1 None 5;
      QEnd 0 0 None 5; QStart 9 5; QEnd 8 2 None 6].
Proof. vm_compute. reflexivity. Qed.

Example ex_wfq : wfqb (is_char_boundary ex_input) (String.length ex_input) (tokens_of ex_forest) = true.
Proof. vm_compute. reflexivity. Qed.

Example ex_interleaving :
  run_pairs (tokens_of ex_forest) ex_input {| p_start := 0; p_end := 10; p_count := 2 |} [Len; NextBack; Peek; Next; Len; Next; NextBack] =
  Ok [ALen 2; AItem (Some (Node 2 None 5 6 []));
      AItem (Some (Node 0 None 0 5 [Node 1 (Some 0) 0 2 [Node 0 None 1 2 []]; Node 1 None 4 5 []]));
      AItem (Some (Node 0 None 0 5 [Node 1 (Some 0) 0 2 [Node 0 None 1 2 []]; Node 1 None 4 5 []]));
      ALen 0; AItem None; AItem None].
Proof. vm_compute. reflexivity. Qed.

Example ex_flat_len_fixed :
  run_flat fixes_all (tokens_of ex_forest) ex_input {| f_start := 0; f_end := 10 |} [Next; Next; Len; NextBack; Len] =
  Ok [AItem (Some (Node 0 None 0 5 [Node 1 (Some 0) 0 2 [Node 0 None 1 2 []]; Node 1 None 4 5 []]));
      AItem (Some (Node 1 (Some 0) 0 2 [Node 0 None 1 2 []])); ALen 3; AItem (Some (Node 2 None 5 6 [])); ALen 2].
Proof. vm_compute. reflexivity. Qed.

(* the same on the code as it is: len says 4 and 3 *)
Example ex_flat_len_current :
  run_flat fixes_none (tokens_of ex_forest) ex_input {| f_start := 0; f_end := 10 |} [Next; Next; Len; NextBack; Len] =
  Ok [AItem (Some (Node 0 None 0 5 [Node 1 (Some 0) 0 2 [Node 0 None 1 2 []]; Node 1 None 4 5 []]));
      AItem (Some (Node 1 (Some 0) 0 2 [Node 0 None 1 2 []])); ALen 4; AItem (Some (Node 2 None 5 6 [])); ALen 3].
Proof. vm_compute. reflexivity. Qed.

Example ex_bad_span_panics : build_queue ex_input [Node 0 None 0 3 []] = Panic.
Proof. vm_compute. reflexivity. Qed.

Print Assumptions C04_wfq_checker_and_abstraction.
Print Assumptions C04_builder.
Print Assumptions C04_views_agree_fixed.
Print Assumptions C04_iterators_partial.
Print Assumptions C04_views_agree_current_refuted.
Print Assumptions C04_single_refuted.
Print Assumptions C04_flat_len_refuted.
Print Assumptions C04_json_empty_refuted.
Print Assumptions C04_current_outside_known_classes.

(* ===================== the parser half: every successful parse yields a well-formed queue =====================
   Model: PV.Comb.{PState,Prog,Exec} (pest/src/parser_state.rs).  `queue s` is the token Vec with its LAST
   element at the head, so the stream is `rev (queue s)`; `conv` maps the parser-state token constructors
   to those of PV.Iter.Queue.  Proofs: PV.Comb.Wfq1 / Wfq / Wfq2 (induction on the fuel of `exec`,
   generalised over the start state: a run appends the tokens of a closed forest to whatever queue it
   started with; rules in progress are part of that old queue).
   (1) unconditionally: balanced, properly nested, cross-links and End rules correct (= tokens_of a forest),
       positions never decrease, every position <= |input|;
   (2) the char-boundary clause as a hypothesis schema: a state invariant U preserved by every run of
       programs satisfying V, with U s -> bnd (input s) (pos s) = true, gives the full wfq;
   (3) the schema instantiated with the UTF-8 theory (PV.Comb.Utf8c.exec_boundary): valid UTF-8 input,
       programs/environment with valid UTF-8 string constants (&str in Rust), a configuration without the
       memchr feature or with the repaired three-needle arm: full wfq with bounds = boundaryb input;
   (4) the same for the public entry point state() (`parse_with ... = OPairs q`). *)
Require Import PV.Stack.Model PV.Comb.PState PV.Comb.Bytes PV.Comb.Prog PV.Comb.Exec PV.Comb.Frame
               PV.Comb.Utf8 PV.Comb.Utf8c PV.Comb.Wfq1 PV.Comb.Wfq PV.Comb.Wfq2.

Definition C04_parse_part : Prop :=
  (forall cfg E fuel p inp lim detail s,
     exec cfg E fuel p (init inp lim detail) = ROk s ->
     (exists f, map conv (rev (queue s)) = tokens_of f) /\
     chain 0 (map qpos (map conv (rev (queue s)))) /\
     Forall (fun x => x <= length inp) (map qpos (map conv (rev (queue s))))) /\
  (forall cfg E (bnd : list byte -> nat -> bool) (U : pst -> Prop) (V : prog -> Prop),
     (forall s s', input s' = input s -> pos s' = pos s -> cache (stack s') = cache (stack s) -> U s -> U s') ->
     (forall s, U s -> bnd (input s) (pos s) = true) ->
     (forall p q, V p -> In q (children p) -> V q) ->
     (forall f q, V (PCall f) -> E f = Some q -> V q) ->
     (forall fuel p s a, V p -> wf s -> Inv (stack s) a -> U s ->
        match exec cfg E fuel p s with ROk s' | RErr s' => U s' | _ => True end) ->
     forall fuel p inp lim detail s,
       V p -> U (init inp lim detail) ->
       exec cfg E fuel p (init inp lim detail) = ROk s ->
       wfq (bnd inp) (length inp) (map conv (rev (queue s)))) /\
  (forall cfg E fuel p inp lim detail s,
     cfg_ok cfg -> env_valid E -> prog_valid p -> valid_utf8 inp ->
     exec cfg E fuel p (init inp lim detail) = ROk s ->
     wfq (boundaryb inp) (length inp) (map conv (rev (queue s)))) /\
  (forall cfg E fuel p inp lim detail q,
     cfg_ok cfg -> env_valid E -> prog_valid p -> valid_utf8 inp ->
     parse_with cfg E fuel p inp lim detail = OPairs q ->
     wfq (boundaryb inp) (length inp) (map conv q)).

Theorem C04_parse : C04_parse_part.
Proof.
  split; [exact exec_preserves_wfq|]. split; [exact exec_preserves_wfq_from_boundary|].
  split; [exact exec_preserves_wfq_utf8|exact parse_wfq_utf8].
Qed.

Theorem C04_token_stream_and_views : C04_statement_with C04_parse_part.
Proof. exact (C04_iterators_partial _ C04_parse). Qed.

(* non-vacuity of the parser half: a run producing a(b#7, c(d)) over a 2-byte char, checked by wfqb *)
Example C04_parse_example :
  match exec ex_cfg (fun _ => None) 20 ex_prog (init ex_inp None false) with
  | ROk s => wfqb (boundaryb ex_inp) (length ex_inp) (map conv (rev (queue s)))
  | _ => false
  end = true.
Proof. vm_compute. reflexivity. Qed.

Print Assumptions C04_parse.
Print Assumptions C04_token_stream_and_views.
