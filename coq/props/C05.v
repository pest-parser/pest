(* C05 - optimizer passes preserve the meaning of every grammar.
   Vocabulary: PV.Opt.Statement (same_meaning, pass_preserves, pipeline_preserves, restorer_ok, valid_grammar). *)
From Coq Require Import List Arith NArith ZArith Bool String.
Import ListNotations.
Require Import PV.Comb.PState PV.Comb.Bytes PV.Comb.Utf8 PV.Iter.Queue PV.Peg.Ast PV.Peg.Spec PV.Peg.SpecFacts
  PV.Opt.Sem PV.Opt.SemCong PV.Opt.MapExpr PV.Opt.List PV.Opt.Restore PV.Opt.Pipeline PV.Opt.Statement
  PV.Opt.ListProofs PV.Opt.RestoreWitness PV.Opt.RestoreRefuted PV.Opt.PipelineProofs.

(* The full statement, for the code as it is (fixpop = fixmap = false: restorer.rs and the OptimizedExpr traversals as shipped):
   for every feature set and every valid grammar, each of the six AST passes applied on its own (as verif_apply_pass does)
   and their composition (optimize up to the conversion) leave Peg.Spec.eval unchanged - same definite result for every
   expression, atomicity, emit flag, boundary position, stack and valid input, at whatever fuel suffices - and in
   restore_on_err (to_optimized G) no alternative (child of ?, of *, side of |) can fail and leave a modified stack. *)
Definition C05_statement : Prop := C05_statement_for false false.

(* refuted as it stands: the lister (known finding; optimizer::tests::lister expects the rewrite) *)
Lemma valid_a : valid_utf8 (nm "a"). Proof. exists [97%N]. split; [repeat constructor; left; reflexivity|reflexivity]. Qed.
Lemma valid_b : valid_utf8 (nm "b"). Proof. exists [98%N]. split; [repeat constructor; left; reflexivity|reflexivity]. Qed.
Lemma valid_abab : valid_utf8 (nm "abab").
Proof. exists [97%N; 98%N; 97%N; 98%N]. split; [repeat constructor; left; reflexivity|reflexivity]. Qed.
Lemma lister_G_valid : valid_grammar lister_G.
Proof.
  split; [|split].
  - intros r [<-|[]]; cbn. repeat constructor; auto using valid_a, valid_b.
  - intros r [<-|[]]; reflexivity.
  - repeat constructor. intros [].
Qed.

Theorem C05_lister_refuted : ~ (forall extras G, valid_grammar G -> pass_preserves extras 5 G).
Proof.
  intros H. specialize (H false lister_G lister_G_valid).
  set (G' := [{| rname := nm "r"; rty := RNormal; rexpr := ESeq (EStr (nm "a")) (ERep (ESeq (EStr (nm "b")) (EStr (nm "a")))) |}]).
  specialize (H false G' ltac:(vm_compute; reflexivity) (fun _ => None) lister_input NonAtomic true (EIdent (nm "r")) 0 []
                (SMatch 3 [] [Node 0 None 0 3 []]) valid_abab ltac:(constructor) ltac:(reflexivity) ltac:(constructor)).
  destruct H as [H _]. destruct H as [fuel [E _]].
  - exists 20. split; [vm_compute; reflexivity|discriminate].
  - assert (E20 : eval lister_G false (fun _ => None) lister_input 20 NonAtomic true (EIdent (nm "r")) 0 [] = SFail) by (vm_compute; reflexivity).
    pose proof (eval_deterministic _ _ _ _ _ _ _ _ _ _ _ _ _ E E20 ltac:(discriminate) ltac:(discriminate)). discriminate.
Qed.

Theorem C05_statement_refuted : ~ C05_statement.
Proof. intros H. apply C05_lister_refuted. intros extras G V. destruct (H extras G V) as [P _]. apply P. repeat constructor. Qed.

(* refuted as it stands: restore_on_err (fixes/C05-1, fixes/C05-2) *)
Theorem C05_restorer_pop_all_refuted :
  (forall extras OG, to_optimized_rules extras false false false G_popall = Some OG -> ~ restorer_ok false false OG) /\
  vm_accepts false false false G_popall (nm "abbX") 60 = Some true /\ spec_accepts false G_popall (nm "abbX") 60 = Some false /\
  vm_accepts false true false G_popall (nm "abbX") 60 = Some false.
Proof.
  destruct restorer_pop_all_refuted as (A & B & _), restorer_pop_all_patched as (C & _).
  exact (conj restorer_pop_all_not_ok (conj A (conj B C))).
Qed.

Theorem C05_restorer_map_refuted :
  (forall OG, to_optimized_rules true true false false G_nodetag = Some OG -> ~ restorer_ok true false OG) /\
  vm_accepts true true false G_reponce (nm "xyx") 60 = Some true /\ spec_accepts true G_reponce (nm "xyx") 60 = Some false /\
  vm_accepts true true false G_nodetag (nm "xyx") 60 = Some true /\ spec_accepts true G_nodetag (nm "xyx") 60 = Some false /\
  vm_accepts true true false G_itertag (nm "aba") 60 = Some true /\ spec_accepts true G_itertag (nm "aba") 60 = Some false /\
  vm_accepts true true true G_reponce (nm "xyx") 60 = Some false /\ vm_accepts true true true G_nodetag (nm "xyx") 60 = Some false /\
  vm_accepts true true true G_itertag (nm "aba") 60 = Some false.
Proof.
  destruct restorer_map_refuted as (A & B & C & D & E & F).
  exact (conj restorer_map_not_ok (conj A (conj B (conj C (conj D (conj E (conj F restorer_map_patched))))))).
Qed.

(* Each AST pass on its own, for every valid grammar and both feature sets; the lister outside its class (where the
   rewrite fires it is refuted above). *)
Theorem C05_passes : forall extras G, valid_grammar G ->
  pass_preserves extras 0 G /\ pass_preserves extras 1 G /\ pass_preserves extras 2 G /\ pass_preserves extras 3 G /\
  pass_preserves extras 4 G /\ (lister_applies G = false -> pass_preserves extras 5 G).
Proof.
  intros extras G V. pose proof V as (VL & VN & VU). split; [|split; [|split; [|split; [|split]]]].
  - apply rotate_preserves.
  - now apply skip_preserves.
  - apply unroll_preserves.
  - now apply concat_preserves.
  - apply factor_preserves.
  - apply list_preserves_outside_class.
Qed.

(* The composition rotate ; skip (map = the original rules) ; unroll ; concatenate ; factor ; list, rule by rule as
   `optimize` chains them, for every valid grammar outside the decidable known class (the lister fires on the output of
   the five passes before it). *)
Theorem C05_pipeline_outside_lister_class : forall extras G, valid_grammar G -> (forall ovf, lister_class ovf extras G = false) -> pipeline_preserves extras G.
Proof. exact pipeline_preserves_outside_class. Qed.

(* restore_on_err with fixes/C05-1 and fixes/C05-2 applied (the model flags the correspondence selects for such a tree):
   in restore_on_err (to_optimized G) no alternative can fail and leave a modified stack, whatever the feature set, the
   memchr configuration, the fuel, the state it is started in and the grammar rule it belongs to. *)
Theorem C05_restorer_fixed : forall extras G, valid_grammar G ->
  forall OG, to_optimized_rules extras true true false G = Some OG -> restorer_ok true true OG.
Proof. exact restorer_fixed. Qed.

(* the statement for the patched code, outside the known class *)
Theorem C05_fixed_outside_lister_class : forall extras G, valid_grammar G -> lister_applies G = false -> (forall ovf, lister_class ovf extras G = false) ->
  (forall k, k <= 5 -> pass_preserves extras k G) /\ pipeline_preserves extras G /\
  (forall OG, to_optimized_rules extras true true false G = Some OG -> restorer_ok true true OG).
Proof.
  intros extras G V L1 L2. destruct (C05_passes extras G V) as (P0 & P1 & P2 & P3 & P4 & P5). split; [|split].
  - intros k Hk. destruct k as [|[|[|[|[|[|k]]]]]]; auto. exfalso. apply (Nat.nle_succ_0 k). do 5 apply le_S_n in Hk. exact Hk.
  - now apply pipeline_preserves_outside_class.
  - now apply restorer_fixed.
Qed.

(* non-vacuity: the statement speaks about grammars on which the rewrites fire *)
Example rotate_fires : apply_pass false false 0 [{| rname := nm "r"; rty := RNormal; rexpr := ESeq (ESeq (EStr (nm "a")) (EStr (nm "b"))) (EStr (nm "a")) |}]
  = Some [{| rname := nm "r"; rty := RNormal; rexpr := ESeq (EStr (nm "a")) (ESeq (EStr (nm "b")) (EStr (nm "a"))) |}].
Proof. vm_compute. reflexivity. Qed.
Example factor_fires : apply_pass false false 4 [{| rname := nm "r"; rty := RAtomic; rexpr := EChoice (ESeq (EStr (nm "a")) (EStr (nm "b"))) (EStr (nm "a")) |}]
  = Some [{| rname := nm "r"; rty := RAtomic; rexpr := ESeq (EStr (nm "a")) (EOpt (EStr (nm "b"))) |}].
Proof. vm_compute. reflexivity. Qed.
Example concat_fires : apply_pass false false 3 [{| rname := nm "r"; rty := RAtomic; rexpr := ESeq (EInsens (nm "a")) (EInsens (nm "b")) |}]
  = Some [{| rname := nm "r"; rty := RAtomic; rexpr := EInsens (nm "ab") |}].
Proof. vm_compute. reflexivity. Qed.
Example unroll_fires : apply_pass false false 2 [{| rname := nm "r"; rty := RNormal; rexpr := ERepMinMax (EStr (nm "a")) 1 2 |}]
  = Some [{| rname := nm "r"; rty := RNormal; rexpr := ESeq (EStr (nm "a")) (EOpt (EStr (nm "a"))) |}].
Proof. vm_compute. reflexivity. Qed.
Example skip_fires : apply_pass false false 1 [{| rname := nm "r"; rty := RAtomic; rexpr := ERep (ESeq (ENegPred (EChoice (EStr (nm "a")) (EIdent (nm "s")))) (EIdent (nm "ANY"))) |};
                                       {| rname := nm "s"; rty := RNormal; rexpr := EStr (nm "b") |}]
  = Some [{| rname := nm "r"; rty := RAtomic; rexpr := ESkip [nm "a"; nm "b"] |}; {| rname := nm "s"; rty := RNormal; rexpr := EStr (nm "b") |}].
Proof. vm_compute. reflexivity. Qed.
Example lister_G_is_valid : valid_grammar lister_G. Proof. exact lister_G_valid. Qed.
Example lister_G_in_class : lister_class false false lister_G = true. Proof. vm_compute. reflexivity. Qed.

Print Assumptions C05_lister_refuted.
Print Assumptions C05_statement_refuted.
Print Assumptions C05_restorer_pop_all_refuted.
Print Assumptions C05_restorer_map_refuted.
Print Assumptions C05_passes.
Print Assumptions C05_pipeline_outside_lister_class.
Print Assumptions C05_restorer_fixed.
Print Assumptions C05_fixed_outside_lister_class.
