(* C07 - the grammar reader reconstructs exactly the grammar that was written.
   This file holds only the statements, the closing theorems, non-vacuity examples and Print Assumptions.

   Reader = pest_meta::parser::parse(Rule::grammar_rules, text) followed by consume_rules:
     [read fx extras text fuel] (PV.Meta.Consume) = grammar.pest (transcribed as Tokens.meta_grammar, compared with
     the real file on every run) under the documented PEG semantics Peg.Spec, then [consume] = the line-by-line model
     of consume_rules_with_spans / consume_expr / unaries / get_node_tag / unescape / convert_rule with the
     PrattParser instance taken from C13's model.  [fx] = which repairs the tree has ([shipped] / [repaired] =
     fixes/C07-1 + fixes/C07-2).  validate_ast (run by consume_rules) is not part of the reader (C06).
   Writing = [spells_grammar extras G text] (PV.Meta.Text): text spells a concrete grammar cg (PV.Meta.Spell:
     explicit parentheses, optional leading `|`, omitted PEEK start, doc lines) with abs cg = G, every operand at a
     level its position admits without parentheses ([wp]; levels derived from grammar.pest: `|` < `~` < `#t =` <
     `&` `!` < postfix < atoms), any gaps (blanks, newlines, nested block comments, line comments) between the tokens
     of non-atomic rules, any escape form for any character, leading zeros, `///` and `//!` lines.
   Stated restrictions of what can be written at all ([writable] / [ident_ok]): identifiers and rule names match
     ("_" | alpha)("_" | alnum)* and do not start with PUSH; \u{..} has 2-6 digits; counts fit u32 and {0} {,0} {m,0}
     are rejected by the reader with an error; PEEK indices fit i32; tags / PUSH_LITERAL need grammar-extras. *)
From Coq Require Import List NArith ZArith Bool String.
Import ListNotations.
Require Import PV.Comb.PState PV.Comb.Utf8 PV.Peg.Ast.
Require Import PV.Iter.Queue PV.Peg.Spec.
Require Import PV.Meta.Tokens PV.Meta.Unescape PV.Meta.Consume PV.Meta.Spell PV.Meta.Text PV.Meta.LexProofs PV.Meta.Proofs PV.Meta.Top.
Require Import PV.Meta.PegRules PV.Meta.LexPeg.
Require Import PV.Meta.TokFinal.

(* the full statement, proved below as C07_reader_reconstructs *)
Definition C07_statement : Prop :=
  forall (extras : bool) (G : grammar) (text : list byte),
    spells_grammar extras G text -> reads repaired extras text G.

(* the same statement about the code AS SHIPPED: false, two witnesses below *)
Definition C07_shipped_statement : Prop :=
  forall (extras : bool) (G : grammar) (text : list byte),
    spells_grammar extras G text -> reads shipped extras text G.

(* the first half of the reader: grammar.pest tokenises every spelling of cg as tokens_of_grammar cg *)
Definition C07_tokenisation_statement : Prop :=
  forall (extras : bool) (cg : cgrammar) (text : list byte),
    prints_grammar cg text -> valid_utf8 text ->
    Forall (fun r => wp (cr_body r) = true /\ writable extras (cr_body r) = true /\ ident_ok (cr_name r) = true) (cg_rules cg) ->
    tokenises text cg.

Definition C07_partial_statement : Prop :=
  (* (1) the second half of the reader, for every state of the tree: any token forest over any text whose shape is
         tokens_of_grammar cg and whose leaves cover legal lexemes is read back as abs cg: precedence (via C13),
         left grouping, prefix outside postfix, tag outermost in the term, counts, PEEK indices, literals.
         For the code as shipped: no leading `|` in a nested expression and `^` directly followed by the quote. *)
  (forall fx extras w cg forest,
     Forall (fun r => wp (cr_body r) = true /\ writable extras (cr_body r) = true /\
                      (fix_bar fx = false -> nested_bar (cr_body r) = false)) (cg_rules cg) ->
     smatch_list (negb (fix_insens fx)) w (tokens_of_grammar cg) forest ->
     consume fx extras w forest = COk (abs_grammar cg)) /\
  (* (2) every writable abstract tree is representable: its minimal-parentheses spelling is well-parenthesised,
         writable, has no leading `|`, and abstracts to the tree; parentheses appear exactly where [needs_parens] says *)
  (forall extras e, ewritable extras e ->
     abs (min_parens decode_all e) = e /\ wp (min_parens decode_all e) = true /\
     writable extras (min_parens decode_all e) = true /\ nested_bar (min_parens decode_all e) = false) /\
  (forall k c, paren_if k c = if lvl c <? k then CParen false c else c) /\
  (* (3) and they are needed there: without them the spelling is that of ANOTHER tree (which (1) then returns):
         a ~ (b ~ c), a | (b | c), a ~ (b | c), (a | b) ~ c, (!a)?  *)
  (forall a b c,
     fe (CSeq a (CSeq b c)) = fe (CSeq (CSeq a b) c) /\ fe (CChoice a (CChoice b c)) = fe (CChoice (CChoice a b) c) /\
     fe (CSeq a (CChoice b c)) = fe (CChoice (CSeq a b) c) /\ fe (CSeq (CChoice a b) c) = fe (CChoice a (CSeq b c)) /\
     tc (COpt (CNeg a)) = tc (CNeg (COpt a))) /\
  (* (4) literals: unescape is a left inverse of every spelling of every string of scalar values (= valid UTF-8) *)
  (forall q cs w, spells_string q cs w -> unescape w = Some (utf8 cs)) /\
  (forall s, valid_utf8 s -> utf8 (decode_all s) = s /\ scalars (decode_all s) = true) /\
  (* (5) numbers *)
  (forall n l, spells_num n l -> (n <= u32_max)%N -> parse_u32 l = Some n) /\
  (forall z l, spells_int z l -> i32_ok z = true -> parse_i32 l = Some z) /\
  (* (6) the whole reader, given the tokenisation of this text *)
  (forall extras G text,
     (forall cg, prints_grammar cg text -> valid_utf8 text ->
        Forall (fun r => wp (cr_body r) = true /\ writable extras (cr_body r) = true /\ ident_ok (cr_name r) = true) (cg_rules cg) ->
        tokenises text cg) ->
     spells_grammar extras G text -> reads repaired extras text G).

Theorem C07_partial : C07_partial_statement.
Proof.
  split; [exact consume_spelling|].
  split; [intros extras e H; destruct (min_parens_abs extras e H) as [A B]; destruct (min_parens_wp decode_all e) as [C D]; auto|].
  split; [reflexivity|].
  split; [intros a b c; repeat split; [apply collide_seq_right|apply collide_choice_right|apply collide_seq_choice|apply collide_choice_seq]|].
  split; [exact unescape_spelled|].
  split; [exact utf8_decode_all|].
  split; [exact parse_u32_spelled|].
  split; [exact parse_i32_spelled|].
  exact reduction.
Qed.

(* THE TOKENISATION HALF, LEXICAL PART: grammar.pest under Peg.Spec ([evals]: the fuelled interpreter returns this
   result with every sufficiently large fuel) on a text w whose suffix at p is  lexeme ++ rest :
   every lexical rule of grammar.pest matches exactly the lexeme as Spell.v / Text.v spell it, and produces the
   token tree tokens_of expects.  [follow P rest]: rest is empty or starts with an ASCII byte outside P. *)
Definition lexes (w : list byte) (a : PState.atom) (em : bool) (r : string) (p : nat) (sg : list str) (res : sres) : Prop :=
  evals meta_grammar false (fun _ => None) w a em (EIdent (nm r)) p sg res.

Definition C07_lexical_statement : Prop :=
  forall (w : list byte) (p : nat) (sg : list str) (rest : list byte),
  (* number = @{ '0'..'9'+ } *)
  (forall a em ds, ds <> [] -> Forall (fun b => (b < 128)%N /\ digitb b = true) ds -> follow digitb rest -> skipn p w = ds ++ rest ->
     lexes w a em "number" p sg (SMatch (p + List.length ds) sg (node_if (tok a em) MNumber p (p + List.length ds) []))) /\
  (* integer = @{ number | "-" ~ "0"* ~ '1'..'9' ~ number? } *)
  (forall a em z l, spells_int z l -> follow digitb rest -> skipn p w = l ++ rest ->
     lexes w a em "integer" p sg (SMatch (p + List.length l) sg (node_if (tok a em) MInteger p (p + List.length l) []))) /\
  (* identifier = @{ !"PUSH" ~ ("_" | alpha) ~ ("_" | alpha_num)* } ,  tag_id *)
  (forall a em n, ident_ok n = true -> follow ident_char rest -> skipn p w = n ++ rest ->
     lexes w a em "identifier" p sg (SMatch (p + List.length n) sg (node_if (tok a em) MIdentifier p (p + List.length n) []))) /\
  (forall a em t, tag_ok t = true -> follow ident_char rest -> skipn p w = 35%N :: t ++ rest ->
     lexes w a em "tag_id" p sg (SMatch (p + S (List.length t)) sg (node_if (tok a em) MTagId p (p + S (List.length t)) []))) /\
  (* WHITESPACE / COMMENT: the implicit skipping of a non-atomic rule consumes exactly a gap (blanks, newlines,
     nested block comments, line comments) when what follows is no blank and no comment opener *)
  (forall em g, gap g -> gap_end rest -> skipn p w = g ++ rest ->
     skips meta_grammar false (fun _ => None) w NonAtomic em p sg (SMatch (p + List.length g) sg [])) /\
  (* escape: the seven one-letter escapes, \xHH, \u{2-6 hex digits} *)
  (forall em esc, escape_text esc -> skipn p w = esc ++ rest -> lexes w Atomic em "escape" p sg (SMatch (p + List.length esc) sg [])) /\
  (* string = ${ quote ~ inner_str ~ quote },  character = ${ single_quote ~ inner_chr ~ single_quote } *)
  (forall a cs ew, spells_string 34%N cs ew -> skipn p w = quoted 34%N ew ++ rest ->
     lexes w a true "string" p sg (SMatch (p + List.length (quoted 34%N ew)) sg [string_node p ew])) /\
  (forall a c e, spells_char 39%N c e -> skipn p w = quoted 39%N e ++ rest ->
     lexes w a true "character" p sg (SMatch (p + List.length (quoted 39%N e)) sg [char_node p e])) /\
  (* insensitive_string = { "^" ~ string } and range = { character ~ range_operator ~ character }, gaps inside *)
  (forall cs ew g, spells_string 34%N cs ew -> gap g -> skipn p w = 94%N :: g ++ quoted 34%N ew ++ rest ->
     lexes w NonAtomic true "insensitive_string" p sg
       (SMatch (p + 1 + List.length g + List.length (quoted 34%N ew)) sg
          [Node (mid MInsensitiveString) None p (p + 1 + List.length g + List.length (quoted 34%N ew)) [string_node (p + 1 + List.length g) ew]])) /\
  (forall lo hi e1 e2 g1 g2, spells_char 39%N lo e1 -> spells_char 39%N hi e2 -> gap g1 -> gap g2 ->
     skipn p w = quoted 39%N e1 ++ g1 ++ [46%N; 46%N] ++ g2 ++ quoted 39%N e2 ++ rest ->
     let p1 := p + List.length (quoted 39%N e1) + List.length g1 in
     let p2 := p1 + 2 + List.length g2 in
     lexes w NonAtomic true "range" p sg
       (SMatch (p2 + List.length (quoted 39%N e2)) sg
          [Node (mid MRange) None p (p2 + List.length (quoted 39%N e2))
             [char_node p e1; Node (mid MRangeOperator) None p1 (p1 + 2) []; char_node p2 e2]])).

Theorem C07_lexical : C07_lexical_statement.
Proof.
  intros w p sg rest.
  split; [intros a em ds; apply lex_number|]. split; [intros a em z l; apply lex_integer|].
  split; [intros a em n; apply lex_identifier|]. split; [intros a em t; apply lex_tag_id|].
  split; [intros em g; apply gap_lex|]. split; [intros em esc; apply escape_lex|].
  split; [intros a cs ew; apply lex_string|]. split; [intros a c e; apply lex_character|].
  split; [intros cs ew g; apply lex_insens|]. intros lo hi e1 e2 g1 g2. apply lex_range.
Qed.

Theorem C07_reduction : C07_tokenisation_statement -> C07_statement.
Proof. intros T extras G text S. apply (reduction extras G text); [intros cg P V F; exact (T extras cg text P V F)|exact S]. Qed.

(* THE TOKENISATION HALF, EXPRESSION LEVEL (coq/Meta/Tok*.v): grammar.pest under Peg.Spec tokenises EVERY spelling
   of every concrete grammar as tokens_of_grammar cg: grammar_rules, grammar_rule (modifiers, braces), grammar_doc /
   line_doc, expression (optional leading bar, infix chain), term (tag, prefix operators, node, postfix operators),
   node (parentheses | terminal), terminal (_push_literal, _push, peek_slice, identifier, string, insensitive_string,
   range, in this order), the counted repetitions in the order exact / min / max / min_max; by induction over the
   printed concrete expression.  Hence the full statement. *)
Theorem C07_tokenisation : C07_tokenisation_statement.
Proof. exact tokenisation. Qed.

Theorem C07_reader_reconstructs : C07_statement.
Proof. exact (C07_reduction C07_tokenisation). Qed.

(* THE CODE AS SHIPPED DEVIATES (witnesses replayed on the real code by the harness in every run) *)
(* D1: a = { ^ "b" } - a blank between the caret and the literal, legal since insensitive_string is not atomic -
       is read as Insens of the two characters (double quote, b): parser.rs unescapes the text of the whole pair and
       slices [2..len-1].  fixes/C07-1 *)
Definition C07_insens_space_refuted_statement : Prop :=
  exists G text, spells_grammar false G text /\
    read shipped false text 200 = COk [ {| rname := nm "a"; rty := RNormal; rexpr := EInsens (nm """b") |} ] /\
    ~ reads shipped false text G /\ reads repaired false text G.
Theorem C07_insens_space_refuted : C07_insens_space_refuted_statement.
Proof. exists (abs_grammar (one_rule w1_body)), w1_text. exact insens_space_witness. Qed.

(* D2: `a = { (| b | c) }` - a leading `|` in a nested expression, legal since expression = { choice_operator? ~ .. } -
       panics: only consume_rules_with_spans skips it, the PrattParser gets an infix operator first.  fixes/C07-2 *)
Definition C07_nested_leading_bar_refuted_statement : Prop :=
  exists G text, spells_grammar false G text /\ read shipped false text 200 = CPanic /\
    ~ reads shipped false text G /\ reads repaired false text G.
Theorem C07_nested_leading_bar_refuted : C07_nested_leading_bar_refuted_statement.
Proof. exists (abs_grammar (one_rule w2_body)), w2_text. exact nested_leading_bar_witness. Qed.

Theorem C07_shipped_refuted : ~ C07_shipped_statement.
Proof.
  intros H. destruct insens_space_witness as (S & _ & N & _). exact (N (H false _ _ S)).
Qed.

(* Non-vacuity: the reader (Spec run of grammar.pest + consume) on concrete texts *)
Local Open Scope string_scope.
Example C07_ex_precedence :
  read repaired false (nm "a = { b | c ~ d ~ !e* | (f | g) ~ h }") 300 =
  COk [ {| rname := nm "a"; rty := RNormal;
           rexpr := EChoice (EChoice (EIdent (nm "b"))
                                     (ESeq (ESeq (EIdent (nm "c")) (EIdent (nm "d"))) (ENegPred (ERep (EIdent (nm "e"))))))
                            (ESeq (EChoice (EIdent (nm "f")) (EIdent (nm "g"))) (EIdent (nm "h"))) |} ].
Proof. vm_compute. reflexivity. Qed.

Example C07_ex_lexemes :
  read repaired true (nm "//! top
/// doc
r = _{ /* c /* nested */ */ ""\x41\u{e9}\n"" ~ '\''..'z' ~ PEEK[-01..] ~ x{002,3} // line
  ~ ^ ""q"" ~ #t = (| PUSH_LITERAL(""l"")) }") 500 =
  COk [ {| rname := nm "r"; rty := RSilent;
           rexpr := ESeq (ESeq (ESeq (ESeq (ESeq (EStr [65; 195; 169; 10]%N) (ERange 39 122)) (EPeekSlice (-1)%Z None))
                                     (ERepMinMax (EIdent (nm "x")) 2 3)) (EInsens (nm "q")))
                         (ENodeTag (EPushLiteral (nm "l")) (nm "t")) |} ].
Proof. vm_compute. reflexivity. Qed.

Example C07_ex_min_parens :
  min_parens decode_all (ESeq (EIdent (nm "a")) (ESeq (EIdent (nm "b")) (EChoice (EIdent (nm "c")) (ENegPred (EOpt (ENegPred (EIdent (nm "d"))))))))
  = CSeq (CIdent (nm "a")) (CParen false (CSeq (CIdent (nm "b")) (CParen false (CChoice (CIdent (nm "c"))
         (CNeg (COpt (CParen false (CNeg (CIdent (nm "d")))))))))).
Proof. vm_compute. reflexivity. Qed.

Example C07_ex_errors :
  read repaired false (nm "a = { b{0} }") 200 = CErr EZeroRepeat 8 9 /\
  read repaired false (nm "a = { b{4294967296} }") 200 = CErr ENumOverflow 8 18 /\
  read repaired false (nm "a = { ""\u{D800}"" }") 200 = CPanic /\
  read repaired false (nm "a = { PEEK[99999999999..] }") 200 = CPanic /\
  read repaired false (nm "a = { PUSH_LITERAL(""x"") }") 200 = CErr EPushLiteralFeature 6 23 /\
  read repaired false (nm "a = { b ") 200 = CErr ESyntax 0 0.
Proof. vm_compute. repeat split. Qed.

Print Assumptions C07_partial.
Print Assumptions C07_lexical.
Print Assumptions C07_reduction.
Print Assumptions C07_tokenisation.
Print Assumptions C07_reader_reconstructs.
Print Assumptions C07_insens_space_refuted.
Print Assumptions C07_nested_leading_bar_refuted.
Print Assumptions C07_shipped_refuted.
