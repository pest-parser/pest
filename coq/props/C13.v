(* C13 - operator-precedence parsers build the precedence-correct tree.
   This file holds ONLY the full statement, the closing theorems, non-vacuity examples and
   Print Assumptions.
   Models (line by line, every panic site an explicit [Panic]):  PV.Pratt.Model = pest/src/pratt_parser.rs
   (PrattParser::{new, op, get}, ConstPrattParser::{new_const, get}, pratt_precedence!, PrattParserMap::
   {parse, expr, nud, led, lbp});  PV.Pratt.Climber = pest/src/prec_climber.rs (PrecClimber::{new, get,
   climb, climb_rec}).  Specification: PV.Pratt.Shunt = the classical two-stack shunting-yard algorithm
   with the binding powers of the property text.  A token is (rule, payload); a [tree] is what the
   user's closures build when they are free constructors; [Ok t rest] = returned t with rest unconsumed. *)
From Coq Require Import List Arith Permutation.
Import ListNotations.
Require Import PV.Pratt.Syntax PV.Pratt.Model PV.Pratt.Climber PV.Pratt.Shunt.
Require Import PV.Pratt.Proofs PV.Pratt.WfRegex PV.Pratt.Top.

Definition C13_statement : Prop :=
  forall (A : Type),
  (* (0) the sequences quantified over are exactly  prefix* prim postfix* (infix prefix* prim postfix* )*  *)
  (forall (tbl : table) (ts : list (tok A)), well_formed tbl ts = true <-> regex_seq tbl ts) /\
  (* (1) EVERY table (any affix / associativity at any level >= 1) and EVERY well-formed sequence *)
  (forall (tbl : table) (ts : list (tok A)),
     table_pos tbl -> well_formed tbl ts = true ->
     exists t : tree A,
       pratt_parse all_maps tbl ts = Ok t []       (* PrattParser: no panic, every token consumed *)
       /\ yield t = ts                              (* each operator applied exactly once, operand order preserved *)
       /\ shunt tbl ts = Some t                     (* grouped exactly as the shunting-yard algorithm groups *)
       /\ (infix_only tbl -> one_assoc_per_level tbl ->
           climb (climber_of tbl) ts = Ok t [])) /\ (* PrecClimber, same levels: the same tree *)
  (* (2) the tables one can declare: PrattParser::new().op(..).. and
         ConstPrattParser::new_const(pratt_precedence![..]) of the same declaration *)
  (forall d : decl, d <> [] ->
     exists ct, new_const (macro_expand d) = inl ct /\
       (forall r, builder_get (builder_table d) r =
                  match const_get ct r with Some (af, p) => Some (af, p + PREC_STEP) | None => None end) /\
       table_pos (builder_get (builder_table d)) /\ table_pos (const_get ct) /\
       forall ts : list (tok A), well_formed (builder_get (builder_table d)) ts = true ->
         well_formed (const_get ct) ts = true /\
         pratt_parse all_maps (const_get ct) ts = pratt_parse all_maps (builder_get (builder_table d)) ts) /\
  (* (3) PrecClimber::new and PrattParser::op of the same infix declaration (no rule twice, one
         associativity per level) *)
  (forall d : cdecl, NoDup (crules d) -> cuniform_decl d ->
     forall ts : list (tok A), well_formed (builder_get (builder_table (pratt_decl d))) ts = true ->
     exists t : tree A,
       pratt_parse all_maps (builder_get (builder_table (pratt_decl d))) ts = Ok t [] /\
       climb (climber_get (climber_new d)) ts = Ok t []).

Theorem C13_pratt_precedence_correct : C13_statement.
Proof.
  intros A. split; [|split; [|split]].
  - intros tbl ts. apply well_formed_regex.
  - exact (@pratt_shunt_climb A).
  - exact (@const_builder A).
  - exact (@climber_builder A).
Qed.

(* The fuel that the model's entry point hands to the recursion is never exhausted, on any input
   (so [OutOfFuel] is not an observable outcome of the model; ill-formed input ends in [Panic]). *)
Definition C13_fuel_statement : Prop :=
  forall (A : Type) (m : maps) (tbl : table) (ts : list (tok A)), pratt_parse m tbl ts <> OutOfFuel.
Theorem C13_model_fuel_adequate : C13_fuel_statement.
Proof. exact pratt_parse_fuel. Qed.

(* The remaining public constructors (the statement above speaks about PrattParser::op, pratt_precedence! and
   PrecClimber::new): PrecClimber::new_const on a caller's slice, prec_climber![..], and ConstPrattParser::new_const
   on an arbitrary array.  Levels are unbounded naturals throughout. *)
Definition C13_constructors_statement : Prop :=
  forall (A : Type),
  (* (4) PrecClimber::new_const: ANY slice (entries in any order, any precedence values) with one associativity per
         precedence value denotes the table  table_of (get)  and climb builds the shunting-yard tree of that table (the
         PrattParser's tree when the values are >= 1); a slice without a repeated rule gives that tree in EVERY order
         of its entries ("Entries don't have to be ordered in any way") *)
  (forall c : climber, cuniform_slice c ->
     forall ts : list (tok A), well_formed (table_of (climber_get (climber_new_const c))) ts = true ->
     exists t : tree A,
       climb (climber_get (climber_new_const c)) ts = Ok t [] /\
       shunt (table_of (climber_get (climber_new_const c))) ts = Some t /\
       (table_pos (table_of (climber_get (climber_new_const c))) ->
        pratt_parse all_maps (table_of (climber_get (climber_new_const c))) ts = Ok t [] /\ yield t = ts) /\
       (forall c', NoDup (map fst c) -> Permutation c c' ->
                   climb (climber_get (climber_new_const c')) ts = Ok t [])) /\
  (* (5) prec_climber![..] builds the very vector PrecClimber::new builds from the same declaration, so clause (3) applies *)
  (forall d : list mlevel, NoDup (flat_map mrules d) ->
     climber_macro d = climber_new (cdecl_of_macro d) /\
     forall ts : list (tok A), well_formed (builder_get (builder_table (pratt_decl (cdecl_of_macro d)))) ts = true ->
     exists t : tree A,
       pratt_parse all_maps (builder_get (builder_table (pratt_decl (cdecl_of_macro d)))) ts = Ok t [] /\
       climb (climber_get (climber_macro d)) ts = Ok t []) /\
  (* (6) ConstPrattParser::new_const on ANY array it accepts (any number of levels): levels >= 1 and clause (1) holds of its table *)
  (forall (ops : list (level * bool)) (ct : const_table), new_const ops = inl ct ->
     table_pos (const_get ct) /\
     forall ts : list (tok A), well_formed (const_get ct) ts = true ->
     exists t : tree A,
       pratt_parse all_maps (const_get ct) ts = Ok t [] /\ yield t = ts /\ shunt (const_get ct) ts = Some t).

Theorem C13_every_constructor : C13_constructors_statement.
Proof.
  intros A. split; [|split].
  - exact (@climber_const A).
  - exact (@climber_macro_builder A).
  - exact (@const_any_array A).
Qed.

(* ---------------------------------------------------------------------------------------------
   Non-vacuity.  Rules: 1 = n (prefix), 2 = a, 3 = b (infix), 4 = q (postfix), 9 = a primary.
   --------------------------------------------------------------------------------------------- *)

(* level 1: prefix n (loosest);  level 2: a LEFT-assoc and b RIGHT-assoc on the SAME level;  level 3: postfix q *)
Definition C13_ex_decl : decl :=
  [ ((1, Prefix), []); ((2, Infix ALeft), [(3, Infix ARight)]); ((4, Postfix), []) ].
(* n x a x b x a x q *)
Definition C13_ex_tokens : list (tok nat) :=
  [(1,0); (9,1); (2,2); (9,3); (3,4); (9,5); (2,6); (9,7); (4,8)].
Definition C13_ex_tree : tree nat :=   (* n ((x a x) b (x a (x q))) : the prefix is looser than the infix operators that follow *)
  Pre (1,0) (Bin (Bin (Leaf (9,1)) (2,2) (Leaf (9,3))) (3,4) (Bin (Leaf (9,5)) (2,6) (Post (Leaf (9,7)) (4,8)))).

Example C13_ex_tables :
  b_ops (builder_table C13_ex_decl) = [(4, (Postfix, 40)); (3, (Infix ARight, 30)); (2, (Infix ALeft, 30)); (1, (Prefix, 20))] /\
  new_const (macro_expand C13_ex_decl) = inl [(1, (Prefix, 10)); (2, (Infix ALeft, 20)); (3, (Infix ARight, 20)); (4, (Postfix, 30))].
Proof. vm_compute. split; reflexivity. Qed.

Example C13_ex_hypotheses :
  well_formed (builder_get (builder_table C13_ex_decl)) C13_ex_tokens = true.
Proof. vm_compute. reflexivity. Qed.

Example C13_ex_mixed_level_and_loose_prefix :
  pratt_parse all_maps (builder_get (builder_table C13_ex_decl)) C13_ex_tokens = Ok C13_ex_tree [] /\
  shunt (builder_get (builder_table C13_ex_decl)) C13_ex_tokens = Some C13_ex_tree /\
  yield C13_ex_tree = C13_ex_tokens /\
  (exists ct, new_const (macro_expand C13_ex_decl) = inl ct /\ pratt_parse all_maps (const_get ct) C13_ex_tokens = Ok C13_ex_tree []).
Proof.
  split; [vm_compute; reflexivity|]. split; [vm_compute; reflexivity|]. split; [vm_compute; reflexivity|].
  exists [(1, (Prefix, 10)); (2, (Infix ALeft, 20)); (3, (Infix ARight, 20)); (4, (Postfix, 30))].
  split; vm_compute; reflexivity.
Qed.

(* prefix looser / tighter than the infix operator that follows:  n x a y *)
Example C13_ex_prefix_looser :
  pratt_parse all_maps (builder_get (builder_table [((1, Prefix), []); ((2, Infix ALeft), [])])) [(1,0); (9,1); (2,2); (9,3)]
  = Ok (Pre (1,0) (Bin (Leaf (9,1)) (2,2) (Leaf (9,3)))) [].
Proof. vm_compute. reflexivity. Qed.
Example C13_ex_prefix_tighter :
  pratt_parse all_maps (builder_get (builder_table [((2, Infix ALeft), []); ((1, Prefix), [])])) [(1,0); (9,1); (2,2); (9,3)]
  = Ok (Bin (Pre (1,0) (Leaf (9,1))) (2,2) (Leaf (9,3))) [].
Proof. vm_compute. reflexivity. Qed.

(* the climber on  L {1,2}, R {3}:  x 1 x 3 x 3 x 2 x  =  ((x 1 (x 3 (x 3 x))) 2 x)  = the PrattParser's tree *)
Definition C13_ex_cdecl : cdecl := [ ((1, ALeft), [(2, ALeft)]); ((3, ARight), []) ].
Example C13_ex_climber :
  let ts := [(9,0); (1,1); (9,2); (3,3); (9,4); (3,5); (9,6); (2,7); (9,8)] in
  let t := Bin (Bin (Leaf (9,0)) (1,1) (Bin (Leaf (9,2)) (3,3) (Bin (Leaf (9,4)) (3,5) (Leaf (9,6))))) (2,7) (Leaf (9,8)) in
  climb (climber_get (climber_new C13_ex_cdecl)) ts = Ok t [] /\
  pratt_parse all_maps (builder_get (builder_table (pratt_decl C13_ex_cdecl))) ts = Ok t [].
Proof. vm_compute. split; reflexivity. Qed.

(* the side condition of the climber clause is needed: on a level with both associativities
   (1 left, 2 right) PrecClimber groups  x 1 x 2 x  to the right, PrattParser to the left *)
Example C13_ex_climber_mixed_level_differs :
  let d : cdecl := [ ((1, ALeft), [(2, ARight)]) ] in
  let ts := [(9,0); (1,1); (9,2); (2,3); (9,4)] in
  climb (climber_get (climber_new d)) ts = Ok (Bin (Leaf (9,0)) (1,1) (Bin (Leaf (9,2)) (2,3) (Leaf (9,4)))) [] /\
  pratt_parse all_maps (builder_get (builder_table (pratt_decl d))) ts = Ok (Bin (Bin (Leaf (9,0)) (1,1) (Leaf (9,2))) (2,3) (Leaf (9,4))) [].
Proof. vm_compute. split; reflexivity. Qed.

(* the panic branches of the model are live: an ill-formed sequence, a missing closure *)
Example C13_ex_panics :
  pratt_parse all_maps (builder_get (builder_table C13_ex_decl)) [(9,0); (9,1)] = Panic PLbp /\
  pratt_parse all_maps (builder_get (builder_table C13_ex_decl)) [(2,0); (9,1)] = Panic PNud /\
  pratt_parse all_maps (builder_get (builder_table C13_ex_decl)) ([] : list (tok nat)) = Panic PEmpty /\
  pratt_parse {| m_prefix := true; m_postfix := true; m_infix := false |}
              (builder_get (builder_table C13_ex_decl)) [(9,0); (2,1); (9,2)] = Panic PNoMap.
Proof. vm_compute. repeat split. Qed.

(* a slice in descending order of its rules, precedences with gaps: new_const finds every operator *)
Example C13_ex_new_const_any_order :
  let c : climber := [(7, (40, ARight)); (5, (3, ALeft)); (2, (3, ALeft))] in
  let ts := [(9,0); (2,1); (9,2); (7,3); (9,4); (7,5); (9,6); (5,7); (9,8)] in
  let t := Bin (Bin (Leaf (9,0)) (2,1) (Bin (Leaf (9,2)) (7,3) (Bin (Leaf (9,4)) (7,5) (Leaf (9,6))))) (5,7) (Leaf (9,8)) in
  climb (climber_get (climber_new_const c)) ts = Ok t [] /\ climb (climber_get (climber_new_const (rev c))) ts = Ok t [] /\
  shunt (table_of (climber_get (climber_new_const c))) ts = Some t.
Proof. vm_compute. repeat split. Qed.
(* prec_climber![L 5 | 2, R 7] *)
Example C13_ex_climber_macro :
  climber_macro [(ALeft, (5, [2])); (ARight, (7, []))] = [(5, (1, ALeft)); (2, (1, ALeft)); (7, (2, ARight))].
Proof. vm_compute. reflexivity. Qed.
(* 30 one-operator levels through new_const: the level numbers keep growing (10, 20, .., 300), nothing wraps *)
Example C13_ex_thirty_levels :
  exists ct, new_const (macro_expand (map (fun r => ((r, Infix ALeft), [])) (seq 1 30))) = inl ct /\
             const_get ct 1 = Some (Infix ALeft, 10) /\ const_get ct 26 = Some (Infix ALeft, 260) /\ const_get ct 30 = Some (Infix ALeft, 300).
Proof. eexists. split; [vm_compute; reflexivity|]. vm_compute. repeat split. Qed.

Print Assumptions C13_pratt_precedence_correct.
Print Assumptions C13_model_fuel_adequate.
Print Assumptions C13_every_constructor.
