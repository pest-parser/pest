(* C02 - generated parser and interpreting VM agree on every grammar and input.
   Models: PV.Gen.GenCompile (generator/src/generator.rs as a compiler from optimized rules to
   Layer-C programs; validated structurally against the REAL generator's output on every run),
   PV.Peg.VmCompile (vm/src/lib.rs as such a compiler), PV.Comb.Exec (parser_state.rs).
   obs = result kind, position, token queue, stack contents, attempt_pos, pos_attempts,
   neg_attempts (the call counter and the parse-attempt details are not part of it: the two
   back-ends make different numbers of sequence/optional calls).                             *)
From Coq Require Import List Arith NArith ZArith Bool String Ascii.
Import ListNotations.
Require Import PV.Stack.Model PV.Comb.PState PV.Comb.Bytes PV.Comb.Prog PV.Comb.Exec PV.Peg.Ast PV.Peg.VmCompile
               PV.Gen.GenCompile PV.Gen.ClassH PV.Gen.Rel PV.Gen.Equiv.
Local Open Scope string_scope.

(* for every feature configuration cfg (memchr / the C03 fix / the C12 fix), either value of
   grammar-extras, every optimized grammar G in class H, every Unicode table U, every start name r,
   every input, either value of the error-detail switch, and all fuels that suffice *)
Definition C02_statement : Prop :=
  forall (cfg : config) (extras : bool) (G : ogrammar) (U : utable), in_H G extras = true ->
  forall (r : name) (input : list byte) (detail : bool) (f1 f2 : nat),
    let rg := exec cfg (gen_env G U) f1 (gen_start G U r) (init input None detail) in
    let rv := exec cfg (vm_env G (ulookup U)) f2 (vm_start G (ulookup U) r) (init input None detail) in
    rg <> ROutOfFuel -> rv <> ROutOfFuel ->
    obs rg = obs rv /\ outcome_of cfg rg = outcome_of cfg rv.

Theorem C02_generated_eq_vm : C02_statement.
Proof.
  intros cfg extras G U HH r input detail f1 f2 rg rv Hg Hv.
  destruct (gen_vm_agree cfg G U extras HH r input detail f1 f2 Hg) as [_ H].
  specialize (H Hv). split; [now apply rrel_obs|now apply rrel_outcome].
Qed.

(* the generated parser returns exactly when the VM returns (no call limit: a limit is counted differently by the two) *)
Definition C02_termination_statement : Prop :=
  forall (cfg : config) (extras : bool) (G : ogrammar) (U : utable), in_H G extras = true ->
  forall (r : name) (input : list byte) (detail : bool),
    (exists f1, exec cfg (gen_env G U) f1 (gen_start G U r) (init input None detail) <> ROutOfFuel) <->
    (exists f2, exec cfg (vm_env G (ulookup U)) f2 (vm_start G (ulookup U) r) (init input None detail) <> ROutOfFuel).
Theorem C02_termination_equivalent : C02_termination_statement.
Proof.
  intros cfg extras G U HH r input detail. split.
  - intros [f1 Hg]. exact (proj1 (gen_vm_agree cfg G U extras HH r input detail f1 0 Hg)).
  - intros [f2 Hv]. exact (vm_gen_agree cfg G U extras HH r input detail f2 Hv).
Qed.

(* ---------- outside H the statement is false: one witness per excluded class ---------- *)
Definition wcfg : config := {| memchr := true; fixed3 := true; fixedlim := false |}.
Definition rl (n : string) (t : rtype) (e : oexpr) : orule := {| oname := nm n; oty := t; oexpr_of := e |}.
Definition res_gen (G : ogrammar) (input : string) : res :=
  exec wcfg (gen_env G []) 60 (gen_start G [] (nm "r0")) (init (nm input) None false).
Definition res_vm (G : ogrammar) (input : string) : res :=
  exec wcfg (vm_env G (ulookup [])) 60 (vm_start G (ulookup []) (nm "r0")) (init (nm input) None false).
Definition differ (G : ogrammar) (input : string) : Prop :=
  res_gen G input <> ROutOfFuel /\ res_vm G input <> ROutOfFuel /\ obs (res_gen G input) <> obs (res_vm G input).
Ltac differ_tac := split; [vm_compute; discriminate|split; [vm_compute; discriminate|vm_compute; intros X; discriminate X]].

(* 11a: WHITESPACE declared `!` - the two models' observations differ on `x y` (in the repository derive emits a
   WHITESPACE token inside r0, the VM none) *)
Definition G_ws : ogrammar :=
  [ rl "r0" RNormal (OSeq (OStr (nm "x")) (OStr (nm "y"))); rl "WHITESPACE" RNonAtomic (OStr (nm " ")) ].
Example C02_ws_nonatomic_refuted : why_not_H G_ws false = 2 /\ differ G_ws "x y".
Proof. split; [reflexivity|differ_tac]. Qed.

(* 11b, repaired in /repo (fix 76a77f3): a user rule named like a hard-coded built-in shadows it in BOTH back-ends;
   the grammar is in H, both models match "z" and reject "5" *)
Definition G_shadow : ogrammar :=
  [ rl "r0" RNormal (OIdent (nm "ASCII_DIGIT")); rl "ASCII_DIGIT" RNormal (OStr (nm "z")) ].
Example C02_shadow_builtin_agree :
  in_H G_shadow false = true /\
  obs (res_gen G_shadow "z") = obs (res_vm G_shadow "z") /\ (exists p q st a pa na, obs (res_gen G_shadow "z") = ObsOk p q st a pa na) /\
  obs (res_gen G_shadow "5") = obs (res_vm G_shadow "5") /\ (exists p q st a pa na, obs (res_gen G_shadow "5") = ObsErr p q st a pa na).
Proof. vm_compute. repeat split; try reflexivity; repeat eexists. Qed.

(* 13 (grammar-extras): `#t = e?` after a node - the observations differ on `x` (in the repository the VM tags the
   PRECEDING node when e matched nothing) *)
Definition G_tag_opt : ogrammar :=
  [ rl "r0" RNormal (OSeq (OIdent (nm "r1")) (ONodeTag (OOpt (OIdent (nm "r2"))) (nm "t")));
    rl "r1" RNormal (OStr (nm "x")); rl "r2" RNormal (OStr (nm "y")) ].
Example C02_node_tag_opt_refuted : why_not_H G_tag_opt true = 3 /\ differ G_tag_opt "x".
Proof. split; [reflexivity|differ_tac]. Qed.
(* `#t = e*`: the observations differ on `xxx` (in the repository the generator tags every iteration, the VM the last one) *)
Definition G_tag_rep : ogrammar :=
  [ rl "r0" RNormal (ONodeTag (ORep (OIdent (nm "r1"))) (nm "t")); rl "r1" RNormal (OStr (nm "x")) ].
Example C02_node_tag_rep_refuted : why_not_H G_tag_rep true = 3 /\ differ G_tag_rep "xxx".
Proof. split; [reflexivity|differ_tac]. Qed.

(* row 3: inside an atomic rule e* is `repeat(e)` in the generated code; an e that fails after popping
   (before the repair of the restorer, which did not know POP_ALL) leaves the stack popped there, while the VM's sequence restores it *)
Definition G_dirty : ogrammar :=
  [ rl "r0" RAtomic (OSeq (OPush (OStr (nm "x"))) (OSeq (OPush (OStr (nm "y")))
       (OSeq (ORep (OChoice (OStr (nm "5")) (OIdent (nm "POP_ALL")))) (OIdent (nm "DROP"))))) ].
Example C02_dirty_atomic_rep_refuted : why_not_H G_dirty false = 4 /\ differ G_dirty "xy5y".
Proof. split; [reflexivity|differ_tac]. Qed.

(* the statement without the restriction to H (here already for one configuration, the empty Unicode table,
   start rule r0 and fuel 60) is false *)
Definition C02_statement_unrestricted : Prop :=
  forall (G : ogrammar) (input : string),
    res_gen G input <> ROutOfFuel -> res_vm G input <> ROutOfFuel -> obs (res_gen G input) = obs (res_vm G input).
Theorem C02_unrestricted_refuted : ~ C02_statement_unrestricted.
Proof.
  intros H. destruct C02_ws_nonatomic_refuted as (_ & Hg & Hv & Hd). apply Hd. apply H; assumption.
Qed.

(* ---------- non-vacuity: a grammar in H with WHITESPACE, COMMENT, the four modifiers, stack operations,
   built-ins, a flattened sequence and an atomic repetition; the two models run and agree on it ---------- *)
Definition G_ex : ogrammar :=
  [ rl "r0" RNormal (OSeq (OIdent (nm "SOI")) (OSeq (OIdent (nm "a")) (OSeq (ORep (OIdent (nm "b"))) (OIdent (nm "EOI")))));
    rl "a" RCompound (OSeq (OPush (OIdent (nm "ASCII_ALPHA"))) (OSeq (OStr (nm "=")) (OIdent (nm "POP"))));
    rl "b" RAtomic (OSeq (OStr (nm "x")) (ORep (OChoice (OStr (nm "y")) (OIdent (nm "c")))));
    rl "c" RNonAtomic (OSeq (OStr (nm "(")) (OSeq (OOpt (OIdent (nm "d"))) (OStr (nm ")"))));
    rl "d" RSilent (OChoice (OInsens (nm "k")) (OChoice (ORange 48 57) (ONegPred (OStr (nm ")")))));
    rl "WHITESPACE" RSilent (OStr (nm " "));
    rl "COMMENT" RNormal (OSeq (OStr (nm "#")) (OSkip [nm "#"])) ].
Definition run_gen (G : ogrammar) (input : string) :=
  outcome_of wcfg (exec wcfg (gen_env G []) 200 (gen_start G [] (nm "r0")) (init (nm input) None false)).
Definition run_vm (G : ogrammar) (input : string) :=
  outcome_of wcfg (exec wcfg (vm_env G (ulookup [])) 200 (vm_start G (ulookup []) (nm "r0")) (init (nm input) None false)).
Example C02_example_in_H :
  in_H G_ex false = true /\ in_H G_ex true = true /\
  run_gen G_ex "q=q xy( K )y #c x" = run_vm G_ex "q=q xy( K )y #c x" /\
  (match run_gen G_ex "q=q xy( K )y #c x" with OPairs q => Nat.ltb 10 (List.length q) | _ => false end) = true /\
  run_gen G_ex "q=q x(9" = run_vm G_ex "q=q x(9" /\
  (match run_gen G_ex "q=q x(9" with OParsingError _ _ p => Nat.ltb 4 p | _ => false end) = true.
Proof. vm_compute. repeat split; reflexivity. Qed.

Print Assumptions C02_generated_eq_vm.
Print Assumptions C02_termination_equivalent.
Print Assumptions C02_unrestricted_refuted.
