(* C03 - parser-state combinators are all-or-nothing and match exactly.
   The statements of the property over the model of pest/src/parser_state.rs + position.rs + stack.rs
   (PV.Comb.Exec: `exec cfg E fuel p s`; every Rust panic site is an explicit RPanic).
   Quantification: every feature configuration cfg, every closure environment E, every program p
   built from the public operations, every fuel, every start state s that is well-formed
   (pos <= |input|) and whose stack is in the representation invariant of C11 with some naive
   stack a (true of `init` and preserved by exec: exec_post).                                   *)
From Coq Require Import List Arith NArith ZArith Bool.
Import ListNotations.
Require Import PV.Stack.Model PV.Stack.Proofs PV.Comb.PState PV.Comb.Bytes PV.Comb.Prog PV.Comb.Exec
               PV.Comb.Frame PV.Comb.Contracts PV.Comb.Utf8 PV.Comb.Utf8b PV.Comb.Utf8c.
Require Import PV.Comb.Ref PV.Comb.RefProofs.

(* (1) a failed sequence leaves position, emitted tokens and stack contents as they were
       (tokens up to node tags, see C03_sequence_tag_refuted), and look-ahead / atomicity too *)
Definition C03_sequence_clause : Prop :=
  forall cfg E fuel p s a s', wf s -> Inv (stack s) a ->
    exec cfg E fuel (PSequence p) s = RErr s' -> restored s s'.

(* (2) any look-ahead, whether it succeeds or fails, leaves position, tokens (exactly) and stack
       as they were; and nothing at all is emitted (or tagged) while in look-ahead mode *)
Definition C03_lookahead_clause : Prop :=
  (forall cfg E fuel b p s a s', wf s -> Inv (stack s) a ->
     (exec cfg E fuel (PLookahead b p) s = ROk s' \/ exec cfg E fuel (PLookahead b p) s = RErr s') ->
     restored s s' /\ queue s' = queue s) /\
  (forall cfg E fuel p s a s', wf s -> Inv (stack s) a -> lookahead s <> LNone ->
     (exec cfg E fuel p s = ROk s' \/ exec cfg E fuel p s = RErr s') -> queue s' = queue s).

(* (3) the rule contract: see Contracts.rule_contract *)
Definition C03_rule_clause : Prop :=
  forall cfg E fuel r p s a, wf s -> Inv (stack s) a -> limit_reached s = false ->
  exists s2, queue s2 = (if emits s then QStart 0 (pos s) :: queue s else queue s) /\ pos s2 = pos s /\
  match exec cfg E fuel p s2, exec cfg E (S fuel) (PRule r p) s with
  | ROk sb, ROk s' =>
      pos s' = pos sb /\
      (if emits s
       then exists body, untagq (queue sb) = body ++ QStart 0 (pos s) :: untagq (queue s) /\
                         untagq (queue s') = QEnd (length (queue s)) r None (pos s') :: body ++
                                            QStart (S (length body + length (queue s))) (pos s) :: untagq (queue s)
       else queue s' = queue sb)
  | RErr sb, RErr s' =>
      pos s' = pos sb /\ (if emits s then untagq (queue s') = untagq (queue s) else queue s' = queue sb)
  | RPanic k, RPanic k' => k = k'
  | ROutOfFuel, ROutOfFuel => True
  | _, _ => False
  end.

(* (4) frame: no internal panic (Vec index, splice, drain, usize underflow, unreachable!) ever;
       input/lookahead/atomicity/limit preserved; position and counters monotone, pos <= |input|;
       earlier tokens only ever change in their tag; snapshots balanced (ghost naive stack) *)
Definition C03_frame_clause : Prop :=
  forall cfg E fuel p s a, wf s -> Inv (stack s) a -> post s a (exec cfg E fuel p s).

(* (5) the matching primitives, for a valid UTF-8 input, a char-boundary position and valid UTF-8
       needles: they never slice off a boundary, advance over exactly the matched text, always to
       a boundary, and report failure without moving (PStay) *)
Definition C03_primitive_clause : Prop :=
  (forall inp p s, valid_utf8 inp -> boundaryb inp p = true -> valid_utf8 s ->
     match match_string inp p s with
     | PMoved p' => p' = p + length s /\ firstn (length s) (skipn p inp) = s /\ boundaryb inp p' = true
     | PStay => prefixb s (skipn p inp) = false
     | PPanic => False end) /\
  (forall inp p s, boundaryb inp p = true ->
     match match_insensitive inp p s with
     | PMoved p' => p' = p + length s /\ boundaryb inp p' = true /\
                    map ascii_lower (firstn (length s) (skipn p inp)) = map ascii_lower s
     | PStay => boundaryb inp (p + length s) && prefixb_ci s (skipn p inp) = false
     | PPanic => False end) /\
  (forall inp p lo hi, valid_utf8 inp -> boundaryb inp p = true ->
     char_contract inp p (fun c => (lo <=? c)%N && (c <=? hi)%N) (match_range inp p lo hi)) /\
  (forall inp p rs, valid_utf8 inp -> boundaryb inp p = true ->
     char_contract inp p (in_ranges rs) (match_char_by inp p rs)) /\
  (forall cs k n, Forall scalar cs -> k <= length cs ->
     skip (flat_map encode cs) (length (flat_map encode (firstn k cs))) n =
     if k + n <=? length cs then PMoved (length (flat_map encode (firstn (k + n) cs))) else PStay) /\
  (forall inp p ss, p <= length inp ->
     let r := skip_until_basic inp p ss in
     p <= r <= length inp /\ (r = length inp \/ hit inp ss r = true) /\ forall q, p <= q < r -> hit inp ss q = false).

(* (6) byte-level frame of whole programs: from a valid UTF-8 input at a boundary, with valid
       needles, every reachable state is again at a boundary of a valid input with valid stack
       strings, and no boundary panic can happen; and the memchr-accelerated search (as repaired,
       see known_findings: fixed C03-skip-until-3) gives exactly the result of the plain loop *)
Definition C03_byte_clause : Prop :=
  (forall cfg E, cfg_ok cfg -> env_valid E -> forall fuel p s a,
     prog_valid p -> wf s -> Inv (stack s) a -> utf8_ok s -> upost (exec cfg E fuel p s)) /\
  (forall E fuel p s a l1 l2 f2, env_valid E -> prog_valid p -> wf s -> Inv (stack s) a -> utf8_ok s ->
     exec {| memchr := true; fixed3 := true; fixedlim := l1 |} E fuel p s =
     exec {| memchr := false; fixed3 := f2; fixedlim := l2 |} E fuel p s).

Definition C03_statement_proved_part : Prop :=
  C03_sequence_clause /\ C03_lookahead_clause /\ C03_rule_clause /\ C03_frame_clause /\
  C03_primitive_clause /\ C03_byte_clause.

Theorem C03_combinators_partial : C03_statement_proved_part.
Proof.
  split; [exact sequence_err_restores|]. split; [split; [exact lookahead_restores|exact exec_quiet]|].
  split; [exact rule_contract|]. split; [exact exec_post|].
  split.
  - split; [exact match_string_contract|]. split; [exact match_insensitive_contract|].
    split; [exact match_range_contract|]. split; [exact match_char_by_contract|].
    split; [exact skip_chars|exact skip_until_basic_spec].
  - split; [exact exec_boundary|exact exec_memchr_eq_basic].
Qed.

(* the memchr arm as it was before the fix: commit is refuted (kept as a regression witness) *)
Theorem C03_memchr_unfixed_refuted :
  skip_until_basic [120%N; 120%N; 97%N] 0 [[97%N]; [98%N]; []] = 0 /\
  skip_until_memchr false [120%N; 120%N; 97%N] 0 [[97%N]; [98%N]; []] = Some 2.
Proof. vm_compute. auto. Qed.

(* The same sequence clause with the tokens compared EXACTLY (tags included) is false:
   rule(2, "a") ; sequence(tag_node(0) ; fail)  leaves tag 0 on the earlier End token. *)
Definition C03_sequence_clause_exact : Prop :=
  forall cfg E fuel p s a s', wf s -> Inv (stack s) a ->
    exec cfg E fuel (PSequence p) s = RErr s' -> queue s' = queue s.

Definition tag_witness_prefix : prog := PRule 2 (PPrim (MMatchString [97%N])).
Definition tag_witness : prog := PSequence (PAndThen (PPrim (MTagNode 0)) (PPrim MErr)).
Definition witness_cfg : config := {| memchr := true; fixed3 := true; fixedlim := false |}.

Theorem C03_sequence_tag_refuted : ~ C03_sequence_clause_exact.
Proof.
  intros H.
  (* both states are computed to literals first, so that the clause is instantiated on normal forms *)
  remember (exec witness_cfg (fun _ => None) 10 tag_witness_prefix (init [97%N] None false)) as r1 eqn:E1.
  vm_compute in E1.
  match type of E1 with _ = ROk ?s1 =>
    remember (exec witness_cfg (fun _ => None) 10 tag_witness s1) as r2 eqn:E2; vm_compute in E2;
    match type of E2 with _ = RErr ?s2 =>
      assert (Q : queue s2 = queue s1) by
        (apply (H witness_cfg (fun _ => None) 10 (PAndThen (PPrim (MTagNode 0)) (PPrim MErr)) s1 (@sempty (list byte)) s2);
         [vm_compute; repeat constructor | vm_compute; auto | vm_compute; reflexivity]);
      discriminate Q
    end
  end.
Qed.

(* non-vacuity: a reachable state with tokens, a non-empty stack and a nested snapshot in which a
   failing sequence really had moved position, queue and stack before failing *)
Example C03_example_restore :
  let p := PAndThen (PStackPush (PRule 1 (PPrim (MMatchString [97%N]))))
            (POptional (PSequence (PAndThen (PRule 2 (PPrim (MMatchString [98%N])))
                                  (PAndThen (PPrim MStackPop) (PPrim MErr))))) in
  match exec witness_cfg (fun _ => None) 20 p (init [97%N; 98%N] None false) with
  | ROk s => pos s = 1 /\ length (queue s) = 2 /\ cache (stack s) = [[97%N]]
  | _ => False
  end.
Proof. vm_compute. auto. Qed.

(* (7) reference clause: "the whole observable outcome equals that of a direct executable reading
   of these documented contracts, with and without the memchr-accelerated search".
   Ref.rexec is that reading (plain stack, no counters, no bookkeeping; a failed sequence / any
   look-ahead return the state they were given); abs forgets what the documentation does not
   mention and reads the snapshot stack through its live contents.
   The FULL statement is false, for the one known reason (C03-tag-in-failed-sequence): *)
Definition C03_reference_clause_full : Prop :=
  forall cfg E fuel p s a, wf s -> Inv (stack s) a -> limit s = None ->
    abs_res (exec cfg E fuel p s) = rexec cfg E fuel p (abs s).

Theorem C03_reference_full_refuted : ~ C03_reference_clause_full.
Proof. exact exec_refines_ref_refuted. Qed.

(* What holds, for every configuration, environment, fuel, program and start state:
   (a) EXACT equality with the reference in which the failure clause of `sequence` alone is read
       as coded (tokens = queue truncated to its old length, so a tag written on the last old
       token survives): this is the only clause where code and documentation part;
   (b) exact equality with the fully documented reference for programs (and closures) that
       never call tag_node  [KnownClass = "calls tag_node"];
   (c) equality with the fully documented reference up to the node tags, for all programs;
   (d) the reference outcome does not depend on the memchr feature, and the code built with
       memchr refines the reference that searches with the plain loop. *)
Definition C03_reference_clause : Prop :=
  (forall cfg E fuel p s a, wf s -> Inv (stack s) a -> limit s = None ->
     abs_res (exec cfg E fuel p s) = rexec_gen TagLeak cfg E fuel p (abs s)) /\
  (forall cfg E fuel p s a, notag_env E -> notag p = true -> wf s -> Inv (stack s) a -> limit s = None ->
     abs_res (exec cfg E fuel p s) = rexec cfg E fuel p (abs s)) /\
  (forall cfg E fuel p s a, wf s -> Inv (stack s) a -> limit s = None ->
     rreq (abs_res (exec cfg E fuel p s)) (rexec cfg E fuel p (abs s))) /\
  (forall cfg1 cfg2 E fuel p s a, cfg_ok cfg1 -> cfg_ok cfg2 -> env_valid E -> prog_valid p ->
     wf s -> Inv (stack s) a -> utf8_ok s -> limit s = None ->
     rexec_gen TagLeak cfg1 E fuel p (abs s) = rexec_gen TagLeak cfg2 E fuel p (abs s)) /\
  (forall E fuel p s a l1 l2 f2, env_valid E -> prog_valid p -> wf s -> Inv (stack s) a -> utf8_ok s -> limit s = None ->
     abs_res (exec {| memchr := true; fixed3 := true; fixedlim := l1 |} E fuel p s) =
     rexec_gen TagLeak {| memchr := false; fixed3 := f2; fixedlim := l2 |} E fuel p (abs s)).

Theorem C03_reference : C03_reference_clause.
Proof.
  split; [exact exec_refines_tagleak|]. split; [exact exec_refines_ref_notag|].
  split; [exact exec_refines_ref_untag|]. split; [exact ref_independent_of_memchr|exact exec_memchr_refines_plain_ref].
Qed.

(* from the initial state of a parse, with or without error detail *)
Theorem C03_reference_init : forall cfg E fuel p inp detail,
  abs_res (run_state cfg E fuel p inp None detail) = rexec_gen TagLeak cfg E fuel p (rinit inp) /\
  rreq (abs_res (run_state cfg E fuel p inp None detail)) (rexec cfg E fuel p (rinit inp)) /\
  (notag_env E -> notag p = true -> abs_res (run_state cfg E fuel p inp None detail) = rexec cfg E fuel p (rinit inp)).
Proof.
  intros. split; [apply exec_refines_tagleak_init|]. split; [apply exec_refines_ref_untag_init|].
  intros. now apply exec_refines_ref_init.
Qed.

Print Assumptions C03_combinators_partial.
Print Assumptions C03_reference.
Print Assumptions C03_reference_full_refuted.
Print Assumptions C03_reference_init.
Print Assumptions C03_sequence_tag_refuted.
Print Assumptions C03_memchr_unfixed_refuted.
