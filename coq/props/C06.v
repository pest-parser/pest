(* C06 - validation guarantees termination and accepts well-formed grammars.
   Model of meta/src/validator.rs: PV.Valid.Validator (cfg_current = the code as it is; cfg_fixed =
   with fixes/C06-1-left-recursion-check-expr.patch and fixes/C06-2-node-tag-traversal.patch).
   Semantics: Layer S (PV.Peg.Spec.eval; SFuel = did not terminate within the fuel).
   The keyword / built-in name sets are parameters (kw, builtin): the theorems hold for every
   choice; the correspondence runs instantiate them with the lists of validator.rs.            *)
From Coq Require Import String Ascii List Arith NArith ZArith Bool.
Require Import PV.Peg.AstFacts.
Import ListNotations.
Require Import PV.Comb.PState PV.Peg.Ast PV.Peg.Spec.
Require Import PV.Valid.Validator PV.Valid.Known PV.Valid.Nullable PV.Valid.TermBase PV.Valid.KnownProofs PV.Valid.Accepted PV.Valid.Accept PV.Valid.Refute.

(* parsing any input from any rule terminates (both feature sets, any Unicode property table) *)
Definition terminates (G : grammar) : Prop :=
  forall (extras : bool) (uprop : name -> option (N -> bool)) (w : list byte) (r : name),
  exists fuel, eval G extras uprop w fuel NonAtomic true (EIdent r) 0 [] <> SFuel.
(* the opposite, for one start rule and one input: out of fuel for EVERY fuel *)
Definition diverges (G : grammar) (r : name) (w : list byte) : Prop :=
  forall (extras : bool) (uprop : name -> option (N -> bool)) (fuel : nat),
  eval G extras uprop w fuel NonAtomic true (EIdent r) 0 [] = SFuel.

Definition C06_termination (cfg : vcfg) : Prop :=
  forall (kw builtin : name -> bool) (G : grammar),
  validate kw builtin cfg G = [] -> no_stack_builtins G = true -> terminates G.

Definition C06_acceptance (cfg : vcfg) : Prop :=
  forall (kw builtin uprop_name : name -> bool) (G : grammar),
  wellformed_names kw builtin G -> legal_counts G -> tags_ok builtin G ->
  starts_with_char_everywhere uprop_name G ->
  validate kw builtin cfg G = [].

(* THE STATEMENT (for a validator configuration) *)
Definition C06_statement (cfg : vcfg) : Prop := C06_termination cfg /\ C06_acceptance cfg.

(* the statement restricted by the decidable known class (implicit WHITESPACE / COMMENT reaching a `!` rule) *)
Definition C06_termination_outside_known_class (cfg : vcfg) : Prop :=
  forall (kw builtin : name -> bool) (G : grammar),
  validate kw builtin cfg G = [] -> no_stack_builtins G = true -> ws_reaches_nonatomic G = false -> terminates G.
Definition C06_statement_outside_known_class (cfg : vcfg) : Prop :=
  C06_termination_outside_known_class cfg /\ C06_acceptance cfg.

(* (<=) holds for the code as it is and for the repaired code *)
Theorem C06_acceptance_any : forall cfg, C06_acceptance cfg.
Proof. intros cfg kw builtin uprop_name G H1 H2 H3 H4. exact (acceptance kw builtin uprop_name G cfg H1 H2 H3 H4). Qed.

(* the cycle condition in the words of the property: "every path from a rule back to itself begins by matching at least one
   character" - a reference from which the rule can be reached again (through references at any position) is never unguarded *)
Theorem C06_acceptance_as_worded : forall cfg (kw builtin uprop_name : name -> bool) (G : grammar),
  wellformed_names kw builtin G -> legal_counts G -> tags_ok builtin G ->
  (forall r x, In r G -> rep_body (rexpr r) x -> starts_with_char uprop_name G x) ->
  (forall r, In r G -> is_ws_or_comment (rname r) = true -> starts_with_char uprop_name G (rexpr r)) ->
  (forall r l r', In r G -> In (EChoice l r') (subexprs (rexpr r)) -> starts_with_char uprop_name G l) ->
  every_cycle_starts_with_char uprop_name G ->
  validate kw builtin cfg G = [].
Proof.
  intros cfg kw builtin uprop_name G H1 H2 H3 A B C D.
  apply (C06_acceptance_any cfg kw builtin uprop_name G H1 H2 H3).
  split; [exact A|]. split; [exact B|]. split; [exact C|]. now apply cycles_text.
Qed.

(* the model itself is total: its fuel (number of rules + 1) never runs out, no panic site of validator.rs is reached *)
Theorem C06_model_total : forall (kw builtin : name -> bool) cfg (G : grammar),
  ~ In VFuel (validate kw builtin cfg G) /\ ~ In VPanic (validate kw builtin cfg G).
Proof. intros. apply validate_total; exact (fun _ => false). Qed.

(* (=>) is FALSE for the code as it is: four witnesses (DESIGN.md section 4 row 2) *)
Definition pest_keywords : list name :=
  [nm "_"; nm "ANY"; nm "DROP"; nm "EOI"; nm "PEEK"; nm "PEEK_ALL"; nm "POP"; nm "POP_ALL"; nm "PUSH"; nm "SOI"].
Definition kw0 (n : name) : bool := mem n pest_keywords.
Definition builtin0 (n : name) : bool :=
  mem n [nm "ANY"; nm "DROP"; nm "EOI"; nm "PEEK"; nm "PEEK_ALL"; nm "POP"; nm "POP_ALL"; nm "SOI"; nm "ASCII_DIGIT";
         nm "ASCII_NONZERO_DIGIT"; nm "ASCII_BIN_DIGIT"; nm "ASCII_OCT_DIGIT"; nm "ASCII_HEX_DIGIT"; nm "ASCII_ALPHA_LOWER";
         nm "ASCII_ALPHA_UPPER"; nm "ASCII_ALPHA"; nm "ASCII_ALPHANUMERIC"; nm "ASCII"; nm "NEWLINE"].

Definition accepted_and_diverges (cfg : vcfg) (G : grammar) (r : name) (w : list byte) : Prop :=
  validate kw0 builtin0 cfg G = [] /\ no_stack_builtins G = true /\ diverges G r w.

(* a = { a? ~ "x" } *)
Theorem C06_witness_opt : forall w, accepted_and_diverges cfg_current W_opt ra w.
Proof. intros w. split; [vm_compute; reflexivity|]. split; [reflexivity|]. intros extras uprop fuel. apply W_opt_loops. Qed.
(* a = { !a ~ "x" } *)
Theorem C06_witness_neg : forall w, accepted_and_diverges cfg_current W_neg ra w.
Proof. intros w. split; [vm_compute; reflexivity|]. split; [reflexivity|]. intros extras uprop fuel. apply W_neg_loops. Qed.
(* a = { a{2} } *)
Theorem C06_witness_exact : forall w, accepted_and_diverges cfg_current W_exact ra w.
Proof. intros w. split; [vm_compute; reflexivity|]. split; [reflexivity|]. intros extras uprop fuel. apply W_exact_loops. Qed.
(* a = { b ~ "x" }  b = { a? } *)
Theorem C06_witness_mutual : forall w, accepted_and_diverges cfg_current W_mutual ra w.
Proof. intros w. split; [vm_compute; reflexivity|]. split; [reflexivity|]. intros extras uprop fuel. apply W_mutual_loops. Qed.

Lemma diverges_not_terminates G r w : diverges G r w -> ~ terminates G.
Proof. intros Hd Ht. destruct (Ht false (fun _ => None) w r) as [fuel Hf]. apply Hf. apply Hd. Qed.

Theorem C06_termination_refuted : ~ C06_termination cfg_current.
Proof.
  intros H. destruct (C06_witness_opt []) as (Hv & Hs & Hd).
  exact (diverges_not_terminates _ _ _ Hd (H kw0 builtin0 W_opt Hv Hs)).
Qed.
Theorem C06_statement_refuted : ~ C06_statement cfg_current.
Proof. intros [H _]. exact (C06_termination_refuted H). Qed.

Example C06_fixed_rejects_witnesses :
  validate kw0 builtin0 cfg_fixed W_opt = [VLeftRec [ra; ra]] /\ validate kw0 builtin0 cfg_fixed W_neg = [VLeftRec [ra; ra]] /\
  validate kw0 builtin0 cfg_fixed W_exact = [VLeftRec [ra; ra]] /\
  validate kw0 builtin0 cfg_fixed W_mutual = [VLeftRec [ra; rb; ra]; VLeftRec [rb; ra; rb]].
Proof. vm_compute. repeat split; reflexivity. Qed.

(* (=>) for the repaired validator: false in full (implicit skip), true outside the known class *)
(* r = { "x" ~ "y" }  WHITESPACE = { n }  n = !{ "" ~ " " }, from the rule WHITESPACE, any input *)
Theorem C06_witness_ws : forall w, accepted_and_diverges cfg_fixed W_ws (nm "WHITESPACE") w /\ ws_reaches_nonatomic W_ws = true.
Proof.
  intros w. split; [|vm_compute; reflexivity].
  split; [vm_compute; reflexivity|]. split; [reflexivity|]. intros extras uprop fuel. apply W_ws_loops.
Qed.
Theorem C06_termination_fixed_refuted : ~ C06_termination cfg_fixed.
Proof.
  intros H. destruct (C06_witness_ws []) as [(Hv & Hs & Hd) _].
  exact (diverges_not_terminates _ _ _ Hd (H kw0 builtin0 W_ws Hv Hs)).
Qed.

(* grammar-extras: without fixes/C06-2 a repetition under a node tag is never validated *)
Theorem C06_witness_tag : forall w, accepted_and_diverges {| fix_lr := true; fix_tag := false |} W_tag (nm "r") w /\
  validate kw0 builtin0 cfg_fixed W_tag = [VRepNF].
Proof.
  intros w. split; [|vm_compute; reflexivity].
  split; [vm_compute; reflexivity|]. split; [reflexivity|]. intros extras uprop fuel. apply W_tag_loops.
Qed.

Theorem C06_termination_fixed : C06_termination_outside_known_class cfg_fixed.
Proof.
  intros kw builtin G Hv Hs Hk extras uprop w r.
  apply (termination_fixed kw builtin cfg_fixed G eq_refl (or_introl eq_refl) Hv Hs (not_known_ws G Hk)).
Qed.

(* the same with only the check_expr repair, for grammars without node tags (default feature set) *)
Theorem C06_termination_fixed_lr_only :
  forall kw builtin G, validate kw builtin {| fix_lr := true; fix_tag := false |} G = [] -> no_tags G = true ->
  no_stack_builtins G = true -> ws_reaches_nonatomic G = false -> terminates G.
Proof.
  intros kw builtin G Hv Ht Hs Hk extras uprop w r.
  apply (termination_fixed kw builtin {| fix_lr := true; fix_tag := false |} G eq_refl (or_intror Ht) Hv Hs (not_known_ws G Hk)).
Qed.

Theorem C06_fixed_outside_known_class : C06_statement_outside_known_class cfg_fixed.
Proof. split; [exact C06_termination_fixed|apply C06_acceptance_any]. Qed.

(* e = { "(" ~ e ~ ")" | "x"+ ~ e? }   WHITESPACE = _{ " " } : recursive, with repetition, accepted *)
Definition G_ok : grammar :=
  [{| rname := nm "e"; rty := RNormal;
      rexpr := EChoice (ESeq (EStr (nm "(")) (ESeq (EIdent (nm "e")) (EStr (nm ")")))) (ESeq (ERepOnce (EStr (nm "x"))) (EOpt (EIdent (nm "e")))) |};
   {| rname := nm "WHITESPACE"; rty := RSilent; rexpr := EStr (nm " ") |}].
Example C06_nonvacuous_accepts :
  validate kw0 builtin0 cfg_current G_ok = [] /\ validate kw0 builtin0 cfg_fixed G_ok = [] /\
  no_stack_builtins G_ok = true /\ ws_reaches_nonatomic G_ok = false.
Proof. vm_compute. repeat split; reflexivity. Qed.
Example C06_nonvacuous_terminates : terminates G_ok.
Proof. destruct C06_nonvacuous_accepts as (_ & H2 & H3 & H4). exact (C06_termination_fixed kw0 builtin0 G_ok H2 H3 H4). Qed.
(* both verdicts occur, and every check can fire *)
Example C06_nonvacuous_rejects :
  validate kw0 builtin0 cfg_current [{| rname := ra; rty := RNormal; rexpr := ESeq (EIdent ra) lit_x |}] = [VLeftRec [ra; ra]] /\
  validate kw0 builtin0 cfg_current [{| rname := ra; rty := RNormal; rexpr := ERep (EOpt lit_x) |}] = [VRepNF] /\
  validate kw0 builtin0 cfg_current [{| rname := ra; rty := RNormal; rexpr := ERep (ENegPred lit_x) |}] = [VRepNP] /\
  validate kw0 builtin0 cfg_current [{| rname := ra; rty := RNormal; rexpr := EChoice (EStr []) lit_x |}] = [VChoNF] /\
  validate kw0 builtin0 cfg_current [{| rname := nm "WHITESPACE"; rty := RNormal; rexpr := EIdent (nm "SOI") |}] = [VSpNP (nm "WHITESPACE")] /\
  validate kw0 builtin0 cfg_current [{| rname := nm "ANY"; rty := RNormal; rexpr := EIdent rb |}] = [VKeyword (nm "ANY"); VUndef rb].
Proof. vm_compute. repeat split; reflexivity. Qed.
(* the hypotheses of (<=) are satisfiable by a recursive grammar: e = { "(" ~ e ~ ")" | "x" } *)
Definition G_paren : grammar :=
  [{| rname := nm "e"; rty := RNormal; rexpr := EChoice (ESeq (EStr (nm "(")) (ESeq (EIdent (nm "e")) (EStr (nm ")")))) (EStr (nm "x")) |}].
Example C06_nonvacuous_acceptance_hyps :
  wellformed_names kw0 builtin0 G_paren /\ legal_counts G_paren /\ tags_ok builtin0 G_paren /\ starts_with_char_everywhere (fun _ => false) G_paren.
Proof.
  assert (Hsw : forall G s, s <> [] -> starts_with_char (fun _ => false) G (EStr s)) by (intros; now constructor).
  split; [|split; [|split]].
  - split; [|split].
    + intros r [<-|[]]. reflexivity.
    + repeat constructor. intros [].
    + intros r n [<-|[]] Hn. cbn in Hn. destruct Hn as [<-|[]]. left. cbn. auto.
  - intros r [<-|[]]. reflexivity.
  - intros r x t [<-|[]] Hn. cbn in Hn. repeat (destruct Hn as [Hn|Hn]; [discriminate|]). destruct Hn.
  - split; [|split; [|split]].
    + intros r x [<-|[]] [Hn|[Hn|[n Hn]]]; cbn in Hn; repeat (destruct Hn as [Hn|Hn]; [discriminate|]); destruct Hn.
    + intros r [<-|[]] Hs. discriminate.
    + intros r l r' [<-|[]] Hn. cbn in Hn. destruct Hn as [Hn|Hn].
      * inversion Hn; subst. apply SwSeq. apply Hsw. discriminate.
      * repeat (destruct Hn as [Hn|Hn]; [discriminate|]). destruct Hn.
    + (* no unguarded reference at all: "(" guards the only reference *)
      assert (Hno : forall v y, ~ uedge (fun _ => false) G_paren v y).
      { intros v y (b & Hb & Hu). unfold Validator.lookup in Hb.
        destruct (find_rule G_paren v) as [r0|] eqn:Ef; [|discriminate Hb]. inversion Hb; subst b. clear Hb.
        apply AstFacts.find_rule_In in Ef. destruct Ef as [[<-|[]] _]. cbn [rexpr] in Hu.
        inversion Hu; subst.
        - inversion H2 as [| ? ? ? HL | ? ? ? HN HR | | | | | | | | | | | | |]; subst; [inversion HL|]. apply HN. apply Hsw. discriminate.
        - inversion H2. }
      intros x Hp. inversion Hp; subst; eapply Hno; eauto.
Qed.
Example C06_nonvacuous_acceptance : validate kw0 builtin0 cfg_fixed G_paren = [].
Proof.
  destruct C06_nonvacuous_acceptance_hyps as (H1 & H2 & H3 & H4).
  exact (C06_acceptance_any cfg_fixed kw0 builtin0 (fun _ => false) G_paren H1 H2 H3 H4).
Qed.

Print Assumptions C06_acceptance_any.
Print Assumptions C06_acceptance_as_worded.
Print Assumptions C06_model_total.
Print Assumptions C06_termination_refuted.
Print Assumptions C06_statement_refuted.
Print Assumptions C06_witness_neg.
Print Assumptions C06_witness_exact.
Print Assumptions C06_witness_mutual.
Print Assumptions C06_termination_fixed_refuted.
Print Assumptions C06_witness_tag.
Print Assumptions C06_termination_fixed.
Print Assumptions C06_termination_fixed_lr_only.
Print Assumptions C06_fixed_outside_known_class.
