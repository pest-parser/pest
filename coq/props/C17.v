(* C17 - the debugger reports exactly the breakpoint hits of the parse under any timing.
   This file holds ONLY the full statements, the closing theorems, non-vacuity examples and
   Print Assumptions.  Model: PV.Debugger.Proto (transition system of debugger/src/lib.rs: listener
   closure, thread body, run(), cont(), breakpoint edits, recv; park token, is_done flag, breakpoint
   set under its Mutex (explicit acquire/release steps), bounded channel with blocking send, join).  `literal k` is the code as it is,
   `repaired k` the code with fixes/C17-1-final-send.patch, k the capacity of the channel (main.rs
   and the test-suite use 1).  A schedule is any list of thread ids whose steps are all enabled;
   `reachable cf cs b s` quantifies over ALL command histories cs (each run command carries the
   entry list and outcome of an arbitrary parse), initial breakpoint sets b and schedules.

   PARTIAL BY NATURE: spurious wake-ups of thread::park, OS scheduling fairness and memory orderings
   below SeqCst (run() loads the flag Relaxed) are run-time behaviours this model cannot exhibit;
   C17_spurious_wakeup_breaks_quiet shows what a spurious wake-up would allow. *)
From Coq Require Import List Arith Bool.
Import ListNotations.
Require Import PV.Debugger.Proto PV.Debugger.Spec PV.Debugger.Quiet PV.Debugger.Safety
               PV.Debugger.Count PV.Debugger.Rerun PV.Debugger.Witness.

(* THE FULL STATEMENT, for a version cf of the code: in every reachable state
   1. the delivered events of the current run are exactly the hits (rule in the breakpoint set at the
      moment of the lookup) among a prefix of the entries of the parse, followed at most by the outcome
      of the plain parse, and only after all entries (never an abort error);
   2. nothing is delivered while parked: deliveries <= wake-ups + 1, wake-ups <= unparks;
   3. deliveries <= 1 + number of cont();
   4. if the controller waits in the join of a run() that it called when it had received every
      delivered event, some thread can move; and every schedule is finite (so the join returns). *)
Definition C17_statement (cf : config) : Prop :=
  forall cs b s, reachable cf cs b s ->
    delivery_ok false s /\ quiet_ok s /\ count_ok s /\ join_progress cf s /\
    (forall sch s', exec cf s sch = Some s' -> length sch + measure s' <= measure s).

(* the class of controller behaviours outside which the repaired code is proved:
   some cont() of the current run did not answer a received, not yet answered breakpoint event *)
Definition KnownClass (s : state) : Prop := disciplined s = false.

Definition C17_restricted_statement (cf : config) : Prop :=
  forall cs b s, reachable cf cs b s ->
    delivery_ok false s /\ quiet_ok s /\ count_ok s /\ (~ KnownClass s -> join_progress cf s) /\
    (forall sch s', exec cf s sch = Some s' -> length sch + measure s' <= measure s).

(* what does hold of the code as it is (abort error may be delivered; the kick counts as a cont) *)
Definition C17_literal_safety_statement : Prop :=
  forall k cs b s, reachable (literal k) cs b s ->
    delivery_ok true s /\ quiet_ok s /\ count_weak_ok s /\
    (forall sch s', exec (literal k) s sch = Some s' -> length sch + measure s' <= measure s).

(* (1) the code as it is: clause 4 fails, even for a disciplined controller; witness = DESIGN.md row 12 *)
Definition C17_rerun_terminates_refuted_statement : Prop :=
  exists cs b sch s, exec (literal 1) (init cs b) sch = Some s /\
    in_join_drained s = true /\ ~ KnownClass s /\ deadlocked (literal 1) s = true.

Theorem C17_rerun_terminates_refuted : C17_rerun_terminates_refuted_statement.
Proof.
  destruct rerun_hangs_literal as (s & H1 & H2 & H3 & H4 & _).
  exists w1_cmds, [0], w1_sched, s. repeat split; auto. unfold KnownClass. rewrite H3. discriminate.
Qed.

Theorem C17_full_statement_refuted_literal : ~ C17_statement (literal 1).
Proof.
  intros H. destruct rerun_hangs_literal as (s & H1 & H2 & H3 & H4 & _).
  destruct (H w1_cmds [0] s (ex_intro _ w1_sched H1)) as (_ & _ & _ & Hj & _).
  unfold deadlocked in H4. destruct (Hj H2) as [E|E]; rewrite E in H4; cbn in H4; try discriminate.
  destruct (enabled (literal 1) s C); discriminate.
Qed.

(* (2) the repaired code: the full statement restricted to ~KnownClass, for every capacity >= 1 *)
Theorem C17_repaired_outside_known_class : forall k, k >= 1 -> C17_restricted_statement (repaired k).
Proof.
  intros k Hk cs b s Hr. repeat split.
  - exact (delivery_exact (repaired k) cs b s Hr).
  - apply (quiet_while_parked (repaired k) cs b s eq_refl Hr).
  - apply (quiet_while_parked (repaired k) cs b s eq_refl Hr).
  - apply (quiet_while_parked (repaired k) cs b s eq_refl Hr).
  - exact (one_delivery_per_cont k cs b s Hr).
  - intros Hn. apply (join_never_stuck k cs b s Hk Hr).
    unfold KnownClass in Hn. destruct (disciplined s); [reflexivity | exfalso; apply Hn; reflexivity].
  - intros sch s'. apply all_schedules_finite.
Qed.

(* (3) and the restriction is needed: a stale park token (cont twice) still hangs the repaired code *)
Theorem C17_full_statement_refuted_repaired : ~ C17_statement (repaired 1).
Proof.
  intros H. destruct rerun_hangs_repaired_undisciplined as (s & H1 & H2 & H3 & H4).
  destruct (H w2_cmds [0] s (ex_intro _ w2_sched H1)) as (_ & _ & _ & Hj & _).
  unfold deadlocked in H4. destruct (Hj H2) as [E|E]; rewrite E in H4; cbn in H4; try discriminate.
  destruct (enabled (repaired 1) s C); discriminate.
Qed.

(* (4) the safety clauses that the code as it is does satisfy *)
Theorem C17_literal_safety : C17_literal_safety_statement.
Proof.
  intros k cs b s Hr. repeat split.
  - exact (delivery_exact (literal k) cs b s Hr).
  - apply (quiet_while_parked (literal k) cs b s eq_refl Hr).
  - apply (quiet_while_parked (literal k) cs b s eq_refl Hr).
  - apply (quiet_while_parked (literal k) cs b s eq_refl Hr).
  - exact (deliveries_le_unparks (literal k) cs b s eq_refl Hr).
  - intros sch s'. apply all_schedules_finite.
Qed.

(* (4b) breakpoint edits never block, for EVERY version and capacity: whoever wants the guard of the
   breakpoint set gets it at once or after one (always enabled) step of the holder; while the parse is
   stopped at a breakpoint (parked / blocked in send) add_breakpoint and delete_breakpoint go through at once.
   The Mutex is modelled with explicit acquire / release steps (PLock -> PHeld, CIdle -> EAdd/EDel). *)
Definition C17_edits_never_block_statement : Prop :=
  forall cf cs b s, reachable cf cs b s -> edits_never_block cf s.

Theorem C17_breakpoint_edits_never_block : C17_edits_never_block_statement.
Proof. exact mutex_never_blocks. Qed.

(* (5) limitation: with a spurious return of park() a second event is delivered without any unpark *)
Definition C17_spurious_statement : Prop :=
  exists cs b sch s, exec (spurious 2) (init cs b) sch = Some s /\
    sends (log s) = [EvBp 0 0; EvBp 0 5] /\ count is_cont (log s) = 0 /\ count is_kick (log s) = 0 /\
    ~ quiet_ok s /\ exec (repaired 2) (init cs b) sch = None.

Theorem C17_spurious_wakeup_breaks_quiet : C17_spurious_statement.
Proof.
  destruct spurious_wakeup_breaks_quiet as (s & H1 & H2 & H3 & H4 & H5).
  exists w4_cmds, [0], w4_sched, s. repeat split; auto.
  intros (Q1 & Q2 & Q3). revert Q1 Q2. unfold parked.
  assert (E : exec (spurious 2) (init w4_cmds [0]) w4_sched = Some s) by exact H1.
  vm_compute in E. injection E as <-. vm_compute. intros Q1 Q2.
  apply Nat.le_0_r in Q2. discriminate.
Qed.

Example C17_full_flow : exists s, exec (repaired 1) (init nv_cmds [2]) nv_sched = Some s /\
  rev (out s) = [ORecv (EvBp 2 0); OContOk; ORecv (EvBp 2 2); OContOk; ORecv EvEof] /\ c_finished s = true.
Proof. destruct full_flow_example as (s & H1 & H2 & H3 & _). eauto. Qed.
Example C17_join_state : exists cs b s, reachable (repaired 1) cs b s /\ in_join_drained s = true /\ ~ KnownClass s.
Proof.
  destruct rerun_join_example as (s & H1 & H2 & H3 & _). exists w1_cmds, [0], s.
  split; [eexists; exact H1|]. split; auto. unfold KnownClass. rewrite H3. discriminate.
Qed.
Example C17_count_exceeded_literal : exists s, exec (literal 1) (init w3_cmds [0]) w3_sched = Some s /\
  sends (log s) = [EvBp 0 0; EvAbort] /\ count is_cont (log s) = 0.
Proof. exact count_exceeded_literal. Qed.

Print Assumptions C17_rerun_terminates_refuted.
Print Assumptions C17_full_statement_refuted_literal.
Print Assumptions C17_repaired_outside_known_class.
Print Assumptions C17_full_statement_refuted_repaired.
Print Assumptions C17_literal_safety.
Print Assumptions C17_breakpoint_edits_never_block.
Print Assumptions C17_spurious_wakeup_breaks_quiet.
