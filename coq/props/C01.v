(* C01 - parsing conforms to the documented PEG semantics of the grammar language.

   Layers:  S = PV.Peg.Spec (`eval`, `spec_parse`: DESIGN.md Appendix A),
            B = PV.Peg.VmCompile (pest_vm as a compiler from optimized rules to Layer-C programs),
            C = PV.Comb.Exec (`exec`: parser_state.rs),   F = the optimizer (C05) and the validator (C06).

   FULL STATEMENT (`C01_statement`): for every grammar G the validator accepts, outside the decidable known
   classes, with OG = optimize G: parsing rule r of input w with the VM succeeds with the forest f  iff  the Spec
   evaluation of r on G matches with the forest f.  The validator and the optimizer belong to C06 / C05; the
   statement is therefore parametrised by them.

   PROVED HERE (closed under the global context, Coq 8.16.1, stdlib only):
     C01_simulation   the refinement theorem `vm_refines_spec` (induction on the Spec fuel, structural induction
                      inside): for every optimized grammar passing `grammar_ok`, every expression of the fragment,
                      every machine state representing the Spec state (a, emit, p, sg): a Spec match (p', sg', f)
                      is answered by an `exec` run ending in ROk with position p', stack contents sg' and the queue
                      extended by EXACTLY the tokens of f (tags included); a Spec failure by a run ending in RErr
                      with position and queue as before, and the stack contents as before whenever the expression
                      is syntactically "clean" (`fclean`).  With pp = true (PEEK / POP allowed) the run may instead
                      end in the documented empty-stack panic (known finding C01-emptystack), never otherwise.
     C01_termination  the converse transfer `vm_terminates_spec`: if the VM returns Ok or Err within fuel m, the Spec
                      evaluation with fuel m is definite (the second clause of the same induction: the first
                      clause identifies the state each sub-run ends in).
     C01_forward      whole parses, Spec -> VM, both outcomes (Match -> Pairs with that forest; Fail -> ParsingError).
     C01_sound        whole parses, VM -> Spec, PEEK / POP allowed: a returned Pairs value is the Spec's forest.
     C01_partial      whole parses, both directions, both outcomes, no hypothesis on termination, for every
                      optimized grammar passing the checker `grammar_okb .. false` (no PEEK / POP).
     C01_from_parts   `C01_statement` from C01_partial + the hypotheses of Section FromParts, which name exactly what
                      separates the two:
                        (i)   optimizer_preserves  (C05): Spec on embed_g (optimize G) = Spec on G (+ totality and
                              preservation of rule names);
                        (ii)  optimized_in_fragment: optimize G passes `grammar_okb .. false`, i.e. the restrictions
                              that remain: no PEEK / POP (else the theorem holds up to the empty-stack panic), every
                              `#tag = e` has an e that produces a node of its own whenever it matches (else the VM
                              tags the previous node: known finding), `e+` as ORepOnce only with grammar-extras,
                              restore_on_err did its job (`rok`; fails for unrepaired POP_ALL, known finding 3),
                              WHITESPACE / COMMENT do not fail with a modified stack, identifiers are defined,
                              rule names are unique, string constants are valid UTF-8 (they are Rust Strings).
                      Termination of the Spec (C06) is NOT needed: it transfers in both directions.
   The fragment reached is the whole `oexpr` language (stages 1-5 of the plan): terminals, sequence, choice,
   optional, repetition, RepOnce (extras), both predicates, all five rule types incl. WHITESPACE / COMMENT rules
   of every type and the four shapes of the implicit skip, all hard-coded names, Unicode property rules, Skip,
   PUSH / PUSH literal / DROP / PEEK_ALL / POP_ALL / PEEK[i..j] / PEEK / POP, RestoreOnErr, node tags.          *)
From Coq Require Import List Arith NArith ZArith Bool String.
Import ListNotations.
Require Import PV.Iter.Queue PV.Stack.Model PV.Comb.PState PV.Comb.Bytes PV.Comb.Prog PV.Comb.Exec
               PV.Comb.Utf8 PV.Comb.Utf8c PV.Peg.Ast PV.Peg.Spec PV.Peg.VmCompile
               PV.Peg.Refine0 PV.Peg.Refine1 PV.Peg.Refine3 PV.Peg.Refine6 PV.Peg.Refine10 PV.Peg.Refine11.

Definition C01_statement
    (valid : grammar -> Prop) (known : grammar -> Prop) (optimize : grammar -> option ogrammar)
    (extras : bool) (uranges : name -> option (list (N * N))) (cfg : config) : Prop :=
  forall G, valid G -> ~ known G ->
  exists OG, optimize G = Some OG /\
  forall r w f, valid_utf8 w -> has_rule G r = true ->
    ((exists m q, vm_parse OG uranges cfg w m r false = OPairs q /\ forest q = f) <->
     (exists n p sg, spec_parse G extras (uprop uranges) w n r = SMatch p sg f)).

Definition C01_simulation_statement : Prop :=
  forall OG extras uranges pp cfg w, cfg_ok cfg -> grammar_ok OG extras uranges pp ->
  forall n e a emit p sg s,
    in_fragment OG extras uranges pp e = true -> rok OG (K OG) e = true -> lits_valid e ->
    rep w a emit p sg s ->
    match eval (embed_g OG) extras (uprop uranges) w n a emit (embed e) p sg with
    | SMatch p' sg' f =>
        exists m vr, exec cfg (vm_env OG uranges) m (vm_expr OG uranges e) s = vr /\
        match vr with
        | ROk s' => pos s' = p' /\ cache (stack s') = sg' /\
                    queue s' = toks (List.length (queue s)) f ++ queue s /\ rep w a emit p' sg' s'
        | RPanic k => pp = true /\ k = PkEmptyStack
        | _ => False
        end
    | SFail =>
        exists m vr, exec cfg (vm_env OG uranges) m (vm_expr OG uranges e) s = vr /\
        match vr with
        | RErr s' => pos s' = pos s /\ queue s' = queue s /\
                     ((exists k, fclean OG k e = true) -> cache (stack s') = cache (stack s)) /\
                     good s' /\ keeps s s'
        | RPanic k => pp = true /\ k = PkEmptyStack
        | _ => False
        end
    | SFuel => True
    end.

Theorem C01_simulation : C01_simulation_statement.
Proof. exact vm_refines_spec. Qed.

Definition C01_termination_statement : Prop :=
  forall OG extras uranges pp cfg w, cfg_ok cfg -> grammar_ok OG extras uranges pp ->
  forall m e a emit p sg s,
    in_fragment OG extras uranges pp e = true -> rok OG (K OG) e = true -> lits_valid e ->
    rep w a emit p sg s ->
    (exists s', exec cfg (vm_env OG uranges) m (vm_expr OG uranges e) s = ROk s' \/
                exec cfg (vm_env OG uranges) m (vm_expr OG uranges e) s = RErr s') ->
    eval (embed_g OG) extras (uprop uranges) w m a emit (embed e) p sg <> SFuel.

Theorem C01_termination : C01_termination_statement.
Proof. exact vm_terminates_spec_explicit. Qed.

Definition C01_forward_statement : Prop :=
  forall OG extras uranges pp cfg w, cfg_ok cfg -> grammar_okb OG extras uranges pp = true -> valid_utf8 w ->
  forall r detail n, ident_ok OG uranges pp r = true ->
    match spec_parse (embed_g OG) extras (uprop uranges) w n r with
    | SMatch _ _ f =>
        exists m, (exists q, vm_parse OG uranges cfg w m r detail = OPairs q /\ forest q = f) \/
                  (pp = true /\ vm_parse OG uranges cfg w m r detail = OPanic)
    | SFail =>
        exists m, (exists ps ns ap, vm_parse OG uranges cfg w m r detail = OParsingError ps ns ap) \/
                  (pp = true /\ vm_parse OG uranges cfg w m r detail = OPanic)
    | SFuel => True
    end.

Theorem C01_forward : C01_forward_statement.
Proof.
  intros OG extras uranges pp cfg w Hc Hg Hw. apply parse_refines_spec; auto. now apply grammar_okb_sound.
Qed.

Definition C01_sound_statement : Prop :=
  forall OG extras uranges pp cfg w, cfg_ok cfg -> grammar_okb OG extras uranges pp = true -> valid_utf8 w ->
  forall r detail m, ident_ok OG uranges pp r = true ->
    (forall q, vm_parse OG uranges cfg w m r detail = OPairs q ->
       exists n p sg, spec_parse (embed_g OG) extras (uprop uranges) w n r = SMatch p sg (forest q)) /\
    (forall ps ns ap, vm_parse OG uranges cfg w m r detail = OParsingError ps ns ap ->
       exists n, spec_parse (embed_g OG) extras (uprop uranges) w n r = SFail).

Theorem C01_sound : C01_sound_statement.
Proof.
  intros OG extras uranges pp cfg w Hc Hg Hw r detail m Hr.
  pose proof (parse_sound OG extras uranges pp cfg w Hc (grammar_okb_sound _ _ _ _ Hg) Hw r detail m Hr) as H.
  split; [intros q Hq|intros ps ns ap Hq]; rewrite Hq in H; [destruct H as (p & sg & H)|]; eauto.
Qed.

Definition C01_partial_statement : Prop :=
  forall OG extras uranges cfg w r detail,
    cfg_ok cfg -> valid_utf8 w -> grammar_okb OG extras uranges false = true ->
    ident_ok OG uranges false r = true ->
    (forall f, (exists m q, vm_parse OG uranges cfg w m r detail = OPairs q /\ forest q = f) <->
               (exists n p sg, spec_parse (embed_g OG) extras (uprop uranges) w n r = SMatch p sg f)) /\
    ((exists m ps ns ap, vm_parse OG uranges cfg w m r detail = OParsingError ps ns ap) <->
     (exists n, spec_parse (embed_g OG) extras (uprop uranges) w n r = SFail)).

Theorem C01_partial : C01_partial_statement.
Proof.
  intros OG extras uranges cfg w r detail Hc Hw Hg Hr. pose proof (grammar_okb_sound _ _ _ _ Hg) as HG. split.
  - intros f. now apply (parse_iff_spec_total OG extras uranges false cfg w Hc HG Hw r detail f).
  - now apply (parse_fail_iff_spec_total OG extras uranges false cfg w Hc HG Hw r detail).
Qed.

Section FromParts.
Variable valid known : grammar -> Prop.
Variable optimize : grammar -> option ogrammar.
Variable extras : bool.
Variable uranges : name -> option (list (N * N)).
Variable cfg : config.
Hypothesis cfg_good : cfg_ok cfg.
(* C05 *)
Hypothesis optimize_total : forall G, valid G -> ~ known G -> exists OG, optimize G = Some OG.
Hypothesis optimizer_preserves : forall G OG, valid G -> ~ known G -> optimize G = Some OG ->
  forall w r res, res <> SFuel ->
    ((exists n, spec_parse (embed_g OG) extras (uprop uranges) w n r = res) <->
     (exists n, spec_parse G extras (uprop uranges) w n r = res)).
Hypothesis optimize_names : forall G OG, valid G -> ~ known G -> optimize G = Some OG ->
  forall r, has_rule G r = true -> ident_ok OG uranges false r = true.
(* the remaining fragment restrictions *)
Hypothesis optimized_in_fragment : forall G OG, valid G -> ~ known G -> optimize G = Some OG ->
  grammar_okb OG extras uranges false = true.

Theorem C01_from_parts : C01_statement valid known optimize extras uranges cfg.
Proof.
  intros G Hv Hk. destruct (optimize_total G Hv Hk) as [OG Ho]. exists OG. split; [exact Ho|].
  intros r w f Hw Hr.
  rewrite (proj1 (C01_partial OG extras uranges cfg w r false cfg_good Hw (optimized_in_fragment G OG Hv Hk Ho)
                    (optimize_names G OG Hv Hk Ho r Hr)) f).
  split.
  - intros (n & p & sg & Hn).
    destruct (proj1 (optimizer_preserves G OG Hv Hk Ho w r (SMatch p sg f) ltac:(discriminate)) (ex_intro _ n Hn)) as [n' Hn'].
    eauto.
  - intros (n & p & sg & Hn).
    destruct (proj2 (optimizer_preserves G OG Hv Hk Ho w r (SMatch p sg f) ltac:(discriminate)) (ex_intro _ n Hn)) as [n' Hn'].
    eauto.
Qed.
End FromParts.

(* WHITESPACE = _{ " " }         ident = @{ ASCII_ALPHA ~ ASCII_ALPHANUMERIC* }     num = ${ ASCII_DIGIT ~ ASCII_DIGIT* }
   call = { ident ~ "(" ~ ")" }   atom = _{ call | ident | num | "(" ~ expr ~ ")" }  (call fails after `ident`: backtracks)
   expr = !{ atom ~ (("+" | "-") ~ atom)* }      item = { &atom ~ !"x" ~ expr }
   list = { SOI ~ item ~ ("," ~ item)* ~ EOI }                                                                    *)
Definition ri (s : string) : oexpr := OIdent (nm s).
Definition tx (s : string) : oexpr := OStr (nm s).
Definition ex_rules : ogrammar := [
  {| oname := nm "WHITESPACE"; oty := RSilent; oexpr_of := tx " " |};
  {| oname := nm "ident"; oty := RAtomic; oexpr_of := OSeq (ri "ASCII_ALPHA") (ORep (ri "ASCII_ALPHANUMERIC")) |};
  {| oname := nm "num"; oty := RCompound; oexpr_of := OSeq (ri "ASCII_DIGIT") (ORep (ri "ASCII_DIGIT")) |};
  {| oname := nm "call"; oty := RNormal; oexpr_of := OSeq (ri "ident") (OSeq (tx "(") (tx ")")) |};
  {| oname := nm "atom"; oty := RSilent;
     oexpr_of := OChoice (ri "call") (OChoice (ri "ident") (OChoice (ri "num") (OSeq (tx "(") (OSeq (ri "expr") (tx ")"))))) |};
  {| oname := nm "expr"; oty := RNonAtomic; oexpr_of := OSeq (ri "atom") (ORep (OSeq (OChoice (tx "+") (tx "-")) (ri "atom"))) |};
  {| oname := nm "item"; oty := RNormal; oexpr_of := OSeq (OPosPred (ri "atom")) (OSeq (ONegPred (tx "x")) (ri "expr")) |};
  {| oname := nm "list"; oty := RNormal;
     oexpr_of := OSeq (ri "SOI") (OSeq (ri "item") (OSeq (ORep (OSeq (tx ",") (ri "item"))) (ri "EOI"))) |} ].
Definition no_unicode : name -> option (list (N * N)) := fun _ => None.
Definition ex_cfg : config := {| memchr := true; fixed3 := true; fixedlim := true |}.

Example ex_rules_ok : grammar_okb ex_rules false no_unicode false = true.
Proof. vm_compute. reflexivity. Qed.

(* the VM and the Spec on "ab() + 12, c-(d)": the same non-trivial forest (nested rules of four modifiers, a choice
   that backtracks out of `call`, repetitions, both predicates, implicit whitespace) *)
Example ex_parse_agrees :
  match spec_parse (embed_g ex_rules) false (uprop no_unicode) (nm "ab() + 12, c-(d)") 40 (nm "list"),
        vm_parse ex_rules no_unicode ex_cfg (nm "ab() + 12, c-(d)") 200 (nm "list") false with
  | SMatch p _ f, OPairs q => p = 16 /\ forest q = f /\
      f = [Node 7 None 0 16                                                   (* list *)
            [Node 6 None 0 9                                                  (* item *)
               [Node 5 None 0 9                                               (* expr *)
                  [Node 3 None 0 4 [Node 1 None 0 2 []];                      (* call(ident) *)
                   Node 2 None 7 9 []]];                                      (* num *)
             Node 6 None 11 16
               [Node 5 None 11 16
                  [Node 1 None 11 12 [];
                   Node 5 None 14 15 [Node 1 None 14 15 []]]];
             Node 8 None 16 16 []]]                                           (* EOI *)
  | _, _ => False
  end.
Proof. vm_compute. repeat split; reflexivity. Qed.

Example ex_parse_rejects :
  match spec_parse (embed_g ex_rules) false (uprop no_unicode) (nm "ab() + , c") 40 (nm "list"),
        vm_parse ex_rules no_unicode ex_cfg (nm "ab() + , c") 200 (nm "list") false with
  | SFail, OParsingError _ _ _ => True
  | _, _ => False
  end.
Proof. vm_compute. exact I. Qed.

Example ex_theorem_instance f :
  (exists m q, vm_parse ex_rules no_unicode ex_cfg (nm "ab() + 12, c-(d)") m (nm "list") false = OPairs q /\ forest q = f) <->
  (exists n p sg, spec_parse (embed_g ex_rules) false (uprop no_unicode) (nm "ab() + 12, c-(d)") n (nm "list") = SMatch p sg f).
Proof.
  apply C01_partial.
  - intros _. reflexivity.
  - apply utf8b_sound. vm_compute. reflexivity.
  - exact ex_rules_ok.
  - vm_compute. reflexivity.
Qed.

(* the stack, tags and RepOnce (grammar-extras): heredoc = { PUSH(ASCII_ALPHA+) ~ "<" ~ #b = inner ~ ">" ~ POP }
   inner = ${ (!(">" ~ PEEK) ~ ANY)* }   - with pp = true (PEEK / POP present) *)
Definition ex_stack : ogrammar := [
  {| oname := nm "inner"; oty := RCompound;
     oexpr_of := ORep (OSeq (ONegPred (OSeq (tx ">") (ri "PEEK"))) (ri "ANY")) |};
  {| oname := nm "heredoc"; oty := RNormal;
     oexpr_of := OSeq (OPush (ORepOnce (ri "ASCII_ALPHA")))
                  (OSeq (tx "<") (OSeq (ONodeTag (ri "inner") (nm "b")) (OSeq (tx ">") (ri "POP")))) |} ].

Example ex_stack_ok : grammar_okb ex_stack true no_unicode true = true.
Proof. vm_compute. reflexivity. Qed.

Example ex_stack_agrees :
  match spec_parse (embed_g ex_stack) true (uprop no_unicode) (nm "ab<x>y>ab") 40 (nm "heredoc"),
        vm_parse ex_stack no_unicode ex_cfg (nm "ab<x>y>ab") 200 (nm "heredoc") false with
  | SMatch p sg f, OPairs q => p = 9 /\ sg = [] /\ forest q = f /\
      f = [Node 1 None 0 9 [Node 0 (Some 98) 3 6 []]]
  | _, _ => False
  end.
Proof. vm_compute. repeat split; reflexivity. Qed.

(* the side condition `go_names` (no rule named like a hard-coded name) is necessary: pest_vm lets a rule of the grammar
   shadow a built-in (fix 76a77f3), the Spec resolves the built-ins first.   ASCII_DIGIT = { "z" }   r = { ASCII_DIGIT } *)
Definition ex_shadow : ogrammar := [
  {| oname := nm "ASCII_DIGIT"; oty := RNormal; oexpr_of := tx "z" |};
  {| oname := nm "r"; oty := RNormal; oexpr_of := ri "ASCII_DIGIT" |} ].
Example ex_shadow_differs :
  grammar_okb ex_shadow false no_unicode false = false /\
  match vm_parse ex_shadow no_unicode ex_cfg (nm "z") 50 (nm "r") false,
        spec_parse (embed_g ex_shadow) false (uprop no_unicode) (nm "z") 20 (nm "r") with
  | OPairs q, SFail => forest q = [Node 1 None 0 1 [Node 0 None 0 1 []]]      (* the VM matches "z", the Spec does not *)
  | _, _ => False
  end /\
  match vm_parse ex_shadow no_unicode ex_cfg (nm "5") 50 (nm "r") false,
        spec_parse (embed_g ex_shadow) false (uprop no_unicode) (nm "5") 20 (nm "r") with
  | OParsingError _ _ _, SMatch 1 [] [Node 1 None 0 1 []] => True                (* the Spec matches "5", the VM does not *)
  | _, _ => False
  end.
Proof. vm_compute. repeat split; reflexivity. Qed.

Require Import PV.Valid.Validator PV.Opt.List PV.Opt.Pipeline PV.Peg.Close2.

(* For every grammar G the validator accepts (`validate kw builtin vcfg G = []`, any keyword / built-in tables, any
   validator configuration; only the uniqueness of rule names is used: termination is not needed) and that lies in the
   decidable class `in_class` (PV.Peg.Close2; every conjunct is explained there: the lister class and the PEEK / POP and
   tag restrictions are KNOWN FINDINGS, names_okb and literals_validb are hypotheses of C05 / facts about Rust Strings,
   `optimize G <> None`, defined identifiers and RepOnce-needs-extras are derivable but NOT YET PROVED through the passes,
   WHITESPACE / COMMENT failing with an unmodified stack is not established by restore_on_err):
   the real pipeline `optimize` (six AST passes, to_optimized, restore_on_err; restorer flags of the repaired code,
   fixes/C05-1 and C05-2; either unroller arithmetic `ovf`) returns, and the VM on its output parses rule r of input w
   with forest f  iff  the Spec on the ORIGINAL grammar G matches with forest f.
   Used: C05 `pipeline_preserves_outside_class` (same_meaning G (passes G)) and `restorer_fixed` (no alternative of
   restore_on_err's output fails with a modified stack: the semantic reading of `rok`), `embed (to_optimized e) = e`
   and `embed` erasing RestoreOnErr (Close1), C01_partial.  No hypothesis is left besides `cfg_ok cfg` (the memchr
   arm of skip_until repaired or the feature off) and valid UTF-8 input.                                              *)
Definition C01_conformance_statement : Prop :=
  forall (kw builtin : name -> bool) (vcfg : Validator.vcfg) (ovf extras : bool) uranges cfg (G : grammar),
    cfg_ok cfg -> validate kw builtin vcfg G = [] -> in_class ovf extras uranges G = true ->
    exists OG, optimize ovf extras true true G = Some OG /\
    forall r w f, valid_utf8 w -> has_rule G r = true ->
      ((exists m q, vm_parse OG uranges cfg w m r false = OPairs q /\ forest q = f) <->
       (exists n p sg, spec_parse G extras (uprop uranges) w n r = SMatch p sg f)).

Theorem C01_conformance : C01_conformance_statement.
Proof. intros kw builtin vcfg ovf extras uranges cfg G Hc Hv Hk. exact (conformance kw builtin vcfg ovf extras uranges cfg Hc G Hv Hk). Qed.

(* the same as an instance of the full statement: valid = accepted by the validator, known = outside `in_class` *)
Theorem C01_statement_closed : forall kw builtin vcfg ovf extras uranges cfg, cfg_ok cfg ->
  C01_statement (fun G => validate kw builtin vcfg G = []) (fun G => in_class ovf extras uranges G = false)
                (optimize ovf extras true true) extras uranges cfg.
Proof.
  intros kw builtin vcfg ovf extras uranges cfg Hc G Hv Hk.
  apply (C01_conformance kw builtin vcfg ovf extras uranges cfg G Hc Hv). destruct (in_class ovf extras uranges G); [reflexivity|now elim Hk].
Qed.

(* non-vacuity: WHITESPACE, five modifiers, a repetition, choices; rotate, concatenate and factor all fire
   WHITESPACE = _{ " " }   word = @{ ASCII_ALPHA ~ ASCII_ALPHA* }   hello = @{ ^"he" ~ ^"llo" }
   kv = ${ word ~ "=" ~ word | word ~ ":" ~ word }   item = !{ hello | kv | word }
   list = { SOI ~ item ~ ("," ~ item)* ~ EOI }  (entered left-nested, so that rotate fires)            *)
Definition ei (s : string) : expr := EIdent (nm s).
Definition es (s : string) : expr := EStr (nm s).
Definition ex_src : grammar := [
  {| rname := nm "WHITESPACE"; rty := RSilent; rexpr := es " " |};
  {| rname := nm "word"; rty := RAtomic; rexpr := ESeq (ei "ASCII_ALPHA") (ERep (ei "ASCII_ALPHA")) |};
  {| rname := nm "hello"; rty := RAtomic; rexpr := ESeq (EInsens (nm "he")) (EInsens (nm "llo")) |};
  {| rname := nm "kv"; rty := RCompound;
     rexpr := EChoice (ESeq (ei "word") (ESeq (es "=") (ei "word"))) (ESeq (ei "word") (ESeq (es ":") (ei "word"))) |};
  {| rname := nm "item"; rty := RNonAtomic; rexpr := EChoice (ei "hello") (EChoice (ei "kv") (ei "word")) |};
  {| rname := nm "list"; rty := RNormal;
     rexpr := ESeq (ESeq (ESeq (ei "SOI") (ei "item")) (ERep (ESeq (es ",") (ei "item")))) (ei "EOI") |} ].

Example ex_src_accepted : validate (fun _ => false) is_builtin cfg_fixed ex_src = [].
Proof. vm_compute. reflexivity. Qed.
Example ex_src_in_class : in_class false false no_unicode ex_src = true.
Proof. vm_compute. reflexivity. Qed.
(* the optimizer really rewrote it: kv factored, hello concatenated, list rotated *)
Example ex_src_rewritten :
  match optimize false false true true ex_src with
  | Some OG =>
      option_map oexpr_of (find_orule OG (nm "kv")) =
        Some (OSeq (ri "word") (OChoice (OSeq (tx "=") (ri "word")) (OSeq (tx ":") (ri "word")))) /\
      option_map oexpr_of (find_orule OG (nm "hello")) = Some (OInsens (nm "hello")) /\
      option_map oexpr_of (find_orule OG (nm "list")) =
        Some (OSeq (ri "SOI") (OSeq (ri "item") (OSeq (ORep (OSeq (tx ",") (ri "item"))) (ri "EOI"))))
  | None => False
  end.
Proof. vm_compute. repeat split; reflexivity. Qed.
(* both sides computed on "Hello, ab=cd , x:y,zz": the VM on the optimized rules and the Spec on the source rules *)
Example ex_src_agrees :
  match optimize false false true true ex_src with
  | Some OG =>
      match spec_parse ex_src false (uprop no_unicode) (nm "Hello, ab=cd , x:y,zz") 40 (nm "list"),
            vm_parse OG no_unicode ex_cfg (nm "Hello, ab=cd , x:y,zz") 200 (nm "list") false with
      | SMatch p _ f, OPairs q => p = 21 /\ forest q = f /\ fsize f = 14
      | _, _ => False
      end
  | None => False
  end.
Proof. vm_compute. repeat split; reflexivity. Qed.
Example ex_src_conforms :
  exists OG, optimize false false true true ex_src = Some OG /\
  forall r w f, valid_utf8 w -> has_rule ex_src r = true ->
    ((exists m q, vm_parse OG no_unicode ex_cfg w m r false = OPairs q /\ forest q = f) <->
     (exists n p sg, spec_parse ex_src false (uprop no_unicode) w n r = SMatch p sg f)).
Proof.
  apply (C01_conformance (fun _ => false) is_builtin cfg_fixed false false no_unicode ex_cfg ex_src).
  - intros _. reflexivity.
  - exact ex_src_accepted.
  - exact ex_src_in_class.
Qed.

Print Assumptions C01_simulation.
Print Assumptions C01_termination.
Print Assumptions C01_sound.
Print Assumptions C01_forward.
Print Assumptions C01_partial.
Print Assumptions C01_from_parts.
Print Assumptions C01_conformance.
Print Assumptions C01_statement_closed.
