(* C15 - detailed error tracking is observationally transparent.
   This file holds ONLY the statements of the property, their closing theorems, non-vacuity examples and
   Print Assumptions.  Models: PV.Comb.{PState,Bytes,Prog,Exec} (parser_state.rs, position.rs), PV.Comb.Help
   (error.rs: ParseAttempts -> help message), PV.Pos.ErrorFmt (Error::new_from_pos, Display).
   Proofs: PV.Comb.DetailProofs (exec_erase), PV.Comb.MaxPos / MaxPosUtf8, PV.Comb.HelpProofs.
   `exec cfg E fuel p s` runs the closure tree p (what a generated parser / the VM builds from a grammar) on the
   state s; `run_state .. w lim detail` is a whole parse of the input bytes w from ParserState::new with
   set_error_detail(detail) and call limit lim; `parse_with` is what pest::state() returns.              *)
From Coq Require Import String Ascii.
From Coq Require Import List Arith NArith ZArith Bool.
Import ListNotations.
Require Import PV.Stack.Model PV.Stack.Proofs PV.Comb.PState PV.Comb.Bytes PV.Comb.Prog PV.Comb.Exec PV.Comb.Frame.
Require Import PV.Comb.Utf8 PV.Comb.Utf8c PV.Comb.Detail PV.Comb.DetailProofs PV.Comb.MaxPos PV.Comb.MaxPosUtf8
               PV.Comb.Help PV.Comb.HelpProofs.
Require PV.Pos.Model PV.Pos.ErrorFmt.
Open Scope list_scope.

(* The full statement: for EVERY configuration, closure environment, program and fuel
   1a  from every state, the run with the switch on and the run with the switch off end in the same kind of
       result (Ok / Err / the same panic / out of fuel) and in states that agree on everything except the five
       ParseAttempts fields (erase_detail);
   1b  pest::state() returns the same thing: same tokens, or same error position, positives and negatives, or
       the same call-limit error;
   1c  a panic in detail mode is never one of the attempt bookkeeping (Vec::splice / index / subtraction:
       PkInternal) and is exactly the panic the run without detail has (empty-stack POP/PEEK, which is documented);
   2a  max_position never exceeds the input length;
   2b  for input that is valid UTF-8 (cs = its chars) and programs whose string constants are valid UTF-8 - both are
       `&str` in Rust - max_position is a char boundary of the input  (cfg_ok: the memchr feature with the repaired
       three-needle arm, or no memchr);
   3   and then Error::parse_attempts_error(input, rule_to_message, is_whitespace) builds its error and the error
       renders (Display), for every pair of callbacks and whatever error `self` it is called on.              *)
Definition C15_statement : Prop :=
  forall (cfg : config) (E : env) (p : prog) (fuel : nat),
    (forall s, map_res erase_detail (exec cfg E fuel p s) = map_res erase_detail (exec cfg E fuel p (set_pa_enabled s false))) /\
    (forall w lim, parse_with cfg E fuel p w lim true = parse_with cfg E fuel p w lim false) /\
    (forall w lim k, run_state cfg E fuel p w lim true = RPanic k ->
                     k <> PkInternal /\ run_state cfg E fuel p w lim false = RPanic k) /\
    (forall w lim, res_all (fun s' => max_position s' <= length w) (run_state cfg E fuel p w lim true)) /\
    (cfg_ok cfg -> env_valid E -> prog_valid p -> forall cs lim, Forall scalar cs ->
       res_all (fun s' =>
           boundaryb (flat_map encode cs) (max_position s') = true /\
           forall rule_to_message is_whitespace to_uppercase self, exists e out,
             parse_attempts_error rule_to_message is_whitespace to_uppercase self cs s' = Some (PV.Pos.Model.Ok e) /\
             help_render rule_to_message is_whitespace to_uppercase self cs s' = Some (PV.Pos.Model.Ok out))
         (run_state cfg E fuel p (flat_map encode cs) lim true)).

Theorem C15_detail_transparent : C15_statement.
Proof.
  intros cfg E p fuel.
  split; [intros s; apply detail_transparent|].
  split; [intros w lim; apply parse_with_detail_irrelevant|].
  split.
  { intros w lim k H. unfold run_state in *. split.
    - intros ->. destruct (init_wf_inv w lim true) as [W I]. exact (detail_no_internal_panic cfg E fuel p _ _ W I H).
    - pose proof (detail_same_result_kind cfg E fuel p (init w lim true)) as K. rewrite H in K.
      change (set_pa_enabled (init w lim true) false) with (init w lim false) in K.
      destruct (exec cfg E fuel p (init w lim false)); try contradiction. congruence. }
  split.
  { intros w lim. pose proof (run_state_max_position_le cfg E fuel p w lim true) as H.
    destruct (run_state cfg E fuel p w lim true); cbn in *; tauto. }
  intros Hc HE Vp cs lim F.
  assert (V : valid_utf8 (flat_map encode cs)) by (exists cs; auto).
  pose proof (run_state_max_position_boundary cfg E fuel p _ lim true Hc HE Vp V) as B.
  pose proof (fun r w u => run_help_renders r w u cfg E fuel p cs lim Hc HE Vp F) as R.
  destruct (run_state cfg E fuel p (flat_map encode cs) lim true); cbn in *; auto; (split; [tauto|]);
    intros r w u self; exact (R r w u self).
Qed.

(* The reduction asked for separately: if exec keeps the position on a char boundary, max_position is one.
   (C15_detail_transparent uses its general form max_position_boundary_from_invariant with the UTF-8 invariant.) *)
Definition C15_max_position_reduction_statement : Prop :=
  forall cfg E,
    (forall fuel p s, pos_boundary_inv s -> res_all pos_boundary_inv (exec cfg E fuel p s)) ->
    forall fuel p s, pos_boundary_inv s -> max_boundary_inv s -> res_all max_boundary_inv (exec cfg E fuel p s).
Theorem C15_max_position_reduction : C15_max_position_reduction_statement.
Proof. exact max_position_boundary_from_pos_boundary. Qed.

(* ---- non-vacuity: concrete evaluations of the model ---- *)
Definition cfg0 : config := {| memchr := true; fixed3 := true; fixedlim := false |}.
Definition E0 : env := fun _ => None.
Definition str_ (s : list byte) := PPrim (MMatchString s).
(* rule 0 { rule 1 { sequence("a" "b") } | rule 3 { "a" ^"é" } }   on the input "ac" *)
Definition p0 : prog :=
  PRule 0 (POrElse (PRule 1 (PSequence (PAndThen (str_ [97%N]) (str_ [98%N]))))
                   (PRule 3 (PAndThen (str_ [97%N]) (PPrim (MMatchInsens [195%N; 169%N]))))).
Definition in0 : list byte := [97%N; 99%N].

(* with detail: two call stacks, two expected tokens, max_position 1; the error itself is `expected rule 0 at 0` *)
Example C15_ex_detail_records :
  match run_state cfg0 E0 20 p0 in0 None true with
  | RErr s => max_position s = 1 /\
              rev (call_stacks s) = [ {| deepest := Some 1; parent := Some 0 |}; {| deepest := Some 3; parent := Some 0 |} ] /\
              rev (expected s) = [TSens [98%N]; TInsens [195%N; 169%N]] /\ unexpected s = []
  | _ => False
  end /\
  parse_with cfg0 E0 20 p0 in0 None true = OParsingError [0] [] 0.
Proof. vm_compute. repeat split; reflexivity. Qed.

(* without detail nothing is recorded, the two final states differ, and they agree after erasure *)
Example C15_ex_states_differ_only_in_detail :
  run_state cfg0 E0 20 p0 in0 None true <> run_state cfg0 E0 20 p0 in0 None false /\
  map_res erase_detail (run_state cfg0 E0 20 p0 in0 None true) = run_state cfg0 E0 20 p0 in0 None false /\
  parse_with cfg0 E0 20 p0 in0 None false = OParsingError [0] [] 0.
Proof. vm_compute. repeat split; try reflexivity. discriminate. Qed.

(* the help message of that state, with the callbacks of the correspondence harness
   (rule 1 -> "m1 é", rule 2 -> no message, rule n -> "m<n>"; "b" and " " are whitespace) *)
Definition rtm0 (r : nat) : option PV.Pos.Model.str :=
  match r with 2 => None | 1 => Some (PV.Pos.ErrorFmt.lit "m1 " ++ [233%N]) | 0 => Some (PV.Pos.ErrorFmt.lit "m0") | _ => Some (PV.Pos.ErrorFmt.lit "m3") end.
Definition isws0 (b : list byte) : bool :=
  match b with [x] => N.eqb x 98 || N.eqb x 32 | _ => false end.
Definition upper0 (s : PV.Pos.Model.str) : PV.Pos.Model.str :=
  map (fun c => if (97 <=? c)%N && (c <=? 122)%N then (c - 32)%N else if N.eqb c 233 then 201%N else c) s.

Example C15_ex_help_message :
  match run_state cfg0 E0 20 p0 in0 None true with
  | RErr s =>
    help_message rtm0 isws0 upper0 (PV.Pos.ErrorFmt.lit "    ") s =
      PV.Pos.ErrorFmt.lit "error: parsing error occurred." ++ [10%N] ++
      PV.Pos.ErrorFmt.lit "    note: expected one of tokens: WHITESPACE, `" ++ [201%N] ++ PV.Pos.ErrorFmt.lit "`" ++ [10%N] ++
      PV.Pos.ErrorFmt.lit "    help: m0" ++ [10%N] ++
      PV.Pos.ErrorFmt.lit "          - m1 " ++ [233%N] ++ [10%N] ++
      PV.Pos.ErrorFmt.lit "          - m3"
  | _ => False
  end.
Proof. vm_compute. reflexivity. Qed.

(* multi-byte input "éa", program "é" then "b": the token fails at offset 2, a boundary; offset 1 is none *)
Example C15_ex_multibyte :
  match run_state cfg0 E0 20 (PAndThen (str_ [195%N; 169%N]) (str_ [98%N])) [195%N; 169%N; 97%N] None true with
  | RErr s => max_position s = 2 /\ boundaryb (input s) (max_position s) = true /\ boundaryb (input s) 1 = false
  | _ => False
  end.
Proof. vm_compute. repeat split; reflexivity. Qed.

(* more than CALL_STACK_CHILDREN_THRESHOLD failing children are collapsed into the parent *)
Example C15_ex_threshold :
  let alt r := PRule r (str_ [98%N]) in
  match run_state cfg0 E0 20 (PRule 9 (POrElse (alt 1) (POrElse (alt 2) (POrElse (alt 3) (alt 4))))) [97%N] None true with
  | RErr s => call_stacks s = [ {| deepest := Some 9; parent := None |} ]
  | _ => False
  end.
Proof. vm_compute. reflexivity. Qed.

Print Assumptions C15_detail_transparent.
Print Assumptions C15_max_position_reduction.
