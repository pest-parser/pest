(* C10 - line/column arithmetic and error rendering are correct for all text.
   This file holds ONLY the full statements, the closing theorems, non-vacuity examples and
   Print Assumptions.  Models: PV.Pos.Model (position.rs, line_index.rs, span.rs), PV.Pos.ErrorFmt
   (error.rs); `Panic` stands for a Rust panic, `Diverge` for a non-terminating iterator.
   Specification: PV.Pos.Spec (counting LF / chars; lines meeting a span; what a rendering shows).
   Strings are lists of code points, offsets are byte offsets (blen, len_utf8). *)
From Coq Require Import String.
From Coq Require Import List Arith NArith Bool.
Import ListNotations.
Require Import PV.Pos.Model PV.Pos.ErrorFmt PV.Pos.Spec PV.Pos.BasicProofs PV.Pos.LineColProofs
               PV.Pos.LinesProofs PV.Pos.ErrorProofs PV.Pos.SpanProofs PV.Pos.SpanLayoutProofs PV.Pos.Top.
Open Scope list_scope.

(* The full statement.  For EVERY string s and EVERY UTF-8 boundary offset off of it
   (before/after = the text before/after the offset):
   1 Position::line_col = (1 + number of LF before, 1 + number of chars since the last LF);
   2 Pair::line_col (LineIndex) agrees, with the index over the whole input ...
   3 ... and with the index truncated at any later boundary (pairs produced by a parse);
   4 line_of = the maximal LF-delimited segment containing the offset (and find_line_start/end its bounds);
   5 Span::new succeeds exactly on ordered boundary offsets;
   6 lines_span()/lines() = the consecutive lines meeting [off, b], for every boundary b >= off;
   7 rendering an error built from the position: no panic, and exactly the expected layout - line
     number, that line's text, marker under the column;
   8 rendering an error built from the span (off, b): no panic, and it shows them (Spec.span_shows).
   fx selects the model of Error::new_from_span (ErrorFmt.fixes): fix_continued = with
   fixes/C10-1-continued-line-visualize.patch, fix_eoi_line = with fixes/C10-2-empty-span-at-end-line.patch;
   fixes_none = the code as first shipped (the driver probes which of the four states the tree is in). *)
Definition C10_statement (fx : fixes) : Prop :=
  forall (s : str) (off : nat), boundary s off ->
    let p := before s off in
    let q := after s off in
    line_col s off = Ok (1 + count_nl p, 1 + length (after_last_nl p)) /\
    pair_line_col s off = line_col s off /\
    line_of s off = Ok (the_line p q) /\
    (find_line_start s off = line_start p /\ find_line_end s off = Ok (line_end p q)) /\
    (forall a b, span_new s a b <> None <-> a <= b /\ boundary s a /\ boundary s b) /\
    error_render_ok p q /\
    (forall b, boundary s b -> off <= b ->
       pair_line_col_upto s b off = line_col s off /\
       lines_span s (off, b) = Ok (lines_meeting s off b) /\
       lines s (off, b) = Ok (map (text_of s) (lines_meeting s off b)) /\
       span_render_ok fx p (mid s off b) (after s b)).

(* The full statement is FALSE of the code (four classes of renderings as shipped; K2 is removed by
   the first patch, K4 by the second; K1 and K3 remain; see Spec.KnownClass_pos / KnownClass_span and
   the witnesses below).  What is proved is the same statement with clauses 7
   and 8 restricted to the complement of the decidable known classes - and, for ALL inputs (known
   classes included), that rendering never panics. *)
Definition C10_statement_outside_known_classes (fx : fixes) : Prop :=
  forall (s : str) (off : nat), boundary s off ->
    let p := before s off in
    let q := after s off in
    line_col s off = Ok (1 + count_nl p, 1 + length (after_last_nl p)) /\
    pair_line_col s off = line_col s off /\
    line_of s off = Ok (the_line p q) /\
    (find_line_start s off = line_start p /\ find_line_end s off = Ok (line_end p q)) /\
    (forall a b, span_new s a b <> None <-> a <= b /\ boundary s a /\ boundary s b) /\
    (KnownClass_pos p q = false -> error_render_ok p q) /\
    (forall msg, exists out, render_pos s off msg = Ok out) /\
    (forall b, boundary s b -> off <= b ->
       pair_line_col_upto s b off = line_col s off /\
       lines_span s (off, b) = Ok (lines_meeting s off b) /\
       lines s (off, b) = Ok (map (text_of s) (lines_meeting s off b)) /\
       (KnownClass_span fx p (mid s off b) (after s b) = false -> span_render_ok fx p (mid s off b) (after s b)) /\
       (forall msg, exists out, render_span fx s (off, b) msg = Ok out)).

(* for all four states of the tree; a repaired class is empty (C10_K2_empty_when_patched, C10_K4_empty_when_patched) *)
Theorem C10_outside_known_classes : forall fx, C10_statement_outside_known_classes fx.
Proof.
  intros fx s off Hb p q. subst p q.
  split; [exact (top_line_col s off Hb)|].
  split; [exact (top_pair_line_col s off Hb)|].
  split; [exact (top_line_of s off Hb)|].
  split; [exact (top_line_of_range s off Hb)|].
  split; [exact (span_new_iff s)|].
  split; [exact (top_render_pos s off Hb)|].
  split; [exact (top_render_pos_no_panic s off Hb)|].
  intros b Hb2 Hle.
  split; [exact (top_pair_line_col_upto s off Hb b Hb2 Hle)|].
  split; [exact (top_lines_span s off Hb b Hb2 Hle)|].
  split; [exact (top_lines s off Hb b Hb2 Hle)|].
  split; [exact (top_render_span fx s off Hb b Hb2 Hle)|].
  exact (top_render_span_no_panic fx s off Hb b Hb2 Hle).
Qed.

(* LineIndex::line_col uses slice::partition_point inside its specification: the offsets are sorted *)
Definition C10_partition_point_precondition_statement : Prop :=
  forall (s : str) (pos : nat), partitioned (fun it => Nat.leb it pos) (line_index_new s).
Theorem C10_partition_point_precondition : C10_partition_point_precondition_statement.
Proof. exact line_offsets_partitioned. Qed.

(* Span::get and merge_spans (not named by the property text; proved as by-products) *)
Definition C10_span_get_merge_statement : Prop :=
  (forall p m q x y, span_get (p ++ m ++ q) (blen p, blen p + blen m) x y =
                     Ok (if ordered_boundaries m x y then Some (blen p + x, blen p + y) else None)) /\
  (forall s a b c d, span_new s a b <> None -> span_new s c d <> None ->
      merge_spans s (a, b) (c, d) = if Nat.leb c b && Nat.leb a d then Some (Nat.min a c, Nat.max b d) else None).
Theorem C10_span_get_merge : C10_span_get_merge_statement.
Proof. split; [exact span_get_correct|exact merge_spans_correct]. Qed.

(* ---- the refuted clauses: one witness per known class, evaluated on the model (and replayed on the
   real code by the harness on every run) *)
Definition a_ : char := 97%N.
Definition b_ : char := 98%N.
Definition c_ : char := 99%N.
Definition d_ : char := 100%N.

(* K1  "a\r", offset 2: reported 1:3, text `a`, marker under column 2 *)
Definition C10_K1_refuted_statement : Prop :=
  exists p q, KnownClass_pos p q = true /\ ~ error_render_ok p q.
Theorem C10_K1_refuted : C10_K1_refuted_statement.
Proof.
  exists [a_; CR], []. split; [reflexivity|]. intros H. destruct (H []) as ([|] & H1 & H2); [vm_compute in H1; discriminate|vm_compute in H2; discriminate].
Qed.

(* witnesses: K2 "\nab\ncd" span 0..2 (raw continued line), K3 "ab\ncd" span 0..3 (following line shown,
   labelled 1), K4 "ab" span 2..2 (no text, marker at column 1), and K1 for a span: "a\rb" span 2..3 *)
Definition wK2 : str * str * str := ([], [LF; a_], [b_; LF; c_; d_]).
Definition wK3 : str * str * str := ([], [a_; b_; LF], [c_; d_]).
Definition wK4 : str * str * str := ([a_; b_], [], []).
Definition wK1 : str * str * str := ([a_; CR], [b_], []).
Definition span_refuted_on (fx : fixes) (ws : list (str * str * str)) : Prop :=
  forall w, In w ws -> let '(p, m, q) := w in KnownClass_span fx p m q = true /\ ~ span_render_ok fx p m q.
Lemma span_refute fx p m q :
  (forall out, render_span fx (p ++ m ++ q) (blen p, blen p + blen m) [] = Ok out -> span_shows p m q [] out = false) ->
  ~ span_render_ok fx p m q.
Proof. intros Hf H. destruct (H [] eq_refl) as (out & E & S). rewrite (Hf out E) in S. discriminate. Qed.
Ltac refute_all :=
  intros w Hw; cbn [In] in Hw;
  repeat (destruct Hw as [<-|Hw]; [split; [reflexivity|]; apply span_refute; intros out E;
                                   vm_compute in E; inversion E; subst out; vm_compute; reflexivity|]);
  destruct Hw.

(* the code as first shipped: all four classes *)
Definition C10_span_refuted_statement : Prop := span_refuted_on fixes_none [wK2; wK3; wK4; wK1].
Theorem C10_span_refuted : C10_span_refuted_statement.
Proof. refute_all. Qed.

(* the three patched states: exactly the unrepaired classes remain *)
Definition C10_span_refuted_patched_statement : Prop :=
  span_refuted_on {| fix_continued := true; fix_eoi_line := false |} [wK3; wK4; wK1] /\
  span_refuted_on {| fix_continued := false; fix_eoi_line := true |} [wK2; wK3; wK1] /\
  span_refuted_on fixes_all [wK3; wK1].
Theorem C10_span_refuted_patched : C10_span_refuted_patched_statement.
Proof. split; [|split]; refute_all. Qed.

(* a patch only removes cases from the known classes; and the class it repairs is empty: with the
   patch the rendering of its witness is correct *)
Definition C10_known_classes_shrink_statement : Prop :=
  forall fx p m q, KnownClass_span fx p m q = true -> KnownClass_span fixes_none p m q = true.
Theorem C10_known_classes_shrink : C10_known_classes_shrink_statement.
Proof.
  intros fx p m q. unfold KnownClass_span. cbn [fixes_none fix_continued fix_eoi_line negb andb]. rewrite !orb_true_iff.
  intros [[[H|H]|H]|H]; [tauto| |tauto|].
  - destruct (fix_continued fx); [discriminate|]. cbn [negb andb] in H. tauto.
  - destruct (fix_eoi_line fx); [discriminate|]. cbn [negb andb] in H. tauto.
Qed.
Definition C10_K2_empty_when_patched_statement : Prop :=
  forall fx, fix_continued fx = true ->
    let '(p, m, q) := wK2 in KnownClass_span fx p m q = false /\ span_render_ok fx p m q.
Theorem C10_K2_empty_when_patched : C10_K2_empty_when_patched_statement.
Proof.
  intros [fc fe] H. cbn in H. subst fc. unfold wK2.
  assert (K : KnownClass_span {| fix_continued := true; fix_eoi_line := fe |} [] [LF; a_] [b_; LF; c_; d_] = false) by (destruct fe; reflexivity).
  split; [exact K|apply span_render_correct; exact K].
Qed.
Definition C10_K4_empty_when_patched_statement : Prop :=
  forall fx, fix_eoi_line fx = true ->
    let '(p, m, q) := wK4 in KnownClass_span fx p m q = false /\ span_render_ok fx p m q.
Theorem C10_K4_empty_when_patched : C10_K4_empty_when_patched_statement.
Proof.
  intros [fc fe] H. cbn in H. subst fe. unfold wK4.
  assert (K : KnownClass_span {| fix_continued := fc; fix_eoi_line := true |} [a_; b_] [] [] = false) by (destruct fc; reflexivity).
  split; [exact K|apply span_render_correct; exact K].
Qed.

Definition C10_statement_refuted_statement : Prop := forall fx, ~ C10_statement fx.
Theorem C10_statement_refuted : C10_statement_refuted_statement.
Proof.
  intros fx H. destruct C10_K1_refuted as (p & q & _ & Hn).
  assert (Hb : boundary (p ++ q) (blen p)) by (now exists p, q).
  destruct (H (p ++ q) (blen p) Hb) as (_ & _ & _ & _ & _ & Hr & _).
  rewrite before_app, after_app in Hr. exact (Hn Hr).
Qed.

(* ---- non-vacuity: concrete evaluations of the model on CRLF, multi-byte, tab and multi-line inputs *)
Definition e_acute : char := 233%N.
Definition emoji : char := 128512%N.

(* "é\r\n😀\tb" : offsets 0 2 3 4 8 9 10; offset 9 is line 2, column 3 *)
Example C10_ex_line_col : line_col [e_acute; CR; LF; emoji; TAB; b_] 9 = Ok (2, 3).
Proof. vm_compute. reflexivity. Qed.
Example C10_ex_between_cr_lf : line_col [e_acute; CR; LF; emoji; TAB; b_] 3 = Ok (1, 3).
Proof. vm_compute. reflexivity. Qed.
Example C10_ex_non_boundary : line_col [e_acute; CR; LF; emoji; TAB; b_] 5 = Panic /\ span_new [e_acute; CR; LF; emoji; TAB; b_] 2 5 = None.
Proof. vm_compute. split; reflexivity. Qed.
Example C10_ex_line_of : line_of [a_; LF; b_; c_; LF; d_] 3 = Ok [b_; c_; LF].
Proof. vm_compute. reflexivity. Qed.
(* "ab\ncd\nefgh" span 1..9 (error.rs test display_custom_span_three_lines): three lines meet it *)
Example C10_ex_lines_span :
  lines_span [a_; b_; LF; c_; d_; LF; 101%N; 102%N; 103%N; 104%N] (1, 9) = Ok [(0, 3); (3, 6); (6, 10)].
Proof. vm_compute. reflexivity. Qed.
Example C10_ex_render_span_shows :
  exists out, render_span fixes_none [a_; b_; LF; c_; d_; LF; 101%N; 102%N; 103%N; 104%N] (1, 9) (lit "m") = Ok out /\
              span_shows [a_] [b_; LF; c_; d_; LF; 101%N; 102%N; 103%N] [104%N] (lit "m") out = true /\
              KnownClass_span fixes_none [a_] [b_; LF; c_; d_; LF; 101%N; 102%N; 103%N] [104%N] = false.
Proof. eexists. split; [vm_compute; reflexivity|]. split; vm_compute; reflexivity. Qed.
(* "a\txbc" offset 2 (error.rs test underline_with_tabs): the tab is kept in the marker row *)
Example C10_ex_render_pos :
  render_pos [a_; TAB; 120%N; b_; c_] 2 (lit "m") =
  Ok (lit " --> 1:3" ++ NL ++ lit "  |" ++ NL ++ lit "1 | a" ++ [TAB] ++ lit "xbc" ++ NL ++
      lit "  |  " ++ [TAB] ++ lit "^---" ++ NL ++ lit "  |" ++ NL ++ lit "  = m").
Proof. vm_compute. reflexivity. Qed.

Print Assumptions C10_outside_known_classes.
Print Assumptions C10_partition_point_precondition.
Print Assumptions C10_span_get_merge.
Print Assumptions C10_K1_refuted.
Print Assumptions C10_span_refuted.
Print Assumptions C10_span_refuted_patched.
Print Assumptions C10_known_classes_shrink.
Print Assumptions C10_K2_empty_when_patched.
Print Assumptions C10_K4_empty_when_patched.
Print Assumptions C10_statement_refuted.
