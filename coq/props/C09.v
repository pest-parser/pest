(* C09 - the grammar front-end is total: any text yields rules or located errors.
   This file holds the full statement, what is proved and what is refuted of it, witnesses / non-vacuity examples and
   Print Assumptions.

   Model (coq/Front): parse_and_optimize AFTER the meta-parse = validate_pairs ; consume_rules (consume_rules_with_spans ;
   validate_ast) ; optimize, over the token forest that the meta-parser returned.  The forest is an input; what is assumed
   about it is the SHAPE invariant `shape_ok` of grammar.pest (Front/Shape.v): the children of a node of rule r form a word
   of the regular language of r's expression (decided by a derivative matcher proved equal to the declarative semantics,
   C09_shape_is_regular), the literal first/last characters, nested ordered spans on char boundaries.  It is a consequence of
   C01/C14 for grammar.pest and of C04; the harness evaluates the extracted `shape_ok` on EVERY real parse.
   Flags: `shipped st` = the code without, `repaired st` = with the C09 repairs (fixes/C09-1, -2, -4 and the leading-`|`
   repair fixes/C07-2, flag fix_choice); st : tree_state = feature grammar-extras and whether the tree has the repairs of
   OTHER properties that touch functions modelled here (C06: left_recursion::check_expr, filter_map_top_down into NodeTag;
   C07: ^"..." read from the inner string pair): every theorem holds for every st, the runner follows the tree (probe).
   FPanic = the Rust call panics; FFuel = model artefact.  Rendering is C10's theorem (PV.Pos.Top).           *)
From Coq Require Import List Arith NArith ZArith Bool Lia.
Import ListNotations.
Require Import PV.Pos.Model PV.Pos.ErrorFmt PV.Pos.Spec PV.Pos.Top.
Require Import PV.Front.Shape PV.Front.ShapeFacts PV.Front.Consume PV.Front.Validate PV.Front.Optimize PV.Front.Frontend.
Require Import PV.Front.ConsumeProofs PV.Front.ValidateProofs PV.Front.OptimizeProofs PV.Front.FuelProofs PV.Front.Total
               PV.Front.OptimizeFuel PV.Front.Steps PV.Front.StepsTop PV.Front.Witnesses.
Open Scope list_scope.

(* an error location is a position / an ordered span on char boundaries of the text *)
Definition located (text : str) (l : loc) : Prop :=
  match l with LPos p => boundary text p | LSpan a b => a <= b /\ boundary text a /\ boundary text b end.
(* `format!("{}", Error::new_from_pos / new_from_span (CustomError{message}, ..))` returns (model of error.rs, C10;
   fx = which of the two versions of the continued-line code of new_from_span the tree has: both render) *)
Definition renders (text : str) (l : loc) : Prop :=
  forall fx msg, exists out, match l with LPos p => render_pos text p msg = Ok out | LSpan a b => render_span fx text (a, b) msg = Ok out end.

(* C10's theorems: a located error renders *)
Lemma located_renders text l : located text l -> renders text l.
Proof.
  intros L fx msg. destruct l as [p|a b].
  - apply (top_render_pos_no_panic text p L msg).
  - destruct L as (L1 & L2 & L3). apply (top_render_span_no_panic fx text a L2 b L3 L1 msg).
Qed.

(* The full statement for one configuration of the code.  For every text and every forest of the shape that the
   meta-parser produces for it: reading, validating and optimizing returns rules or errors (never a panic, never out of
   fuel = it terminates), docs::consume does not panic, every error is located in the text and renders;
   and (bounded time) the step count of the validator is bounded by a fixed polynomial in the size of the rules. *)
Definition C09_statement_for (fl : flags) : Prop :=
  (forall builtins text forest, shape_ok text forest = true ->
     let out := frontend fl builtins (default_fuel text forest) text forest in
     out <> FPanic /\ out <> FFuel /\ docs_consume forest = true /\
     forall l, out = FErrors l -> forall e, In e l -> located text (snd e) /\ renders text (snd e))
  /\
  (exists c k, forall rules builtins ex fuel errs s,
     validate_ast rules fuel (fix_lr fl) (fix_tag fl) builtins ex = VOk errs s -> s <= c * (rules_size rules) ^ k).
Definition C09_statement : Prop := forall st, C09_statement_for (shipped st).

(* C09_no_panic + C09_locations + rendering: every clause of the first half except `<> FFuel`, for EVERY fuel
   and without any bound on the repetition counts (the repaired unroller needs none) *)
Definition C09_total_located_statement : Prop :=
  forall st builtins fuel text forest, shape_ok text forest = true ->
    let out := frontend (repaired st) builtins fuel text forest in
    out <> FPanic /\ docs_consume forest = true /\
    forall l, out = FErrors l -> forall e, In e l -> located text (snd e) /\ renders text (snd e).
Theorem C09_total_located : C09_total_located_statement.
Proof.
  intros st builtins fuel text forest SH out. split; [apply frontend_no_panic; exact SH|]. split.
  - apply (docs_consume_ok text). apply shape_ok_forest. exact SH.
  - intros l E e He. pose proof (frontend_located (repaired st) builtins fuel text forest l SH E e He) as L.
    split; [exact L|apply located_renders; exact L].
Qed.
Definition C09_no_panic_statement : Prop :=
  forall st builtins fuel text forest, shape_ok text forest = true -> frontend (repaired st) builtins fuel text forest <> FPanic.
Theorem C09_no_panic : C09_no_panic_statement.
Proof. exact frontend_no_panic. Qed.
(* every error that ANY configuration of the code reports (shipped, repaired, in between) is located and renders *)
Definition C09_locations_statement : Prop :=
  forall fl builtins fuel text forest l, shape_ok text forest = true -> frontend fl builtins fuel text forest = FErrors l ->
  forall e, In e l -> located text (snd e) /\ renders text (snd e).
Theorem C09_locations : C09_locations_statement.
Proof.
  intros fl builtins fuel text forest l SH E e He. pose proof (frontend_located fl builtins fuel text forest l SH E e He) as L.
  split; [exact L|apply located_renders; exact L].
Qed.

(* with the unroller as shipped (only the reader repaired, fixes C09-1..3) the same holds when every repetition count
   of the rules read is at most 2^32 - 3 *)
Definition C09_no_panic_bounded_counts_statement : Prop :=
  forall st builtins fuel text forest, shape_ok text forest = true ->
    (forall rules, consume_rules_with_spans (repaired_reader_only st) text fuel forest = ODone rules ->
                   Forall (fun r => counts_le 4294967293 (pbody r)) rules) ->
    frontend (repaired_reader_only st) builtins fuel text forest <> FPanic.
Theorem C09_no_panic_bounded_counts : C09_no_panic_bounded_counts_statement.
Proof. exact frontend_no_panic_bounded_counts. Qed.

(* termination (`<> FFuel`), PARTIAL: proved for the reader, the validator and the optimizer passes rotate and factor -
   more fuel than the nesting depth of the forest / the number of rules / the size of the rule body always suffices.
   Missing: the skipper (atomic rules only): populate_choices follows rule references with no cycle check of its own, so its
   termination needs the soundness of the left-recursion check (property C06).  So: if the model runs out of fuel, it does so
   in the skipper pass of an atomic rule. *)
Definition C09_terminates_partial_statement : Prop :=
  forall fl builtins fuel text forest,
    (fdepth forest <= fuel -> consume_rules_with_spans fl text fuel forest <> OFuel) /\
    (forall rules, length rules < fuel -> validate_ast rules fuel (fix_lr fl) (fix_tag fl) builtins (extras fl) <> VFuel) /\
    (forall map r, asize (abody r) <= fuel -> optimize_rule (extras fl) (fix_unroll fl) fuel map r = OptFuel ->
       aty r = TAtomic /\ exists e1, map_td fuel (rotate_internal fuel) (abody r) = Some e1 /\ map_td fuel (skip_fn fuel map) e1 = None).
Theorem C09_terminates_partial : C09_terminates_partial_statement.
Proof.
  intros fl builtins fuel text forest. split; [|split].
  - intros D E. pose proof (consume_rules_nofuel fl text fuel forest D) as N. rewrite E in N. exact N.
  - intros rules L E. pose proof (validate_ast_nf rules fuel (fix_lr fl) (fix_tag fl) ltac:(rewrite map_length; exact L) builtins (extras fl)) as N. rewrite E in N. exact N.
  - intros map r L E. eapply optimize_rule_fuel; eauto.
Qed.

(* the shape invariant IS the regular-language statement: the matcher used by shape_ok decides `matches` *)
Definition C09_shape_is_regular_statement : Prop := forall a w, re_matchb a w = true <-> matches a w.
Theorem C09_shape_is_regular : C09_shape_is_regular_statement.
Proof. exact re_matchb_iff. Qed.

(* a1 = { a2 ~ a2 }  a2 = { a3 ~ a3 } ... a(n+2) = { "" }: at least 2^n validator steps *)
Definition validator_steps_exponential_statement : Prop :=
  forall n fuel lrf tgf builtins ex errs s, n + 4 <= fuel -> validate_ast (fam n) fuel lrf tgf builtins ex = VOk errs s -> 2 ^ n <= s.
Theorem validator_steps_exponential : validator_steps_exponential_statement.
Proof. exact Steps.validator_steps_exponential. Qed.
(* ... while the family has quadratic size, so no polynomial bounds the steps, whatever the configuration *)
Definition C09_steps_refuted_statement : Prop :=
  forall lrf tgf, ~ exists c k, forall rules builtins ex fuel errs s,
    validate_ast rules fuel lrf tgf builtins ex = VOk errs s -> s <= c * (rules_size rules) ^ k.
Theorem C09_steps_refuted : C09_steps_refuted_statement.
Proof.
  intros lrf tgf (c & k & H). destruct (validator_not_polynomial c k) as (rules & V). destruct (V lrf tgf [] false) as (errs & s & E & L).
  specialize (H _ _ _ _ _ _ E). lia.
Qed.

Definition panics (fl : flags) (text : str) (forest : list tok) : Prop :=
  shape_ok text forest = true /\ frontend fl [] (default_fuel text forest) text forest = FPanic.
(* "\u{D800}" / '\u{110000}'..'z' / ^"\u{DFFF}" : expect("incorrect string|char literal")   [fixes/C09-1]
   PEEK[99999999999..] : parse::<i32>().unwrap()                                             [fixes/C09-2]
   ( | "a" ) : the Pratt parser meets an infix operator first                                [fixes/C07-2, flag fix_choice]
   ^/*\*/"a" : (st_insens = false) unescape runs over the comment between ^ and the literal   [fixes/C07-1, flag fix_insens]
   "x"{4294967294,} : `1..min + 2` overflows                                                 [fixes/C09-4] *)
Definition C09_refuted_witnesses_statement : Prop :=
  panics (shipped current) w_escape_str_text w_escape_str_forest /\
  panics (shipped current) w_escape_chr_text w_escape_chr_forest /\
  panics (shipped current) w_escape_ins_text w_escape_ins_forest /\
  panics (shipped current) w_peek_text w_peek_forest /\
  panics (shipped current) w_paren_choice_text w_paren_choice_forest /\
  panics (shipped current) w_unroll_text w_unroll_forest /\
  panics (repaired_reader_only current) w_unroll_text w_unroll_forest /\
  panics (shipped original) w_escape_str_text w_escape_str_forest /\
  panics (shipped original) w_insens_comment_text w_insens_comment_forest.
Theorem C09_refuted_witnesses : C09_refuted_witnesses_statement.
Proof. unfold C09_refuted_witnesses_statement, panics. repeat split; vm_compute; reflexivity. Qed.

Definition C09_refuted_statement : Prop := ~ C09_statement.
Theorem C09_refuted : C09_refuted_statement.
Proof.
  intros H. destruct (H current) as [T _].
  destruct (T [] w_escape_str_text w_escape_str_forest ltac:(vm_compute; reflexivity)) as (NP & _).
  apply NP. vm_compute. reflexivity.
Qed.
(* the repaired code falls short of the full statement by the step bound only *)
Definition C09_repaired_refuted_statement : Prop := forall st, ~ C09_statement_for (repaired st).
Theorem C09_repaired_refuted : C09_repaired_refuted_statement.
Proof. intros st [_ H]. exact (C09_steps_refuted _ _ H). Qed.

(* the repaired code on the witnesses: located errors, resp. rules *)
Example repaired_escape : frontend (repaired current) [] (default_fuel w_escape_str_text w_escape_str_forest) w_escape_str_text w_escape_str_forest
                          = FErrors [(KBadEscape, LSpan 6 16)].
Proof. vm_compute. reflexivity. Qed.
Example repaired_peek : frontend (repaired current) [] (default_fuel w_peek_text w_peek_forest) w_peek_text w_peek_forest
                        = FErrors [(KOverflowI32, LSpan 11 22)].
Proof. vm_compute. reflexivity. Qed.
Example repaired_paren_choice : frontend (repaired current) [] (default_fuel w_paren_choice_text w_paren_choice_forest) w_paren_choice_text w_paren_choice_forest
                                = FRules 1.
Proof. vm_compute. reflexivity. Qed.
(* a well-formed grammar: the hypothesis shape_ok is satisfiable and the front end returns rules in both configurations *)
Example ok_shape : shape_ok w_ok_text w_ok_forest = true.
Proof. vm_compute. reflexivity. Qed.
Example ok_rules : frontend (shipped current) [] (default_fuel w_ok_text w_ok_forest) w_ok_text w_ok_forest = FRules 2 /\
                   frontend (repaired current) [] (default_fuel w_ok_text w_ok_forest) w_ok_text w_ok_forest = FRules 2.
Proof. split; vm_compute; reflexivity. Qed.
(* the shape invariant is not trivially true: dropping the last top-level token (EOI) breaks it *)
Example bad_shape : shape_ok w_ok_text (removelast w_ok_forest) = false.
Proof. vm_compute. reflexivity. Qed.
(* the validator on the family, n = 6: 8 rules, 2^6 <= steps *)
Example family_steps : exists s, validate_steps (fam 6) 11 true true [] false = Some s /\ 64 <= s.
Proof. eexists. split; [vm_compute; reflexivity|]. lia. Qed.

Print Assumptions C09_total_located.
Print Assumptions C09_no_panic.
Print Assumptions C09_locations.
Print Assumptions C09_no_panic_bounded_counts.
Print Assumptions C09_terminates_partial.
Print Assumptions C09_shape_is_regular.
Print Assumptions validator_steps_exponential.
Print Assumptions C09_steps_refuted.
Print Assumptions C09_refuted_witnesses.
Print Assumptions C09_refuted.
Print Assumptions C09_repaired_refuted.
