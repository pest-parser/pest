(* C14 - the bootstrapped grammar parser is the parser its grammar file denotes.
   Regenerated on every run from /repo (tools/sexp2v.py, tools/pest2v.py):
     gen/MetaOpt.v        the optimized rules the REAL optimizer printed for meta/src/grammar.pest
     gen/MetaCheckedIn.v  the closure table read (syn reader) in the CHECKED-IN meta/src/grammar.rs
   (1) byte-identity of the regenerated file and (4) the differential runs are in the driver;
   here: (2) every function of the checked-in file IS gen_rule / gen_skip / the built-in of the
   generator model for that grammar, (3) the meta-grammar is in class H, hence C02 instantiates:
   on every text, for every rule, the checked-in parser and the VM on the current optimizer's
   output return the same tokens / the same error.                                            *)
From Coq Require Import List Arith NArith ZArith Bool String Ascii Lia.
Import ListNotations.
Require Import PV.Stack.Model PV.Comb.PState PV.Comb.Bytes PV.Comb.Prog PV.Comb.Exec PV.Peg.Ast PV.Peg.VmCompile
               PV.Gen.GenCompile PV.Gen.ClassH PV.Gen.Lookup PV.Gen.Rel PV.Gen.Equiv PV.Gen.EnvSub
               PV.gen.MetaOpt PV.gen.MetaCheckedIn.
Local Open Scope string_scope.

Definition ci_env : env := table_env checked_in_closures.
Definition meta_gen_env : env := gen_env meta_opt [].
Definition meta_vm_env : env := vm_env meta_opt (ulookup []).
Definition meta_names : list name := map oname meta_opt.

(* the shape of the checked-in file *)
Definition C14_structure : Prop :=
  checked_in_all_rules = meta_names /\
  checked_in_variants = nm "EOI" :: meta_names /\
  checked_in_start = map (fun x => (x, x)) (meta_names ++ [nm "EOI"]) /\
  Forall (fun kp => meta_gen_env (fst kp) = Some (snd kp)) checked_in_closures /\        (* each fn = the generator model's *)
  forallb (fun k => match ci_env k with Some _ => true | None => false end) (seq 0 (List.length meta_opt)) = true /\   (* a fn per rule *)
  forallb (fun kp => closedb checked_in_closures (snd kp)) checked_in_closures = true.  (* every path called resolves *)

Definition C14_statement : Prop :=
  in_H meta_opt false = true /\ C14_structure /\
  forall (cfg : config) (r : name) (input : list byte) (detail : bool) (f1 f2 : nat),
    has_orule meta_opt r = true ->
    let rc := exec cfg ci_env f1 (gen_start meta_opt [] r) (init input None detail) in
    let rv := exec cfg meta_vm_env f2 (vm_start meta_opt (ulookup []) r) (init input None detail) in
    rc <> ROutOfFuel -> rv <> ROutOfFuel -> obs rc = obs rv /\ outcome_of cfg rc = outcome_of cfg rv.

Example meta_in_H : in_H meta_opt false = true.
Proof. rewrite <- in_H_eval_eq. vm_compute. reflexivity. Qed.

Lemma meta_structure : C14_structure.
Proof.
  unfold C14_structure. split; [reflexivity|]. split; [reflexivity|].
  split; [reflexivity|]. split; [|split; vm_compute; reflexivity].
  apply Forall_forall, map_ext_in_iff. vm_compute. reflexivity.
Qed.

Theorem C14_checked_in_parser_eq_vm : C14_statement.
Proof.
  split; [exact meta_in_H|]. split; [exact meta_structure|].
  intros cfg r input detail f1 f2 Hr rc rv Hc Hv.
  destruct meta_structure as (_ & _ & _ & Hgen & Hdef & Hcl).
  assert (Hsub : forall k p, ci_env k = Some p -> meta_gen_env k = Some p).
  { intros k p Hk. apply assoc_in in Hk. rewrite Forall_forall in Hgen. apply (Hgen (k, p) Hk). }
  assert (Hclosed : forall k p, ci_env k = Some p -> closed ci_env p).
  { intros k p Hk. apply assoc_in in Hk. rewrite forallb_forall in Hcl. apply closedb_closed. apply (Hcl (k, p) Hk). }
  assert (Hstart : closed ci_env (gen_start meta_opt [] r)).
  { unfold gen_start, gen_call. rewrite Hr. intros k [<-|[]].
    destruct (has_orule_first meta_opt r Hr) as (_ & _ & _ & Hlt).
    rewrite forallb_forall in Hdef. specialize (Hdef (orule_id meta_opt r) ltac:(apply in_seq; lia)).
    destruct (ci_env (orule_id meta_opt r)); [discriminate|discriminate Hdef]. }
  assert (E : rc = exec cfg meta_gen_env f1 (gen_start meta_opt [] r) (init input None detail)).
  { unfold rc. apply exec_sub; assumption. }
  rewrite E in Hc |- *.
  destruct (gen_vm_agree cfg meta_opt [] false meta_in_H r input detail f1 f2 Hc) as [_ H].
  specialize (H Hv). split; [now apply rrel_obs|now apply rrel_outcome].
Qed.

(* non-vacuity: the checked-in closure table really parses a small grammar text from the rule grammar_rules, and rejects a broken one *)
Definition wcfg : config := {| memchr := true; fixed3 := true; fixedlim := false |}.
Example C14_example_parses :
  match outcome_of wcfg (exec wcfg ci_env 400 (gen_start meta_opt [] (nm "grammar_rules")) (init (nm "a = { ""x"" ~ b* }") None false)) with
  | OPairs q => Nat.ltb 20 (List.length q)
  | _ => false
  end = true /\
  match outcome_of wcfg (exec wcfg ci_env 400 (gen_start meta_opt [] (nm "grammar_rules")) (init (nm "a = { ""x"" ~ }") None false)) with
  | OParsingError _ _ p => Nat.eqb p 12
  | _ => false
  end = true.
Proof. vm_compute. split; reflexivity. Qed.

Print Assumptions C14_checked_in_parser_eq_vm.
