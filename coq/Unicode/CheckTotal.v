(* C16 - evaluated on the regenerated tables: `total_trie` holds of the index arrays of every
   advertised property's table, so no lookup indexes out of bounds. *)
From Coq Require Import NArith List Bool String.
Require Import PV.Unicode.Trie PV.Unicode.Names PV.Unicode.Fast PV.gen.UnicodeNames PV.Unicode.Spec PV.Unicode.Lift.
Import ListNotations.
Open Scope N_scope.

Lemma tables_check : total_check pest_unicode_functions = true.
Proof. vm_cast_no_check (eq_refl true). Qed.

Theorem lookups_total : forall n t, fn_table pest_unicode_functions n = Some t ->
  forall cp, cp <= max_code_point -> exists b, contains t cp = Some b.
Proof. exact (total_check_sound _ tables_check). Qed.
