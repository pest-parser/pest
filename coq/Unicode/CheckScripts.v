(* C16 - evaluated on the regenerated tables: the supports of the script tables merge into one
   map without overlap, so the script rules are pairwise disjoint on 0..0x10FFFF. *)
From Coq Require Import NArith List Bool String.
Require Import PV.Unicode.Trie PV.Unicode.Names PV.Unicode.Fast PV.gen.UnicodeNames PV.Unicode.Spec PV.Unicode.Lift.
Import ListNotations.
Open Scope N_scope.

Lemma scripts_check : disjoint_check script_property_names = true.
Proof. vm_cast_no_check (eq_refl true). Qed.

Theorem scripts_disjoint : forall cp, cp <= max_code_point ->
  at_most_one (fun n => rule_matches n cp) script_property_names.
Proof. exact (disjoint_check_sound _ scripts_check). Qed.
