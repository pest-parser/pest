(* C16 - what the checks evaluate, and why that is enough; no regenerated data is mentioned here.
   `total_trie` reads off the index arrays of a table that no lookup goes out of bounds
   (`total_trie_chunk`).  `support` lists the non-zero (chunk, word) pairs of a table, read off
   its arrays (`chunk_support`).  `merge` ORs supports into one map and fails where two words
   share a bit; `gather` does so for a list of tables, and then one bit of the map counts the
   tables that contain a code point (`gather_count`).  `compile`/`fchunk` are the lookup the
   extracted runner reads chunks through; `fchunk_compile` ties them to `chunk_of`. *)
From Coq Require Import Arith NArith PArith List Bool Lia FMapPositive.
Require Import PV.Unicode.Trie.
Import ListNotations.
Open Scope N_scope.

Module PM := PositiveMap.

Fixpoint fill (l : list N) (i : positive) (m : PM.t N) : PM.t N :=
  match l with
  | [] => m
  | x :: r => fill r (Pos.succ i) (PM.add i x m)
  end.

Definition arr (l : list N) : PM.t N := fill l 1%positive (PM.empty N).
Definition get (m : PM.t N) (i : N) : option N := PM.find (N.succ_pos i) m.

Lemma nth_error_nil : forall (A : Type) n, nth_error (@nil A) n = None.
Proof. intros A n. destruct n; reflexivity. Qed.

Lemma idx_succ : forall x l i, idx (x :: l) (N.succ i) = idx l i.
Proof. intros x l i. unfold idx. rewrite N2Nat.inj_succ. reflexivity. Qed.

Lemma get_add : forall m i v k, get (PM.add (N.succ_pos i) v m) k = if i =? k then Some v else get m k.
Proof.
  intros m i v k. unfold get. destruct (N.eqb_spec i k) as [->|Hne]; [apply PM.gss|].
  apply PM.gso. intros E. apply (f_equal N.pos) in E. rewrite !N.succ_pos_spec in E. lia.
Qed.

Lemma get_fill : forall l i m k,
  get (fill l (N.succ_pos i) m) k =
  if k <? i then get m k else match idx l (k - i) with Some x => Some x | None => get m k end.
Proof.
  induction l as [|x r IH]; intros i m k; cbn [fill].
  - unfold idx. rewrite nth_error_nil. destruct (k <? i); reflexivity.
  - replace (Pos.succ (N.succ_pos i)) with (N.succ_pos (N.succ i)) by (destruct i; reflexivity).
    rewrite IH, get_add.
    destruct (N.ltb_spec k (N.succ i)), (N.ltb_spec k i), (N.eqb_spec i k); try lia; [reflexivity| |].
    + subst k. rewrite N.sub_diag. reflexivity.
    + replace (k - i) with (N.succ (k - N.succ i)) by lia. rewrite idx_succ. reflexivity.
Qed.

Lemma get_arr : forall l i, get (arr l) i = idx l i.
Proof.
  intros l i. unfold arr. change 1%positive with (N.succ_pos 0). rewrite get_fill, N.sub_0_r.
  destruct (N.ltb_spec i 0); [lia|]. unfold get. rewrite PM.gempty. destruct (idx l i); reflexivity.
Qed.

Record ctrie := mk_ctrie { c1 : PM.t N; c21 : PM.t N; c22 : PM.t N; c31 : PM.t N; c32 : PM.t N; c33 : PM.t N }.

Definition compile (t : trie) : ctrie :=
  mk_ctrie (arr (tree1_level1 t)) (arr (tree2_level1 t)) (arr (tree2_level2 t))
           (arr (tree3_level1 t)) (arr (tree3_level2 t)) (arr (tree3_level3 t)).

Definition fchunk (c : ctrie) (k : N) : option N :=
  if k <? 32 then get (c1 c) k
  else if k <? 1024 then
    match get (c21 c) (k - 32) with
    | None => Some 0
    | Some leaf => get (c22 c) leaf
    end
  else
    match get (c31 c) (N.shiftr k 6 - 16) with
    | None => Some 0
    | Some child =>
      match get (c32 c) (child * 64 + N.land k 63) with
      | None => None
      | Some leaf => get (c33 c) leaf
      end
    end.

Lemma fchunk_compile : forall t k, fchunk (compile t) k = chunk_of t k.
Proof.
  intros t k. unfold fchunk, chunk_of, compile; cbn [c1 c21 c22 c31 c32 c33].
  destruct (k <? 32); [apply get_arr|].
  destruct (k <? 1024).
  - rewrite get_arr. destruct (idx (tree2_level1 t) (k - 32)); [apply get_arr|reflexivity].
  - rewrite get_arr. destruct (idx (tree3_level1 t) (N.shiftr k 6 - 16)) as [child|]; [|reflexivity].
    rewrite get_arr. destruct (idx (tree3_level2 t) (child * 64 + N.land k 63)); [apply get_arr|reflexivity].
Qed.

(* No lookup panics.  Whether `chunk_of` answers does not depend on the chunk: it is a property
   of the index arrays (every leaf and every child's block of 64 leaves lies inside the next
   level), checked by one walk along them.  The bound is an argument of `below`: written inside
   the test it would be recomputed for every entry. *)
Definition len (l : list N) : N := N.of_nat (length l).
Definition below (n : N) (l : list N) : bool := forallb (fun x => x <? n) l.

Definition total_trie (t : trie) : bool :=
  (32 <=? len (tree1_level1 t)) &&
  below (len (tree2_level2 t)) (tree2_level1 t) &&
  below (len (tree3_level2 t) / 64) (tree3_level1 t) &&
  below (len (tree3_level3 t)) (tree3_level2 t).

Lemma idx_lt : forall l i, i < len l -> exists x, idx l i = Some x.
Proof.
  intros l i H. unfold idx. destruct (nth_error l (N.to_nat i)) eqn:E; [eexists; reflexivity|].
  apply nth_error_None in E. unfold len in H. lia.
Qed.

Lemma below_idx : forall n l i x, below n l = true -> idx l i = Some x -> x < n.
Proof.
  intros n l i x H E. apply N.ltb_lt. unfold below in H. rewrite forallb_forall in H.
  apply H. exact (nth_error_In _ _ E).
Qed.

(* A table is zero on almost all of the 17408 chunks.  `support t` lists its non-zero words with
   their chunk numbers, following the three trees structurally; a list of such pairs stands for
   the function `wsum l`, the OR of the words paired with a chunk number. *)
Fixpoint wsum (l : list (N * N)) (k : N) : N :=
  match l with
  | [] => 0
  | (i, w) :: r => if i =? k then N.lor w (wsum r k) else wsum r k
  end.

Definition look (l : list N) (i : N) : N := match idx l i with Some x => x | None => 0 end.

Fixpoint indexed (n : nat) (i : N) (f : N -> N) (l : list N) : list (N * N) :=
  match n, l with
  | S n', x :: r =>
    let w := f x in
    let rest := indexed n' (N.succ i) f r in
    if w =? 0 then rest else (i, w) :: rest
  | _, _ => []
  end.

Definition shift (b : N) (l : list (N * N)) : list (N * N) := map (fun p => (b + fst p, snd p)) l.

(* tree3_level2 cut into its blocks of 64 leaves: each block is looked up in tree3_level3 once,
   however many children point to it; n is fuel, at least the number of blocks *)
Fixpoint blocks (n : nat) (f : N -> N) (l : list N) : list (list (N * N)) :=
  match n with
  | O => []
  | S n' => indexed 64 0 f l :: blocks n' f (skipn 64 l)
  end.

Fixpoint sup3 (B : list (list (N * N))) (b : N) (children : list N) : list (N * N) :=
  match children with
  | [] => []
  | c :: r => shift b (nth (N.to_nat c) B []) ++ sup3 B (b + 64) r
  end.

Definition support (t : trie) : list (N * N) :=
  indexed 32 0 (fun w => w) (tree1_level1 t) ++
  indexed 992 32 (look (tree2_level2 t)) (tree2_level1 t) ++
  sup3 (blocks (length (tree3_level2 t)) (look (tree3_level3 t)) (tree3_level2 t)) 1024 (tree3_level1 t).

Lemma wsum_app : forall l l' k, wsum (l ++ l') k = N.lor (wsum l k) (wsum l' k).
Proof.
  induction l as [|[i w] r IH]; intros l' k; cbn [app wsum]; [reflexivity|].
  rewrite IH. destruct (i =? k); [apply N.lor_assoc|reflexivity].
Qed.

Lemma wsum_indexed_lt : forall f n l i k, k < i -> wsum (indexed n i f l) k = 0.
Proof.
  induction n as [|n IH]; intros l i k H; [reflexivity|]. destruct l as [|x r]; [reflexivity|].
  cbn [indexed]. cbv zeta. destruct (f x =? 0); cbn [wsum]; [|destruct (N.eqb_spec i k); [lia|]]; apply IH; lia.
Qed.

Lemma wsum_indexed : forall f n l i k, i <= k ->
  wsum (indexed n i f l) k =
  if k <? i + N.of_nat n then match idx l (k - i) with Some x => f x | None => 0 end else 0.
Proof.
  induction n as [|n IH]; intros l i k H; [destruct (N.ltb_spec k (i + N.of_nat 0)); [lia|reflexivity]|].
  destruct l as [|x r]; cbn [indexed]; cbv zeta.
  { unfold idx. rewrite nth_error_nil. destruct (_ <? _); reflexivity. }
  rewrite Nat2N.inj_succ, N.add_succ_r, <- N.add_succ_l. destruct (N.eq_dec i k) as [->|Hk].
  - rewrite N.sub_diag. destruct (N.ltb_spec k (N.succ k + N.of_nat n)); [|lia]. change (idx (x :: r) 0) with (Some x).
    destruct (N.eqb_spec (f x) 0) as [E|_]; cbn [wsum]; [|rewrite N.eqb_refl];
      rewrite wsum_indexed_lt by lia; [symmetry; exact E|apply N.lor_0_r].
  - replace (k - i) with (N.succ (k - N.succ i)) by lia. rewrite idx_succ.
    destruct (f x =? 0); cbn [wsum]; [|destruct (N.eqb_spec i k); [lia|]]; apply IH; lia.
Qed.

Lemma wsum_shift_lt : forall b l k, k < b -> wsum (shift b l) k = 0.
Proof.
  induction l as [|[i w] r IH]; intros k H; cbn [shift map wsum fst snd]; [reflexivity|].
  destruct (N.eqb_spec (b + i) k); [lia|]. apply IH. exact H.
Qed.

Lemma wsum_shift : forall b l k, wsum (shift b l) (b + k) = wsum l k.
Proof.
  induction l as [|[i w] r IH]; intros k; cbn [shift map wsum fst snd]; [reflexivity|].
  fold (shift b r). rewrite IH.
  destruct (N.eqb_spec (b + i) (b + k)), (N.eqb_spec i k); try lia; reflexivity.
Qed.

Lemma nth_error_skipn : forall (A : Type) n (l : list A) j, nth_error (skipn n l) j = nth_error l (n + j).
Proof.
  induction n as [|n IH]; intros l j; [reflexivity|].
  destruct l as [|x l]; [rewrite !nth_error_nil; reflexivity|]. apply IH.
Qed.

Lemma wsum_blocks : forall f n l c o, (length l <= n)%nat ->
  wsum (nth c (blocks n f l) []) o =
  if o <? 64 then match idx l (N.of_nat c * 64 + o) with Some x => f x | None => 0 end else 0.
Proof.
  induction n as [|n IH]; intros l c o H; cbn [blocks].
  - destruct l; [|cbn in H; lia]. unfold idx. rewrite nth_error_nil. destruct c, (o <? 64); reflexivity.
  - destruct c as [|c]; cbn [nth].
    + rewrite wsum_indexed, N.sub_0_r by lia. reflexivity.
    + rewrite IH by (rewrite skipn_length; lia). unfold idx. rewrite nth_error_skipn.
      replace (64 + N.to_nat (N.of_nat c * 64 + o))%nat with (N.to_nat (N.of_nat (S c) * 64 + o)) by lia.
      reflexivity.
Qed.

Lemma wsum_sup3_lt : forall B l b k, k < b -> wsum (sup3 B b l) k = 0.
Proof.
  induction l as [|c r IH]; intros b k H; cbn [sup3 wsum]; [reflexivity|].
  rewrite wsum_app, wsum_shift_lt, IH by lia. reflexivity.
Qed.

(* chunk b + 64q + o belongs to the q-th child and is leaf o of that child's block *)
Lemma wsum_sup3 : forall B, (forall c o, 64 <= o -> wsum (nth c B []) o = 0) ->
  forall l b q o, o < 64 ->
  wsum (sup3 B b l) (b + (64 * q + o)) =
  match idx l q with Some c => wsum (nth (N.to_nat c) B []) o | None => 0 end.
Proof.
  intros B HB. induction l as [|c r IH]; intros b q o Ho; cbn [sup3 wsum].
  - unfold idx. rewrite nth_error_nil. reflexivity.
  - rewrite wsum_app, wsum_shift. destruct (N.eq_dec q 0) as [->|Hq].
    + rewrite wsum_sup3_lt by lia. rewrite N.lor_0_r. reflexivity.
    + rewrite HB by lia. rewrite <- (N.succ_pred q Hq), idx_succ.
      replace (b + (64 * N.succ (N.pred q) + o)) with (b + 64 + (64 * N.pred q + o)) by lia.
      apply IH. exact Ho.
Qed.

Corollary wsum_sup3_chunk : forall B, (forall c o, 64 <= o -> wsum (nth c B []) o = 0) ->
  forall l k, 1024 <= k ->
  wsum (sup3 B 1024 l) k =
  match idx l (k / 64 - 16) with Some c => wsum (nth (N.to_nat c) B []) (k mod 64) | None => 0 end.
Proof.
  intros B HB l k H. rewrite <- (wsum_sup3 B HB l 1024) by apply bit_index_bound. f_equal.
  pose proof (N.div_mod k 64 ltac:(lia)). assert (16 <= k / 64) by (apply N.div_le_lower_bound; lia). lia.
Qed.

Lemma below_look : forall l' l i x, below (len l') l = true -> idx l i = Some x -> idx l' x = Some (look l' x).
Proof.
  intros l' l i x H E. unfold look. destruct (idx_lt _ _ (below_idx _ _ _ _ H E)) as [w ->]. reflexivity.
Qed.

Theorem chunk_support : forall t, total_trie t = true ->
  forall k, chunk_of t k = Some (wsum (support t) k).
Proof.
  intros t H k. unfold total_trie in H. rewrite !andb_true_iff, N.leb_le in H.
  destruct H as [[[H1 H22] H32] H33].
  unfold support, chunk_of. rewrite !wsum_app, !wsum_indexed, N.sub_0_r by lia.
  change (0 + N.of_nat 32) with 32. change (32 + N.of_nat 992) with 1024.
  destruct (N.ltb_spec k 32) as [L1|L1].
  { rewrite wsum_indexed_lt, wsum_sup3_lt, !N.lor_0_r by lia.
    destruct (idx_lt (tree1_level1 t) k ltac:(lia)) as [w ->]. reflexivity. }
  rewrite wsum_indexed, N.lor_0_l by lia. change (32 + N.of_nat 992) with 1024.
  destruct (N.ltb_spec k 1024) as [L2|L2].
  { rewrite wsum_sup3_lt, N.lor_0_r by lia.
    destruct (idx (tree2_level1 t) (k - 32)) as [leaf|] eqn:E; [|reflexivity].
    exact (below_look _ _ _ _ H22 E). }
  rewrite N.lor_0_l, shiftr6. change 63 with (N.ones 6). rewrite N.land_ones. change (2 ^ 6) with 64.
  rewrite wsum_sup3_chunk; [|intros c o Hc; rewrite wsum_blocks by lia; destruct (N.ltb_spec o 64); [lia|reflexivity]|exact L2].
  destruct (idx (tree3_level1 t) (k / 64 - 16)) as [child|] eqn:E; [|reflexivity].
  rewrite wsum_blocks, N2Nat.id by lia. destruct (N.ltb_spec (k mod 64) 64) as [Ho|]; [|pose proof (bit_index_bound k); lia].
  pose proof (below_idx _ _ _ _ H32 E) as Hc.
  pose proof (N.mul_div_le (len (tree3_level2 t)) 64 ltac:(lia)).
  destruct (idx_lt (tree3_level2 t) (child * 64 + k mod 64) ltac:(lia)) as [leaf E'].
  rewrite E'. exact (below_look _ _ _ _ H33 E').
Qed.

Corollary total_trie_chunk : forall t, total_trie t = true -> forall k, exists w, chunk_of t k = Some w.
Proof. intros t H k. rewrite (chunk_support t H). eexists. reflexivity. Qed.

Definition word (m : PM.t N) (k : N) : N := match get m k with Some w => w | None => 0 end.

Fixpoint merge (l : list (N * N)) (m : PM.t N) : option (PM.t N) :=
  match l with
  | [] => Some m
  | (k, w) :: r =>
    let a := word m k in
    if N.land a w =? 0 then merge r (PM.add (N.succ_pos k) (N.lor a w) m) else None
  end.

Lemma word_add : forall m i v k, word (PM.add (N.succ_pos i) v m) k = if i =? k then v else word m k.
Proof. intros m i v k. unfold word. rewrite get_add. destruct (i =? k); reflexivity. Qed.

Lemma merge_app : forall l l' m,
  merge (l ++ l') m = match merge l m with Some m' => merge l' m' | None => None end.
Proof.
  induction l as [|[k w] r IH]; intros l' m; cbn [app merge]; [reflexivity|].
  cbv zeta. destruct (N.land (word m k) w =? 0); [apply IH|reflexivity].
Qed.

Lemma merge_spec : forall l m m', merge l m = Some m' -> forall k b,
  N.testbit (word m' k) b = N.testbit (word m k) b || N.testbit (wsum l k) b /\
  N.testbit (word m k) b && N.testbit (wsum l k) b = false.
Proof.
  induction l as [|[i w] r IH]; intros m m' H k b; cbn [merge wsum] in *.
  - inversion H. rewrite N.bits_0, orb_false_r, andb_false_r. auto.
  - cbv zeta in H. destruct (N.eqb_spec (N.land (word m i) w) 0) as [D|]; [|discriminate].
    destruct (IH _ _ H k b) as [E1 E2]. rewrite word_add in E1, E2. rewrite E1.
    destruct (N.eqb_spec i k) as [->|]; [|auto].
    apply (f_equal (fun x => N.testbit x b)) in D. rewrite N.land_spec, N.bits_0 in D.
    rewrite !N.lor_spec in *.
    destruct (N.testbit (word m k) b), (N.testbit w b), (N.testbit (wsum r k) b); cbn in *; auto; discriminate.
Qed.

(* membership as a plain boolean: a panicking lookup counts as "no" (the theorems also state
   separately that no lookup panics) *)
Definition member (t : trie) (cp : N) : bool :=
  match contains t cp with Some true => true | _ => false end.

Lemma member_support : forall t cp, total_trie t = true ->
  member t cp = N.testbit (wsum (support t) (cp / 64)) (cp mod 64).
Proof.
  intros t cp H. unfold member. rewrite contains_chunk, (chunk_support t H). cbn [option_map].
  destruct (N.testbit _ _); reflexivity.
Qed.

Lemma filter_length_map : forall (A B : Type) (p : A -> bool) (q : B -> bool) l l',
  map p l = map q l' -> length (filter p l) = length (filter q l').
Proof.
  induction l as [|a l IH]; intros l' H; destruct l' as [|b l'']; cbn [map] in H; try discriminate; [reflexivity|].
  inversion H as [[H1 H2]]. cbn [filter]. rewrite H1. destruct (q b); cbn [length]; [f_equal|]; apply IH; exact H2.
Qed.

Lemma merge_count : forall ls m m', merge (concat ls) m = Some m' -> forall k b,
  (length (filter (fun l => N.testbit (wsum l k) b) ls) + Nat.b2n (N.testbit (word m k) b)
   = Nat.b2n (N.testbit (word m' k) b))%nat.
Proof.
  induction ls as [|l r IH]; intros m m' H k b; cbn [concat filter] in *.
  - inversion H. reflexivity.
  - rewrite merge_app in H. destruct (merge l m) as [m1|] eqn:E; [|discriminate].
    destruct (merge_spec _ _ _ E k b) as [E1 E2]. specialize (IH _ _ H k b). rewrite E1 in IH.
    destruct (N.testbit (word m k) b), (N.testbit (wsum l k) b); cbn in *; try discriminate; lia.
Qed.

Definition gather (ts : list trie) : option (PM.t N) :=
  if forallb total_trie ts then merge (concat (map support ts)) (PM.empty N) else None.

Theorem gather_count : forall ts M, gather ts = Some M -> forall cp,
  length (filter (fun t => member t cp) ts) = Nat.b2n (N.testbit (word M (cp / 64)) (cp mod 64)).
Proof.
  intros ts M H cp. unfold gather in H. destruct (forallb total_trie ts) eqn:T; [|discriminate].
  rewrite <- (merge_count _ _ _ H). unfold word at 1, get. rewrite PM.gempty, N.bits_0, Nat.add_0_r.
  apply filter_length_map. rewrite map_map. apply map_ext_in. intros t Hin.
  rewrite forallb_forall in T. apply member_support. exact (T _ Hin).
Qed.

Lemma equal_word : forall m m', PM.equal N.eqb m m' = true -> forall k, word m k = word m' k.
Proof.
  intros m m' H k. apply PM.equal_2 in H. destruct H as [Hin Hcmp]. unfold word, get.
  destruct (PM.find (N.succ_pos k) m) as [w|] eqn:E, (PM.find (N.succ_pos k) m') as [w'|] eqn:E'.
  - apply N.eqb_eq. exact (Hcmp _ _ _ E E').
  - destruct (proj1 (Hin _) (ex_intro _ w E)) as [x Hx]. unfold PM.MapsTo in Hx. congruence.
  - destruct (proj2 (Hin _) (ex_intro _ w' E')) as [x Hx]. unfold PM.MapsTo in Hx. congruence.
  - reflexivity.
Qed.

Fixpoint upfrom (fuel : nat) (i : N) : list N :=
  match fuel with O => [] | S f => i :: upfrom f (N.succ i) end.

Lemma In_upfrom : forall fuel i k, i <= k -> k < i + N.of_nat fuel -> In k (upfrom fuel i).
Proof.
  induction fuel as [|f IH]; intros i k H1 H2.
  - cbn in H2. lia.
  - cbn [upfrom]. destruct (N.eq_dec i k) as [->|Hne]; [left; reflexivity|].
    right. apply IH; lia.
Qed.

Definition chunks : list N := upfrom (N.to_nat nchunks) 0.

Lemma In_chunks : forall k, k < nchunks -> In k chunks.
Proof.
  intros k H. unfold chunks. apply In_upfrom; [lia|]. rewrite N2Nat.id. lia.
Qed.

Definition full : N := 18446744073709551615.     (* 2^64 - 1 *)

Lemma full_bits : forall b, b < 64 -> N.testbit full b = true.
Proof.
  intros b H. change full with (N.ones 64). apply N.ones_spec_low. exact H.
Qed.
