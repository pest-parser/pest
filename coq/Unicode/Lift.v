(* C16 - from tables to rule names: names are resolved on the function path and their tables
   gathered into one map (`names_map_count`); the table checks and the name checks are stated
   on names, each with the lemma that turns `= true` into the statement about code points. *)
From Coq Require Import Arith NArith List Bool String Lia.
Require Import PV.Unicode.Trie PV.Unicode.Names PV.Unicode.Fast PV.gen.UnicodeNames PV.Unicode.Spec.
Import ListNotations.
Open Scope N_scope.

Fixpoint resolve (names : list string) : option (list trie) :=
  match names with
  | [] => Some []
  | n :: r =>
    match fn_table pest_unicode_functions n, resolve r with
    | Some t, Some ts => Some (t :: ts)
    | _, _ => None
    end
  end.

Lemma rule_matches_member : forall n t cp, fn_table pest_unicode_functions n = Some t ->
  rule_matches n cp = member t cp.
Proof.
  intros n t cp H. unfold rule_matches, via_function, ask, member. rewrite H.
  destruct (contains t cp) as [[|]|]; reflexivity.
Qed.

Lemma resolve_matches : forall names ts cp, resolve names = Some ts ->
  map (fun n => rule_matches n cp) names = map (fun t => member t cp) ts.
Proof.
  induction names as [|n r IH]; intros ts cp H; cbn [resolve] in H.
  - inversion H. reflexivity.
  - destruct (fn_table pest_unicode_functions n) as [t|] eqn:Ht; [|discriminate].
    destruct (resolve r) as [ts'|] eqn:Hr; [|discriminate].
    inversion H; subst ts. cbn [map]. f_equal; [apply rule_matches_member; exact Ht|apply IH; reflexivity].
Qed.

Definition names_map (names : list string) : option (PM.t N) :=
  match resolve names with Some ts => gather ts | None => None end.

Lemma names_map_count : forall names M, names_map names = Some M -> forall cp,
  List.length (filter (fun n => rule_matches n cp) names) = Nat.b2n (N.testbit (word M (cp / 64)) (cp mod 64)).
Proof.
  intros names M H cp. unfold names_map in H. destruct (resolve names) as [ts|] eqn:Hr; [|discriminate].
  rewrite (filter_length_map _ _ _ _ _ _ (resolve_matches names ts cp Hr)). apply gather_count. exact H.
Qed.

Definition partition_check (names : list string) : bool :=
  match names_map names with Some M => forallb (fun k => word M k =? full) chunks | None => false end.

Definition disjoint_check (names : list string) : bool :=
  match names_map names with Some _ => true | None => false end.

Definition union_check (g : string * list string) : bool :=
  match names_map [fst g], names_map (snd g) with
  | Some G, Some M => PM.equal N.eqb G M
  | _, _ => false
  end.

Definition total_check (fns : list (string * trie)) : bool :=
  forallb (fun nt => total_trie (snd nt)) fns.

Lemma partition_check_sound : forall names, partition_check names = true ->
  forall cp, cp <= max_code_point -> exactly_one (fun n => rule_matches n cp) names.
Proof.
  intros names H cp Hcp. unfold partition_check in H.
  destruct (names_map names) as [M|] eqn:HM; [|discriminate].
  rewrite forallb_forall in H. specialize (H _ (In_chunks _ (chunk_index_bound cp Hcp))). apply N.eqb_eq in H.
  unfold exactly_one. rewrite (names_map_count _ _ HM), H, full_bits by apply bit_index_bound. reflexivity.
Qed.

Lemma disjoint_check_sound : forall names, disjoint_check names = true ->
  forall cp, cp <= max_code_point -> at_most_one (fun n => rule_matches n cp) names.
Proof.
  intros names H cp _. unfold disjoint_check in H.
  destruct (names_map names) as [M|] eqn:HM; [|discriminate].
  unfold at_most_one. rewrite (names_map_count _ _ HM). destruct (N.testbit _ _); cbn; lia.
Qed.

Lemma existsb_count : forall (A : Type) (p : A -> bool) l,
  existsb p l = negb (List.length (filter p l) =? 0)%nat.
Proof.
  induction l as [|a l IH]; cbn [existsb filter]; [reflexivity|]. destruct (p a); [reflexivity|exact IH].
Qed.

Lemma union_check_sound : forall g ms, union_check (g, ms) = true ->
  forall cp, cp <= max_code_point -> rule_matches g cp = existsb (fun m => rule_matches m cp) ms.
Proof.
  intros g ms H cp _. unfold union_check in H. cbn [fst snd] in H.
  destruct (names_map [g]) as [G|] eqn:HG; [|discriminate].
  destruct (names_map ms) as [M|] eqn:HM; [|discriminate].
  rewrite existsb_count, (names_map_count _ _ HM), <- (equal_word _ _ H), <- (names_map_count _ _ HG).
  cbn [filter]. destruct (rule_matches g cp); reflexivity.
Qed.

Lemma fn_table_In : forall fns n t, fn_table fns n = Some t -> In (n, t) fns.
Proof.
  induction fns as [|[m u] r IH]; intros n t H; cbn [fn_table] in H; [discriminate|].
  destruct (String.eqb n m) eqn:E.
  - apply String.eqb_eq in E. inversion H; subst. left. reflexivity.
  - right. apply IH. exact H.
Qed.

Lemma total_check_sound : forall fns, total_check fns = true ->
  forall n t, fn_table fns n = Some t ->
  forall cp, cp <= max_code_point -> exists b, contains t cp = Some b.
Proof.
  intros fns H n t Hn cp _. unfold total_check in H.
  rewrite forallb_forall in H. specialize (H _ (fn_table_In _ _ _ Hn)). cbn [snd] in H.
  rewrite contains_chunk. destruct (total_trie_chunk t H (cp / 64)) as [w ->]. eexists. reflexivity.
Qed.

Lemma leqb_eq : forall x y, leqb x y = true -> x = y.
Proof.
  induction x as [|p x IH]; intros y H; destruct y as [|q y]; cbn [leqb] in H; try discriminate; [reflexivity|].
  apply andb_true_iff in H. destruct H as [H1 H2]. apply N.eqb_eq in H1. subst. f_equal. apply IH. exact H2.
Qed.

Lemma trie_eqb_eq : forall a b, trie_eqb a b = true -> a = b.
Proof.
  intros [a1 a2 a3 a4 a5 a6] [b1 b2 b3 b4 b5 b6] H. unfold trie_eqb in H.
  cbn [tree1_level1 tree2_level1 tree2_level2 tree3_level1 tree3_level2 tree3_level3] in H.
  repeat (apply andb_true_iff in H; let H' := fresh "E" in destruct H as [H H']; apply leqb_eq in H').
  apply leqb_eq in H. subst. reflexivity.
Qed.

Lemma mem_In : forall x l, mem x l = true <-> In x l.
Proof.
  induction l as [|y r IH]; cbn [mem In]; [split; [discriminate|tauto]|].
  rewrite orb_true_iff, IH, String.eqb_eq. split; intros [H|H]; auto.
Qed.

(* by_name transforms every key it passes, for every name asked; the same loops with the keys
   transformed once.  A constant, so that an evaluator computes it once and not per name. *)
Definition transformed (loops : list (xform * list (string * trie))) :=
  map (fun xl => (XId, map (fun nt => (apply_xform (fst xl) (fst nt), snd nt)) (snd xl))) loops.

Definition by_name_keys := transformed by_name_loops.

Lemma by_name_transformed : forall loops name, by_name (transformed loops) name = by_name loops name.
Proof.
  induction loops as [|[x l] r IH]; intros name; cbn [transformed map by_name fst snd]; [reflexivity|].
  fold (transformed r). rewrite IH.
  replace (find_in XId name _) with (find_in x name l); [reflexivity|].
  induction l as [|[n t] l IHl]; cbn [map find_in fst snd apply_xform]; [reflexivity|]. rewrite IHl. reflexivity.
Qed.

(* what must hold of one advertised name; the VM and the generator are asked through the tests
   their models branch on, so that by_name runs once *)
Definition name_ok (n : string) : bool :=
  match fn_table pest_unicode_functions n, by_name by_name_keys n with
  | Some t, Some t' =>
    trie_eqb t t' &&
    negb (mem n vm_hardcoded) && vm_fallback_by_name &&
    negb (mem n generator_literals) && generator_unicode_loop && mem n unicode_property_names &&
    validator_accepts n
  | _, _ => false
  end.

Definition same_names (a b : list string) : bool :=
  forallb (fun n => mem n b) a && forallb (fun n => mem n a) b.

Fixpoint nodupb (l : list string) : bool :=
  match l with [] => true | x :: r => negb (mem x r) && nodupb r end.

Definition ascii_names : bool :=
  forallb (fun xl => forallb (fun nt => is_ascii_string (fst nt)) (snd xl)) by_name_loops.

Lemma name_ok_sound : forall n, name_ok n = true ->
  exists t, fn_table pest_unicode_functions n = Some t /\
            by_name by_name_loops n = Some t /\
            vm_builtin vm_hardcoded vm_fallback_by_name by_name_loops n = VUnicode t /\
            gen_builtin generator_literals generator_unicode_loop unicode_property_names n = GUnicodeFn n /\
            validator_accepts n = true.
Proof.
  intros n H. unfold name_ok, by_name_keys in H. rewrite by_name_transformed in H.
  destruct (fn_table pest_unicode_functions n) as [t|]; [|discriminate].
  destruct (by_name by_name_loops n) as [t'|] eqn:Hb; [|discriminate].
  rewrite !andb_true_iff, !negb_true_iff in H. destruct H as [[[[[[Ht Hh] Hf] Hl] Hu] Hm] Hv].
  apply trie_eqb_eq in Ht. subst t'.
  unfold vm_builtin, gen_builtin. rewrite Hb, Hh, Hf, Hl, Hu, Hm. exists t. auto.
Qed.
