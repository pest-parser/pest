(* C16 - literal model of ucd-trie 0.1.7, `TrieSetSlice::contains` (src/lib.rs:95-116), over N.

     fn contains(&self, cp: usize) -> bool {
         if cp < 0x800 {
             self.chunk_contains(cp, self.tree1_level1[cp >> 6])
         } else if cp < 0x10000 {
             let leaf = match self.tree2_level1.get((cp >> 6) - 0x20) {
                 None => return false, Some(&leaf) => leaf };
             self.chunk_contains(cp, self.tree2_level2[leaf as usize])
         } else {
             let child = match self.tree3_level1.get((cp >> 12) - 0x10) {
                 None => return false, Some(&child) => child };
             let i = ((child as usize) * CHUNK_SIZE) + ((cp >> 6) & 0b111111);
             let leaf = self.tree3_level2[i];
             self.chunk_contains(cp, self.tree3_level3[leaf as usize])
         }
     }
     fn chunk_contains(&self, cp: usize, chunk: u64) -> bool { ((chunk >> (cp & 0b111111)) & 1) == 1 }

   `None` stands for a Rust panic: slice indexing `a[i]` out of bounds and `usize` subtraction
   underflow; `slice.get(i)` out of bounds is the ordinary `return false`.  The model is part of the
   trusted base (ucd-trie is re-modelled, not verified); it is tied to the crate by the per-table
   membership digests compared on every run. *)
From Coq Require Import NArith List Bool Lia.
Import ListNotations.
Open Scope N_scope.

Record trie := mk_trie {
  tree1_level1 : list N;   (* &[u64] *)
  tree2_level1 : list N;   (* &[u8]  *)
  tree2_level2 : list N;   (* &[u64] *)
  tree3_level1 : list N;   (* &[u8]  *)
  tree3_level2 : list N;   (* &[u8]  *)
  tree3_level3 : list N    (* &[u64] *)
}.

(* a[i] / a.get(i): None = out of bounds *)
Definition idx (l : list N) (i : N) : option N := nth_error l (N.to_nat i).

(* usize subtraction: None = underflow (panics with overflow checks on) *)
Definition csub (a b : N) : option N := if a <? b then None else Some (a - b).

Definition chunk_contains (cp chunk : N) : bool :=
  N.land (N.shiftr chunk (N.land cp 63)) 1 =? 1.

Definition contains (t : trie) (cp : N) : option bool :=
  if cp <? 0x800 then
    match idx (tree1_level1 t) (N.shiftr cp 6) with
    | None => None
    | Some w => Some (chunk_contains cp w)
    end
  else if cp <? 0x10000 then
    match csub (N.shiftr cp 6) 0x20 with
    | None => None
    | Some i =>
      match idx (tree2_level1 t) i with
      | None => Some false
      | Some leaf =>
        match idx (tree2_level2 t) leaf with
        | None => None
        | Some w => Some (chunk_contains cp w)
        end
      end
    end
  else
    match csub (N.shiftr cp 12) 0x10 with
    | None => None
    | Some c =>
      match idx (tree3_level1 t) c with
      | None => Some false
      | Some child =>
        let i := child * 64 + N.land (N.shiftr cp 6) 63 in
        match idx (tree3_level2 t) i with
        | None => None
        | Some leaf =>
          match idx (tree3_level3 t) leaf with
          | None => None
          | Some w => Some (chunk_contains cp w)
          end
        end
      end
    end.

(* contains_char(c) = contains(c as usize); contains_u32 adds the range test *)
Definition contains_u32 (t : trie) (cp : N) : option bool :=
  if 0x10FFFF <? cp then Some false else contains t cp.

(* The 64-bit word that holds the bits of code points 64k .. 64k+63 (k = cp / 64), following the same
   three trees.  None = the lookup panics for these code points. *)
Definition chunk_of (t : trie) (k : N) : option N :=
  if k <? 32 then idx (tree1_level1 t) k
  else if k <? 1024 then
    match idx (tree2_level1 t) (k - 32) with
    | None => Some 0
    | Some leaf => idx (tree2_level2 t) leaf
    end
  else
    match idx (tree3_level1 t) (N.shiftr k 6 - 16) with
    | None => Some 0
    | Some child =>
      match idx (tree3_level2 t) (child * 64 + N.land k 63) with
      | None => None
      | Some leaf => idx (tree3_level3 t) leaf
      end
    end.

Definition nchunks : N := 17408.      (* 0x110000 / 64 *)


Lemma chunk_contains_testbit : forall cp w, chunk_contains cp w = N.testbit w (cp mod 64).
Proof.
  intros cp w. unfold chunk_contains.
  change 63 with (N.ones 6). rewrite N.land_ones. change (2 ^ 6) with 64.
  change 1 with (N.ones 1) at 1. rewrite N.land_ones. change (2 ^ 1) with 2.
  rewrite <- N.bit0_mod. rewrite N.shiftr_spec'. rewrite N.add_0_l.
  destruct (N.testbit w (cp mod 64)); reflexivity.
Qed.

Lemma shiftr6 : forall cp, N.shiftr cp 6 = cp / 64.
Proof. intros. rewrite N.shiftr_div_pow2. reflexivity. Qed.

Lemma shiftr12 : forall cp, N.shiftr cp 12 = N.shiftr (cp / 64) 6.
Proof.
  intros. rewrite <- shiftr6. rewrite N.shiftr_shiftr. reflexivity.
Qed.

Lemma lt_div64 : forall cp b, (cp <? b * 64) = (cp / 64 <? b).
Proof.
  intros cp b.
  destruct (N.ltb_spec cp (b * 64)) as [H|H]; destruct (N.ltb_spec (cp / 64) b) as [H'|H']; try reflexivity; exfalso.
  - assert (cp / 64 < b) by (apply N.div_lt_upper_bound; lia). lia.
  - pose proof (N.div_mod cp 64 ltac:(lia)) as E.
    pose proof (N.mod_lt cp 64 ltac:(lia)) as L. nia.
Qed.

Theorem contains_chunk : forall t cp,
  contains t cp = option_map (fun w => N.testbit w (cp mod 64)) (chunk_of t (cp / 64)).
Proof.
  intros t cp. unfold contains, chunk_of, csub.
  change 0x800 with (32 * 64). change 0x10000 with (1024 * 64).
  rewrite !lt_div64. rewrite shiftr12. rewrite !shiftr6.
  change 63 with (N.ones 6). rewrite !N.land_ones. change (2 ^ 6) with 64.
  destruct (cp / 64 <? 32) eqn:H1.
  - destruct (idx (tree1_level1 t) (cp / 64)); cbn [option_map]; [rewrite chunk_contains_testbit|]; reflexivity.
  - destruct (cp / 64 <? 1024) eqn:H2.
    + apply N.ltb_ge in H1.
      replace (cp / 64 <? 32) with false by (symmetry; apply N.ltb_ge; exact H1).
      destruct (idx (tree2_level1 t) (cp / 64 - 32)) as [leaf|]; cbn [option_map].
      * destruct (idx (tree2_level2 t) leaf); cbn [option_map]; [rewrite chunk_contains_testbit|]; reflexivity.
      * rewrite N.bits_0. reflexivity.
    + apply N.ltb_ge in H2.
      assert (H3 : (cp / 64 / 64 <? 16) = false).
      { apply N.ltb_ge. apply N.div_le_lower_bound; lia. }
      rewrite H3.
      destruct (idx (tree3_level1 t) (cp / 64 / 64 - 16)) as [child|]; cbn [option_map].
      * cbv zeta.
        destruct (idx (tree3_level2 t) (child * 64 + (cp / 64) mod 64)) as [leaf|]; cbn [option_map]; [|reflexivity].
        destruct (idx (tree3_level3 t) leaf); cbn [option_map]; [rewrite chunk_contains_testbit|]; reflexivity.
      * rewrite N.bits_0. reflexivity.
Qed.

(* the form quoted in DESIGN.md: for a table whose chunk exists, membership is one bit of the chunk *)
Corollary contains_testbit : forall t cp w,
  cp <= 0x10FFFF -> chunk_of t (cp / 64) = Some w -> contains t cp = Some (N.testbit w (cp mod 64)).
Proof. intros t cp w _ H. rewrite contains_chunk, H. reflexivity. Qed.

Lemma chunk_index_bound : forall cp, cp <= 0x10FFFF -> cp / 64 < nchunks.
Proof.
  intros cp H. unfold nchunks. apply N.div_lt_upper_bound; lia.
Qed.

Lemma bit_index_bound : forall cp, cp mod 64 < 64.
Proof. intros. apply N.mod_lt. lia. Qed.
