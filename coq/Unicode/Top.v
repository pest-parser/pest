(* C16 - assembling the theorem from the kernel-evaluated checks of CheckCategories, CheckScripts, CheckTotal and CheckNames. *)
From Coq Require Import NArith List Bool String.
Require Import PV.Unicode.Trie PV.Unicode.Names PV.gen.UnicodeNames PV.Unicode.Spec PV.Unicode.Lift.
Require Import PV.Unicode.CheckCategories PV.Unicode.CheckScripts PV.Unicode.CheckTotal PV.Unicode.CheckNames.
Import ListNotations.
Open Scope N_scope.

Lemma nodupb_NoDup : forall l, nodupb l = true -> NoDup l.
Proof.
  induction l as [|x r IH]; intros H; cbn [nodupb] in H; constructor.
  - apply andb_true_iff in H. destruct H as [H _]. intros Hin. apply mem_In in Hin. rewrite Hin in H. discriminate.
  - apply IH. apply andb_true_iff in H. tauto.
Qed.

Lemma advertised_ok : forall n, In n unicode_property_names -> name_ok n = true.
Proof. apply forallb_forall. exact names_ok_all. Qed.

(* every advertised name: same table on the four paths, hence the same answer at every code point *)
Theorem paths_agree : forall n, In n unicode_property_names ->
  forall cp, cp <= max_code_point ->
  exists b, via_function n cp = Ans b /\ via_by_name n cp = Ans b /\ via_vm n cp = Ans b /\ via_generated n cp = Ans b.
Proof.
  intros n Hin cp Hcp.
  destruct (name_ok_sound n (advertised_ok n Hin)) as [t [Hf [Hb [Hv [Hg _]]]]].
  destruct (lookups_total n t Hf cp Hcp) as [b Hc].
  exists b. unfold via_function, via_by_name, via_vm, via_generated, via_function.
  rewrite Hg, Hv, Hb, Hf. unfold ask. rewrite Hc. auto.
Qed.

Theorem names_accepted : forall n, In n unicode_property_names -> validator_accepts n = true.
Proof.
  intros n Hin. destruct (name_ok_sound n (advertised_ok n Hin)) as [t [_ [_ [_ [_ Hv]]]]]. exact Hv.
Qed.

Theorem categories_listed : forall n,
  In n category_property_names <-> In n (two_letter_names ++ map fst groups).
Proof.
  intros n. pose proof categories_same as H. unfold same_names in H.
  apply andb_true_iff in H. destruct H as [H1 H2]. rewrite forallb_forall in H1, H2.
  split; intros Hin; apply mem_In; auto.
Qed.

Theorem names_unambiguous : NoDup unicode_property_names.
Proof. apply nodupb_NoDup. exact names_nodup. Qed.

Theorem C16_unicode_consistent :
  (forall cp, cp <= max_code_point ->
     exactly_one (fun n => rule_matches n cp) two_letter_names /\
     (forall g ms, In (g, ms) groups -> rule_matches g cp = existsb (fun m => rule_matches m cp) ms) /\
     at_most_one (fun n => rule_matches n cp) script_property_names /\
     (forall n, In n unicode_property_names ->
        exists b, via_function n cp = Ans b /\ via_by_name n cp = Ans b /\
                  via_vm n cp = Ans b /\ via_generated n cp = Ans b)) /\
  (forall n, In n unicode_property_names -> validator_accepts n = true) /\
  (forall n, In n category_property_names <-> In n (two_letter_names ++ map fst groups)) /\
  NoDup unicode_property_names.
Proof.
  split; [|split; [exact names_accepted|split; [exact categories_listed|exact names_unambiguous]]].
  intros cp Hcp. split; [exact (categories_partition cp Hcp)|].
  split; [exact (groups_are_unions cp Hcp)|].
  split; [exact (scripts_disjoint cp Hcp)|].
  intros n Hin. exact (paths_agree n Hin cp Hcp).
Qed.
