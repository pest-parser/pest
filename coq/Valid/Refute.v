(* Non-termination witnesses: accepted grammars on which Layer S returns SFuel for EVERY fuel.
   A rule whose body reaches a call of the rule itself along a "left spine" (through ?, *, +, !, &,
   PUSH, #tag, {n}, the left side of ~ and |, and other rules with such bodies) runs out of fuel for
   every fuel, at every position, in every mode (LS); the implicit-skip witness (WHITESPACE reaches a
   `!` rule) and the grammar-extras witness (a repetition of "" under a node tag) are unfolded by hand. *)
From Coq Require Import String Ascii List Arith NArith ZArith Bool Lia.
Import ListNotations.
Require Import PV.Comb.PState PV.Comb.Bytes PV.Iter.Queue PV.Peg.Ast PV.Peg.Spec PV.Opt.Sem PV.Opt.SemProofs.
Require Import PV.Valid.Validator.

Section Loop.
Variable G : grammar.
Variable extras : bool.
Variable uprop : name -> option (N -> bool).
Variable w : list byte.
Notation eval := (Spec.eval G extras uprop w).

Variable x : name.

Inductive LS : expr -> Prop :=
| LS_self : LS (EIdent x)
| LS_ident y r : calls_rule G y = true -> find_rule G y = Some r -> LS (rexpr r) -> LS (EIdent y)
| LS_seq l r : LS l -> LS (ESeq l r)
| LS_cho l r : LS l -> LS (EChoice l r)
| LS_opt e : LS e -> LS (EOpt e)
| LS_rep e : LS e -> LS (ERep e)
| LS_reponce e : LS e -> LS (ERepOnce e)
| LS_pos e : LS e -> LS (EPosPred e)
| LS_neg e : LS e -> LS (ENegPred e)
| LS_push e : LS e -> LS (EPush e)
| LS_tag e t : LS e -> LS (ENodeTag e t)
| LS_repexact e k : n_is_zero k = false -> LS e -> LS (ERepExact e k).

Hypothesis Hx : calls_rule G x = true.
Variable rx : rule.
Hypothesis Hrx : find_rule G x = Some rx.
Hypothesis Hbody : LS (rexpr rx).

Theorem LS_loops n : forall e, LS e -> forall a emit p sg, eval n a emit e p sg = SFuel.
Proof.
  induction n as [|n IH]; intros e He a emit p sg; [reflexivity|].
  inversion He; subst.
  - rewrite (eval_call G extras uprop w n a emit x rx p sg Hx Hrx). now rewrite (IH _ Hbody).
  - rewrite (eval_call G extras uprop w n a emit y r p sg H H0). now rewrite (IH _ H1).
  - cbn [Spec.eval]. now rewrite (IH _ H).
  - cbn [Spec.eval]. now rewrite (IH _ H).
  - cbn [Spec.eval]. now rewrite (IH _ H).
  - cbn [Spec.eval]. now rewrite (IH _ H).
  - cbn [Spec.eval]. destruct extras eqn:Ex.
    + now rewrite (IH _ H).
    + apply IH. now apply LS_seq.
  - cbn [Spec.eval]. now rewrite (IH _ H).
  - cbn [Spec.eval]. now rewrite (IH _ H).
  - cbn [Spec.eval]. now rewrite (IH _ H).
  - cbn [Spec.eval]. now rewrite (IH _ H).
  - cbn [Spec.eval unroll_node]. destruct (N.to_nat k) as [|k'] eqn:Ek; [apply N.eqb_neq in H; lia|]. cbn [repeatn repeat seq_of].
    destruct (repeat e0 k') as [|z l']; [now apply IH|].
    destruct (seq_of (z :: l')); [apply IH; now apply LS_seq|now apply IH].
Qed.

Corollary LS_rule_loops : forall n a emit p sg, eval n a emit (EIdent x) p sg = SFuel.
Proof. intros. apply LS_loops. constructor. Qed.

End Loop.

Definition lit_x : expr := EStr (nm "x").
Definition ra : name := nm "a".
Definition rb : name := nm "b".

(* a = { a? ~ "x" } *)
Definition W_opt : grammar := [{| rname := ra; rty := RNormal; rexpr := ESeq (EOpt (EIdent ra)) lit_x |}].
(* a = { !a ~ "x" } *)
Definition W_neg : grammar := [{| rname := ra; rty := RNormal; rexpr := ESeq (ENegPred (EIdent ra)) lit_x |}].
(* a = { a{2} } *)
Definition W_exact : grammar := [{| rname := ra; rty := RNormal; rexpr := ERepExact (EIdent ra) 2 |}].
(* a = { b ~ "x" }  b = { a? } *)
Definition W_mutual : grammar :=
  [{| rname := ra; rty := RNormal; rexpr := ESeq (EIdent rb) lit_x |}; {| rname := rb; rty := RNormal; rexpr := EOpt (EIdent ra) |}].
(* r = { "x" ~ "y" }  WHITESPACE = { n }  n = !{ "" ~ " " } *)
Definition W_ws : grammar :=
  [{| rname := nm "r"; rty := RNormal; rexpr := ESeq lit_x (EStr (nm "y")) |};
   {| rname := nm "WHITESPACE"; rty := RNormal; rexpr := EIdent (nm "n") |};
   {| rname := nm "n"; rty := RNonAtomic; rexpr := ESeq (EStr []) (EStr (nm " ")) |}].
(* r = { #t = (""* ) }   (grammar-extras) *)
Definition W_tag : grammar := [{| rname := nm "r"; rty := RNormal; rexpr := ENodeTag (ERep (EStr [])) (nm "t") |}].

Lemma W_opt_loops extras uprop w n : eval W_opt extras uprop w n NonAtomic true (EIdent ra) 0 [] = SFuel.
Proof.
  eapply (LS_rule_loops W_opt extras uprop w ra eq_refl); [reflexivity|].
  cbn. apply LS_seq, LS_opt, LS_self.
Qed.
Lemma W_neg_loops extras uprop w n : eval W_neg extras uprop w n NonAtomic true (EIdent ra) 0 [] = SFuel.
Proof.
  eapply (LS_rule_loops W_neg extras uprop w ra eq_refl); [reflexivity|].
  cbn. apply LS_seq, LS_neg, LS_self.
Qed.
Lemma W_exact_loops extras uprop w n : eval W_exact extras uprop w n NonAtomic true (EIdent ra) 0 [] = SFuel.
Proof.
  eapply (LS_rule_loops W_exact extras uprop w ra eq_refl); [reflexivity|].
  cbn. apply LS_repexact; [reflexivity|apply LS_self].
Qed.
Lemma W_mutual_loops extras uprop w n : eval W_mutual extras uprop w n NonAtomic true (EIdent ra) 0 [] = SFuel.
Proof.
  eapply (LS_rule_loops W_mutual extras uprop w ra eq_refl); [reflexivity|].
  cbn. apply LS_seq. eapply (LS_ident _ _ rb); [reflexivity|reflexivity|]. cbn. apply LS_opt, LS_self.
Qed.

(* the implicit skip inside the `!` rule calls WHITESPACE again *)
Lemma W_ws_loops extras uprop w : forall n a emit p sg, eval W_ws extras uprop w n a emit (EIdent (nm "WHITESPACE")) p sg = SFuel.
Proof.
  induction n as [n IH] using lt_wf_ind. intros a emit p sg.
  destruct n as [|n1]; [reflexivity|].
  rewrite (eval_call W_ws extras uprop w n1 a emit (nm "WHITESPACE") _ p sg eq_refl eq_refl).
  cbn [rexpr rty]. change (is_special (nm "WHITESPACE")) with true. cbn [rule_mode fst snd].
  destruct n1 as [|n2]; [reflexivity|].
  rewrite (eval_call W_ws extras uprop w n2 Atomic emit (nm "n") _ p sg eq_refl eq_refl).
  cbn [rexpr rty]. change (is_special (nm "n")) with false. cbn [rule_mode fst snd].
  destruct n2 as [|n3]; [reflexivity|]. cbn [Spec.eval].
  destruct n3 as [|n4]; [reflexivity|].
  change (Spec.eval W_ws extras uprop w (S n4) NonAtomic emit (EStr []) p sg) with (SMatch (p + 0) sg []).
  unfold skip_with. change (negb (atom_eqb NonAtomic NonAtomic)) with false. cbn iota.
  change (has_rule W_ws (nm "WHITESPACE")) with true. change (has_rule W_ws (nm "COMMENT")) with false. cbn iota.
  unfold many_with. cbn [loop]. rewrite IH by lia. reflexivity.
Qed.

Lemma loop_always n u : (forall p sg, exists p' sg' f', u p sg = SMatch p' sg' f') -> forall p sg acc, loop n u p sg acc = SFuel.
Proof.
  intros Hu. induction n as [|n IH]; intros p sg acc; [reflexivity|]. cbn [loop].
  destruct (Hu p sg) as (p' & sg' & f' & ->). apply IH.
Qed.
Lemma W_tag_loops extras uprop w n : eval W_tag extras uprop w n NonAtomic true (EIdent (nm "r")) 0 [] = SFuel.
Proof.
  destruct n as [|n1]; [reflexivity|].
  rewrite (eval_call W_tag extras uprop w n1 NonAtomic true (nm "r") _ 0 [] eq_refl eq_refl).
  cbn [rexpr rty]. change (is_special (nm "r")) with false. cbn [rule_mode fst snd].
  destruct n1 as [|n2]; [reflexivity|]. cbn [Spec.eval].
  destruct n2 as [|n3]; [reflexivity|]. cbn [Spec.eval].
  destruct n3 as [|n4]; [reflexivity|].
  change (Spec.eval W_tag extras uprop w (S n4) NonAtomic true (EStr []) 0 []) with (SMatch 0 ([] : list str) []).
  cbn iota. unfold rep_from_with. rewrite loop_always; [reflexivity|].
  intros p sg. unfold rep_unit, skip_with. cbn. unfold Spec.lit. cbn. eauto.
Qed.
