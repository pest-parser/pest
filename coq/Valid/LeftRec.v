(* The left-recursion check.  check_expr is: visit the rule references of `lefts fx cur e` (cur = the
   rule being traversed, the seed of the nullable test trace.last(); fx = with the repair fix_lr)
   one after the other until one reports something; that equation is the only induction over
   check_e, everything else is about one reference.  For the repaired check, a DFS that returns no
   error has looked at every such reference: none is the root, and the DFS of every one not yet on
   the trace returned no error either.  Hence, if every root passes, a duplicate-free chain of such
   edges v_k -> ... -> v_1 cannot be closed by an edge v_1 -> v_j: the DFS rooted at v_j follows
   exactly that chain and would report it.                                                    *)
From Coq Require Import String Ascii List Arith NArith ZArith Bool Lia.
Require Import PV.Peg.AstFacts.
Import ListNotations.
Require Import PV.Comb.PState PV.Peg.Ast PV.Valid.Validator PV.Valid.Nullable.

Lemma NoDup_app_l {A} (a b : list A) : NoDup (a ++ b) -> NoDup a.
Proof.
  induction a as [|x a IH]; cbn; intros H; [constructor|].
  inversion H; subst. constructor; [|auto]. intros Hx. apply H2. apply in_or_app. auto.
Qed.

Lemma vec_first_last l x : vec_first (l ++ [x]) = Some x.
Proof.
  induction l as [|y l IH]; [reflexivity|]. cbn [app vec_first].
  destruct (l ++ [x]) eqn:E; [destruct l; discriminate|]. exact IH.
Qed.
Lemma vec_first_some T : forall cur, vec_first (cur :: T) <> None.
Proof. induction T as [|y T IH]; intros cur; [discriminate|apply (IH y)]. Qed.

Fixpoint first_res (f : name -> cres) (l : list name) : cres :=
  match l with [] => CNone | y :: l' => match f y with CNone => first_res f l' | r => r end end.

Lemma first_res_app f l1 l2 : first_res f (l1 ++ l2) = match first_res f l1 with CNone => first_res f l2 | r => r end.
Proof. induction l1 as [|y l1 IH]; cbn [app first_res]; [reflexivity|]. now destruct (f y). Qed.

Lemma first_res_spec f l :
  (first_res f l = CNone /\ forall y, In y l -> f y = CNone) \/ (exists y, In y l /\ first_res f l = f y /\ f y <> CNone).
Proof.
  induction l as [|x l IH]; cbn [first_res]; [left; split; [reflexivity|intros y []]|].
  destruct (f x) eqn:E; try (right; exists x; rewrite E; repeat split; [now left|discriminate]).
  destruct IH as [[H1 H2]|(y & Hy & H1 & H2)]; [left|right; exists y; repeat split; auto; now right].
  split; [exact H1|]. intros y [<-|Hy]; auto.
Qed.

Section LeftRec.
Variable cfg : vcfg.
Variable G : grammar.

Notation lookup := (lookup G).
Notation check := (check cfg G).
Notation check_e := (check_e cfg G).

Fixpoint lefts (fx : bool) (cur : name) (e : expr) : list name :=
  match e with
  | EIdent n => [n]
  | ESeq l r => match nullable_seeded G cur l with
                | Some false => lefts fx cur l
                | _ => (if fx then lefts fx cur l else []) ++ lefts fx cur r
                end
  | EChoice l r => lefts fx cur l ++ lefts fx cur r
  | ERep x | ERepOnce x | EOpt x | EPosPred x | ENegPred x | EPush x => lefts fx cur x
  | ERepExact x _ | ERepMin x _ | ERepMax x _ | ERepMinMax x _ _ | ENodeTag x _ => if fx then lefts fx cur x else []
  | _ => []
  end.

Lemma check_e_lefts rec cur T e : In cur (defs G) ->
  check_e rec (cur :: T) e = first_res (fun y => check_e rec (cur :: T) (EIdent y)) (lefts (fix_lr cfg) cur e).
Proof.
  intros Hc. set (f := fun y => check_e rec (cur :: T) (EIdent y)). induction e; cbn [lefts first_res]; try reflexivity; try exact IHe;
    try (cbn [Validator.check_e]; destruct (fix_lr cfg); [exact IHe|reflexivity]).
  - unfold f. now destruct (check_e rec (cur :: T) (EIdent n)).
  - pose proof (nullable_seeded_some G cur e1 Hc). cbn [Validator.check_e].
    destruct (fix_lr cfg), (nullable_seeded G cur e1) as [[|]|]; try congruence;
      rewrite ?first_res_app, <- ?IHe1, <- ?IHe2; cbn [first_res]; try reflexivity.
    now destruct (check_e rec (cur :: T) e1).
  - cbn [Validator.check_e]. now rewrite first_res_app, <- IHe1, <- IHe2.
Qed.

Hypothesis Hfix : fix_lr cfg = true.

Definition ledge (v x : name) : Prop := exists b, lookup v = Some b /\ In x (lefts true v b).

Lemma check_none_lefts f cur T e :
  In cur (defs G) -> check f (cur :: T) e = CNone ->
  exists f', f = S f' /\
  forall y, In y (lefts true cur e) ->
    (exists root, vec_first (cur :: T) = Some root /\ str_eqb root y = false) /\
    (mem y (cur :: T) = false -> forall b, lookup y = Some b -> check f' (y :: cur :: T) b = CNone).
Proof.
  destruct f as [|f]; [discriminate|]. cbn [Validator.check]. intros Hc H. exists f. split; auto.
  rewrite check_e_lefts, Hfix in H by exact Hc. intros y Hy.
  destruct (first_res_spec (fun y => check_e (check f) (cur :: T) (EIdent y)) (lefts true cur e)) as [[_ Hn]|(z & _ & E & Hz)]; [|congruence].
  specialize (Hn y Hy). cbn [Validator.check_e] in Hn.
  destruct (vec_first (cur :: T)) as [root|]; [|discriminate]. destruct (str_eqb root y) eqn:Er; [discriminate|].
  split; [eauto|]. intros Hm b Hb. now rewrite Hm, Hb in Hn.
Qed.

Definition lr_ok : Prop := forall x b, lookup x = Some b -> check (vfuel G) [x] b = CNone.

(* a chain of rules, each visited in the body of the next one: head = innermost *)
Fixpoint chain (V : list name) : Prop :=
  match V with
  | [] => True
  | v1 :: V' => (exists b, lookup v1 = Some b) /\ match V' with [] => True | v2 :: _ => ledge v2 v1 end /\ chain V'
  end.

Lemma chain_prefix l1 : forall x l2, chain (l1 ++ x :: l2) -> chain (l1 ++ [x]).
Proof.
  induction l1 as [|y l1 IH]; intros x l2 H.
  - cbn in *. tauto.
  - cbn [app chain] in *. destruct H as (H1 & H2 & H3). split; [auto|]. split.
    + destruct l1; cbn in *; auto.
    + eapply IH; eauto.
Qed.

Lemma chain_dfs : lr_ok -> forall S0, S0 <> [] -> NoDup S0 -> chain S0 ->
  exists f b1, lookup (hd [] S0) = Some b1 /\ check f S0 b1 = CNone.
Proof.
  intros Hok. induction S0 as [|v1 S' IH]; intros Hne Hnd Hch; [congruence|].
  cbn [chain] in Hch. destruct Hch as ((b1 & Hb1) & He & Hc). cbn [hd].
  destruct S' as [|v2 S''].
  - exists (vfuel G), b1. split; auto.
  - inversion Hnd as [|? ? Hni Hnd']; subst.
    destruct (IH ltac:(discriminate) Hnd' Hc) as (f & b2 & Hb2 & Hck). cbn [hd] in Hb2.
    destruct (check_none_lefts _ _ _ _ (lookup_defs _ _ _ Hb2) Hck) as (f' & -> & Hl).
    destruct He as (b2' & Hb2' & Hin). rewrite Hb2 in Hb2'. inversion Hb2'; subst b2'.
    destruct (Hl _ Hin) as [_ Hrec].
    exists f', b1. split; auto. apply Hrec; auto. now apply mem_false_In.
Qed.

Lemma chain_defs V : chain V -> incl V (defs G).
Proof.
  induction V as [|v V IH]; intros H x Hx; [destruct Hx|]. destruct H as ((b & Hb) & _ & H).
  destruct Hx as [<-|Hx]; [eapply lookup_defs; eauto|now apply IH].
Qed.

(* the heart of the termination argument: a left-call chain cannot re-enter one of its rules *)
Theorem no_reentry : lr_ok -> forall V x, NoDup V -> chain (x :: V) -> ~ In x V.
Proof.
  intros Hok V x Hnd (_ & Hedge & Hch) Hin.
  destruct (in_split _ _ Hin) as (l1 & l2 & ->).
  assert (Hch' : chain (l1 ++ [x])) by (eapply chain_prefix; eauto).
  assert (Hnd' : NoDup (l1 ++ [x])).
  { replace (l1 ++ x :: l2) with ((l1 ++ [x]) ++ l2) in Hnd by (rewrite <- app_assoc; reflexivity).
    now apply NoDup_app_l in Hnd. }
  destruct (chain_dfs Hok (l1 ++ [x]) ltac:(destruct l1; discriminate) Hnd' Hch') as (f & b1 & Hb1 & Hck).
  (* the chain up to x and the whole chain have the same head, whose body holds the edge to x *)
  assert (Hhd : exists cur T, l1 ++ [x] = cur :: T /\ ledge cur x) by (destruct l1; cbn in *; eauto).
  destruct Hhd as (cur & T & E & b & Hb & Hx). rewrite E in *. cbn [hd] in Hb1. rewrite Hb1 in Hb. inversion Hb; subst b.
  destruct (check_none_lefts _ _ _ _ (lookup_defs _ _ _ Hb1) Hck) as (f' & -> & Hl).
  destruct (Hl _ Hx) as [(root & Hr & Hne') _].
  rewrite <- E, vec_first_last in Hr. inversion Hr; subst root. rewrite str_eqb_refl in Hne'. discriminate.
Qed.

(* the references that check_expr visits in e are among those it visits in the body of the rule
   at the head of the chain *)
Definition LeftIn (V : list name) (e : expr) : Prop :=
  match V with [] => True | cur :: _ => forall y, In y (lefts true cur e) -> ledge cur y end.

Lemma LeftIn_sub V e e' : (forall cur, incl (lefts true cur e') (lefts true cur e)) -> LeftIn V e -> LeftIn V e'.
Proof. destruct V as [|cur V']; cbn; auto. intros Hi HL y Hy. apply HL, Hi, Hy. Qed.

Lemma LeftIn_seq_l V l r : LeftIn V (ESeq l r) -> LeftIn V l.
Proof.
  apply LeftIn_sub. intros cur. cbn [lefts].
  destruct (nullable_seeded G cur l) as [[|]|]; try apply incl_refl; apply incl_appl, incl_refl.
Qed.

(* the seeded nullable test of check_expr (`[trace.last()]`) agrees with nullability along the chain *)
Lemma LeftIn_seq_r V l r : Null G V l -> LeftIn V (ESeq l r) -> LeftIn V r.
Proof.
  destruct V as [|cur V']; cbn [LeftIn lefts]; auto. intros HN HL y Hy.
  assert (Hnp : np G (vfuel G) [cur] l <> Some false).
  { apply Null_np. eapply Null_antitone; [exact HN|]. intros x. rewrite !mem_cons. intros H.
    apply orb_true_iff in H as [->|H]; [reflexivity|discriminate]. }
  assert (Hn : nullable_seeded G cur l <> Some false).
  { unfold nullable_seeded. destruct (nf G (vfuel G) [cur] l) as [[|]|]; cbn [oor]; congruence. }
  apply HL. destruct (nullable_seeded G cur l) as [[|]|]; try congruence; apply in_or_app; now right.
Qed.

End LeftRec.
