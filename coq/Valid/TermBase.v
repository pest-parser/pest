(* Termination of Layer S on accepted grammars, part 1: the vocabulary.  The invariants of the main
   induction (TermCons.v) are stated on the big-step relation `bs` of Opt/Sem.v: a derivation IS
   termination, so no fuel is chosen or compared anywhere.                                      *)
From Coq Require Import String Ascii List Arith NArith ZArith Bool Lia.
Import ListNotations.
Require Import PV.Comb.PState PV.Comb.Bytes PV.Iter.Queue PV.Peg.Ast PV.Peg.Spec PV.Opt.Sem PV.Opt.SemProofs.
Require Import PV.Valid.Validator PV.Valid.Known PV.Valid.Nullable PV.Valid.Progress.

Section Base.
Variable G : grammar.
Variable extras : bool.
Variable uprop : name -> option (N -> bool).
Variable w : list byte.

Notation bs := (bs G extras uprop w).

Fixpoint reps_ok (e : expr) : Prop :=
  match e with
  | ERep x | ERepOnce x | ERepMin x _ => np G (vfuel G) [] x = Some false /\ reps_ok x
  | EPosPred x | ENegPred x | ERepExact x _ | ERepMax x _ | ERepMinMax x _ _ | EOpt x | EPush x | ENodeTag x _ => reps_ok x
  | ESeq l r | EChoice l r => reps_ok l /\ reps_ok r
  | _ => True
  end.

Inductive Reach : name -> name -> Prop :=
| Reach0 x : Reach x x
| ReachS y r z x : find_rule G y = Some r -> In z (idents (rexpr r)) -> Reach z x -> Reach y x.

Definition NAfree (y : name) : Prop := forall x, Reach y x -> nonatomic_rule G x = false.

(* the known class: the implicit WHITESPACE / COMMENT rule reaches a `!` rule *)
Definition KnownWs : Prop :=
  exists s x, is_special s = true /\ has_rule G s = true /\ Reach s x /\ nonatomic_rule G x = true.

(* phase: ph = true inside the implicit WHITESPACE / COMMENT (never NonAtomic again).
   `good ph e`: no stack-reading built-in, repetition bodies progressing, and in phase 1 no `!` rule
   in reach - as one structural predicate, so that it passes to sub-expressions by computation *)
Fixpoint good (ph : bool) (e : expr) : Prop :=
  match e with
  | EIdent n => stack_name n = false /\ (ph = true -> NAfree n)
  | EPeekSlice _ _ => False
  | ERep x | ERepOnce x | ERepMin x _ => np G (vfuel G) [] x = Some false /\ good ph x
  | EPosPred x | ENegPred x | ERepExact x _ | ERepMax x _ | ERepMinMax x _ _ | EOpt x | EPush x | ENodeTag x _ => good ph x
  | ESeq l r | EChoice l r => good ph l /\ good ph r
  | _ => True
  end.

Lemma good_intro ph e : stack_free e = true -> reps_ok e -> (ph = true -> forall y, In y (idents e) -> NAfree y) -> good ph e.
Proof.
  induction e; cbn [stack_free reps_ok idents good]; intros S R N; auto; try discriminate.
  - split; [now apply negb_true_iff|]. intros E. apply (N E). now left.
  - apply andb_true_iff in S. destruct S, R. split; [apply IHe1|apply IHe2]; auto; intros E y Hy; apply (N E), in_or_app; auto.
  - apply andb_true_iff in S. destruct S, R. split; [apply IHe1|apply IHe2]; auto; intros E y Hy; apply (N E), in_or_app; auto.
  - destruct R. auto.
  - destruct R. auto.
  - destruct R. auto.
Qed.

Lemma good_stack_free ph e : leaf G e = true -> good ph e -> stack_free e = true.
Proof. destruct e; try discriminate; cbn [good stack_free]; auto. now intros _ [-> _]. Qed.

Lemma calls_rule_soi n : calls_rule G n = true -> soi_eoi n = false.
Proof.
  unfold calls_rule, builtin_name, soi_eoi. intros H. apply andb_true_iff in H as [H _]. apply negb_true_iff in H.
  do 7 (apply orb_false_iff in H as [H _]). exact H.
Qed.

Definition ModeOK (ph : bool) (a : atom) : Prop := ph = true -> a <> NonAtomic.

(* e terminates at p, and a match that does not move is explained by the validator's nullability
   (with the rules of V cut) *)
Definition Sem (ph : bool) (V : list name) (p : nat) (e : expr) : Prop :=
  forall a emit sg, ModeOK ph a ->
  exists r, bs a emit (JE e) p sg r /\ (forall sg' f', r = SMatch p sg' f' -> Null G V e).

Definition SkipTerm (ph : bool) : Prop :=
  forall a emit p sg, ModeOK ph a -> p <= length w -> exists p' sg' f', bs a emit JSkip p sg (SMatch p' sg' f').

Lemma bs_not_fuel a emit j p sg : ~ bs a emit j p sg SFuel.
Proof. intros B. exact (bs_definite _ _ _ _ _ _ _ _ _ _ B eq_refl). Qed.

Lemma progressing V f x : np G f [] x = Some false -> ~ Null G V x.
Proof. intros H N. apply (Null_np G f [] x); [|exact H]. eapply Null_antitone; [exact N|discriminate]. Qed.

Lemma input_ind (P : nat -> Prop) :
  (forall q, q <= length w -> (forall q', q < q' <= length w -> P q') -> P q) -> forall q, q <= length w -> P q.
Proof.
  intros H q. remember (length w - q) as d eqn:Hd. revert q Hd.
  induction d as [d IH] using lt_wf_ind. intros q Hd Hq. apply H; [exact Hq|].
  intros q' Hq'. apply (IH (length w - q')); lia.
Qed.

End Base.
