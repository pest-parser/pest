(* What `validate ... = []` gives: the hypotheses of Termination.v, and the termination theorem
   for the repaired validator.                                                               *)
From Coq Require Import String Ascii List Arith NArith ZArith Bool Lia.
Import ListNotations.
Require Import PV.Comb.PState PV.Comb.Bytes PV.Iter.Queue PV.Peg.Ast PV.Peg.Spec.
Require Import PV.Valid.Validator PV.Valid.Known PV.Valid.Nullable PV.Valid.Progress PV.Valid.LeftRec
               PV.Valid.TermBase PV.Valid.TermCons PV.Valid.Termination.

Lemma flat_map_nil {A B} (f : A -> list B) l : flat_map f l = [] -> forall x, In x l -> f x = [].
Proof.
  induction l as [|y l IH]; cbn; intros H x Hx; [destruct Hx|].
  apply app_eq_nil in H. destruct H as [H1 H2]. destruct Hx as [<-|Hx]; auto.
Qed.

Section Accepted.
Variable kw builtin : name -> bool.
Variable cfg : vcfg.
Variable G : grammar.

Lemma validate_nil : validate kw builtin cfg G = [] ->
  validate_pairs kw builtin G = [] /\ reader_errors G = [] /\ validate_ast builtin cfg G = [].
Proof.
  unfold validate. destruct (validate_pairs kw builtin G); [|discriminate].
  destruct (reader_errors G); [|discriminate]. auto.
Qed.

Lemma validate_ast_nil : validate_ast builtin cfg G = [] ->
  validate_repetition cfg G = [] /\ validate_choices cfg G = [] /\ validate_whitespace_comment G = [] /\
  validate_left_recursion cfg G = [] /\ validate_tag_silent_rules builtin cfg G = [].
Proof.
  unfold validate_ast. intros H.
  apply app_eq_nil in H. destruct H as [H1 H]. apply app_eq_nil in H. destruct H as [H2 H].
  apply app_eq_nil in H. destruct H as [H3 H]. apply app_eq_nil in H. destruct H as [H4 H5]. auto.
Qed.

Lemma nf_np_errors_nil x e1 e2 : nf_np_errors G x e1 e2 = [] -> nf G (vfuel G) [] x = Some false /\ np G (vfuel G) [] x = Some false.
Proof.
  unfold nf_np_errors. destruct (nf G (vfuel G) [] x) as [[|]|]; try discriminate.
  destruct (np G (vfuel G) [] x) as [[|]|]; try discriminate. auto.
Qed.

Lemma lr_ok_of_validate : validate_left_recursion cfg G = [] -> lr_ok cfg G.
Proof.
  intros H x b Hb. destruct (lookup_In _ _ _ Hb) as (r & Hr & Hn & _).
  pose proof (flat_map_nil _ _ H r Hr) as Hc. cbn in Hc. rewrite Hn in Hc.
  unfold check_root in Hc. rewrite Hb in Hc.
  destruct (check cfg G (vfuel G) [x] b); try discriminate. reflexivity.
Qed.

Lemma ws_ok_of_validate : validate_whitespace_comment G = [] ->
  forall r, In r G -> is_ws_or_comment (rname r) = true -> np G (vfuel G) [] (rexpr r) = Some false.
Proof.
  intros H r Hr Hs. pose proof (flat_map_nil _ _ H r Hr) as Hc. cbn in Hc. rewrite Hs in Hc.
  now apply nf_np_errors_nil in Hc.
Qed.

Lemma reps_ok_of_nodes e : (fix_tag cfg = false -> tag_free e = true) ->
  Forall (fun node => rep_node_errors G node = []) (subnodes cfg e) -> reps_ok G e.
Proof.
  induction e; cbn [subnodes tag_free reps_ok]; intros Ht H; auto; apply Forall_cons_iff in H as [Hc H]; auto.
  - apply Forall_app in H as [H1 H2]. split; [apply IHe1|apply IHe2]; auto; intros E; apply Ht, andb_true_iff in E; tauto.
  - apply Forall_app in H as [H1 H2]. split; [apply IHe1|apply IHe2]; auto; intros E; apply Ht, andb_true_iff in E; tauto.
  - split; [now apply nf_np_errors_nil in Hc|auto].
  - split; [now apply nf_np_errors_nil in Hc|auto].
  - split; [now apply nf_np_errors_nil in Hc|auto].
  - destruct (fix_tag cfg); [apply IHe; [discriminate|exact H]|now specialize (Ht eq_refl)].
Qed.

Lemma reps_ok_of_validate : (fix_tag cfg = true \/ no_tags G = true) -> validate_repetition cfg G = [] ->
  forall r, In r G -> reps_ok G (rexpr r).
Proof.
  intros Ht H r Hr. apply reps_ok_of_nodes.
  - intros E. destruct Ht as [Ht|Ht]; [congruence|]. unfold no_tags in Ht. rewrite forallb_forall in Ht. now apply Ht.
  - apply Forall_forall. apply flat_map_nil. exact (flat_map_nil _ _ H r Hr).
Qed.

(* (=>) for the repaired validator, outside the known class *)
Theorem termination_fixed :
  fix_lr cfg = true -> (fix_tag cfg = true \/ no_tags G = true) ->
  validate kw builtin cfg G = [] -> no_stack_builtins G = true -> ~ KnownWs G ->
  forall extras uprop w r, exists fuel, eval G extras uprop w fuel NonAtomic true (EIdent r) 0 [] <> SFuel.
Proof.
  intros Hfix Ht Hv Hs Hk extras uprop w r.
  destruct (validate_nil Hv) as (_ & _ & Hast). destruct (validate_ast_nil Hast) as (H1 & _ & H3 & H4 & _).
  eapply (terminates_from_every_name cfg G extras uprop w Hfix Hs).
  - now apply lr_ok_of_validate.
  - now apply reps_ok_of_validate.
  - now apply ws_ok_of_validate.
  - exact Hk.
Qed.

End Accepted.
