(* Positions in Layer S, on its big-step presentation (Opt/Sem.v): a match never moves backwards
   and stays inside the input, and an expression evaluated in one step that does not move is one
   of the validator's nullable leaves.  Then the soundness of is_non_progressing with respect to
   Layer S: an expression that the validator calls progressing (result false) consumes at least
   one byte whenever it matches, for grammars without the stack-reading built-ins.             *)
From Coq Require Import String Ascii List Arith NArith ZArith Bool Lia.
Require Import PV.Peg.AstFacts.
Import ListNotations.
Require Import PV.Comb.PState PV.Comb.Bytes PV.Iter.Queue PV.Peg.Ast PV.Peg.Spec PV.Opt.Sem PV.Opt.SemProofs.
Require Import PV.Valid.Validator PV.Valid.Nullable.
Require PV.Comb.Frame.

Arguments Nat.sub : simpl never.

Lemma prefixb_length a : forall b, prefixb a b = true -> length a <= length b.
Proof. exact (Frame.prefixb_length a). Qed.
Lemma skipn_length_le {A} (l : list A) p : length (skipn p l) = length l - p.
Proof. apply skipn_length. Qed.

Definition pos_of (r : sres) (p : nat) : nat := match r with SMatch q _ _ => q | _ => p end.

Section Sem.
Variable G : grammar.
Variable extras : bool.
Variable uprop : name -> option (N -> bool).
Variable w : list byte.

Notation bs := (bs G extras uprop w).
Notation lit := (Spec.lit w).
Notation lit_all := (Spec.lit_all w).
Notation one_char := (Spec.one_char w).

Lemma lit_range s p q : lit s p = Some q -> p <= length w -> q = p + length s /\ q <= length w.
Proof.
  unfold Spec.lit. destruct (prefixb s (skipn p w)) eqn:E; [|discriminate].
  intros H Hp. inversion H; subst. apply prefixb_length in E. rewrite skipn_length in E. lia.
Qed.
Lemma lit_all_range l : forall p q, lit_all l p = Some q -> p <= length w -> p <= q <= length w.
Proof.
  induction l as [|s l IH]; cbn [Spec.lit_all]; intros p q H Hp.
  - inversion H; subst. lia.
  - destruct (lit s p) as [q1|] eqn:E; [|discriminate]. apply lit_range in E; auto.
    apply IH in H; lia.
Qed.
Lemma one_char_range ok p sg p' sg' f' : one_char ok p sg = SMatch p' sg' f' -> p <= length w -> p < p' <= length w.
Proof.
  unfold Spec.one_char, Spec.char_here. destruct (decode1 (skipn p w)) as [[c n]|] eqn:E; [|discriminate].
  destruct (ok c); [|discriminate]. intros H Hp. inversion H; subst.
  apply Frame.decode1_length in E. rewrite skipn_length in E. lia.
Qed.

(* the leaves that can match without moving are the empty literals, SOI / EOI, PUSH of a literal and
   Skip - and the built-ins that read the stack, which `stack_free` excludes *)
Lemma leaf_match V a emit e p sg p' sg' f' :
  leaf G e = true -> eval G extras uprop w 1 a emit e p sg = SMatch p' sg' f' -> p <= length w ->
  p <= p' <= length w /\ (p' = p -> stack_free e = true -> Null G V e).
Proof.
  intros L H Hp. destruct e; try discriminate L; cbn [Spec.eval] in H.
  - destruct (lit s p) eqn:E; inversion H; subst. apply lit_range in E as [-> ?]; [|exact Hp].
    split; [lia|]. intros E _. destruct s; [constructor|cbn [length] in E; lia].
  - destruct (_ && _) eqn:E; inversion H; subst. apply andb_true_iff in E as [E _].
    unfold boundaryb in E. destruct (Nat.compare_spec (p + length s) (length w)); try discriminate; (split; [lia|]);
      intros E' _; (destruct s; [constructor|cbn [length] in E'; lia]).
  - apply one_char_range in H; [|exact Hp]. split; lia.
  - (* a built-in or an undefined name *)
    assert (C : forall q, lit_all sg p = Some q -> q = p' -> p <= p' <= length w)
      by (intros q E <-; now apply lit_all_range in E).
    assert (C1 : forall s q, lit s p = Some q -> q = p' -> p < p' + (1 - length s) /\ p' <= length w)
      by (intros s q E <-; apply lit_range in E; [lia|exact Hp]).
    cbn [leaf] in L. unfold calls_rule, builtin_name, has_rule in L. unfold stack_free, stack_name.
    repeat match type of H with (if str_eqb ?x ?y then _ else _) = _ => destruct (str_eqb x y) eqn:? end;
      cbn [orb negb]; rewrite ?orb_true_r.
    + destruct (Nat.eqb p 0); inversion H; subst. split; [lia|]. intros _ _. apply NSoi. unfold soi_eoi. apply orb_true_iff. auto.
    + destruct (Nat.eqb p (length w)); inversion H; subst. split; [lia|]. intros _ _. apply NSoi. unfold soi_eoi. apply orb_true_iff. auto.
    + destruct sg as [|top sg0]; [discriminate|]. destruct (lit top p) eqn:E; inversion H; subst. apply (C1 top) in E; auto. split; [lia|discriminate].
    + destruct sg as [|top sg0]; [discriminate|]. destruct (lit top p) eqn:E; inversion H; subst. apply (C1 top) in E; auto. split; [lia|discriminate].
    + destruct sg; inversion H; subst. split; [lia|discriminate].
    + destruct (lit_all sg p) eqn:E; inversion H; subst. split; [eauto|discriminate].
    + destruct (lit_all sg p) eqn:E; inversion H; subst. split; [eauto|discriminate].
    + destruct (lit [10%N] p) eqn:E1; [inversion H; subst; apply C1 in E1; auto; cbn [length] in E1; split; lia|].
      destruct (lit [13%N; 10%N] p) eqn:E2; [inversion H; subst; apply C1 in E2; auto; cbn [length] in E2; split; lia|].
      destruct (lit [13%N] p) eqn:E3; inversion H; subst. apply C1 in E3; auto. cbn [length] in E3. split; lia.
    + assert (O : forall ok, one_char ok p sg = SMatch p' sg' f' -> p <= p' <= length w /\ (p' = p -> true = true -> Null G V (EIdent n)))
        by (intros ok E; apply one_char_range in E; [split; lia|exact Hp]).
      destruct (ascii_builtin n); [eauto|].
      destruct (find_rule G n); [discriminate L|]. destruct (uprop n); [eauto|discriminate].
  - split; [|discriminate].
    destruct (norm_idx i (length sg)); [|discriminate].
    destruct (match j with Some j' => norm_idx j' (length sg) | None => Some (length sg) end); [|discriminate].
    destruct (Nat.leb _ _); [inversion H; subst; lia|].
    destruct (lit_all _ p) eqn:E; inversion H; subst. now apply lit_all_range in E.
  - inversion H; subst. split; [now apply Frame.skip_until_basic_ok|constructor].
  - inversion H; subst. split; [lia|constructor].
Qed.

Theorem bs_range a emit j p sg r : bs a emit j p sg r -> p <= length w -> p <= pos_of r p <= length w.
Proof.
  induction 1; intros Hp; cbn [pos_of] in *; try lia;
    try (destruct res; cbn [pos_of map_forest wrap_call] in *; lia).
  destruct (eval G extras uprop w 1 a emit e p sg) eqn:E; cbn [pos_of]; try lia.
  eapply (leaf_match []); eauto.
Qed.
Corollary bs_match_range a emit j p sg p' sg' f' : bs a emit j p sg (SMatch p' sg' f') -> p <= length w -> p <= p' <= length w.
Proof. apply bs_range. Qed.

Notation eval := (Spec.eval G extras uprop w).

Lemma eval_range n a emit e p sg p' sg' f' : eval n a emit e p sg = SMatch p' sg' f' -> p <= length w -> p <= p' <= length w.
Proof. intros H. eapply bs_match_range, bs_complete; [exact H|discriminate]. Qed.
Lemma skip_range n k a emit p sg p' sg' f' : skip_with G (eval n) k a emit p sg = SMatch p' sg' f' -> p <= length w -> p <= p' <= length w.
Proof. intros H. eapply bs_match_range, (skip_complete G extras uprop w n (bs_complete G extras uprop w n)); [exact H|discriminate]. Qed.
Lemma rep_from_range n k a emit x p sg acc p' sg' f' :
  rep_from_with G (eval n) k a emit x p sg acc = SMatch p' sg' f' -> p <= length w -> p <= p' <= length w.
Proof. intros H. eapply bs_match_range, (rep_complete G extras uprop w n (bs_complete G extras uprop w n)); [exact H|discriminate]. Qed.

Lemma body_stack_free n r : no_stack_builtins G = true -> find_rule G n = Some r -> stack_free (rexpr r) = true.
Proof.
  intros HS H. apply find_rule_In in H as [H _].
  unfold no_stack_builtins in HS. rewrite forallb_forall in HS. now apply HS.
Qed.

Hypothesis HS : no_stack_builtins G = true.

Definition Prog (n : nat) (e : expr) : Prop :=
  forall m a emit p sg p' sg' f', m <= n -> p <= length w -> eval m a emit e p sg = SMatch p' sg' f' -> p < p'.

Lemma seq_first_progress n x rest u : Prog n x -> seq_of (x :: rest) = Some u -> Prog n u.
Proof.
  intros Hx Hu. cbn [seq_of] in Hu.
  assert (Hc : u = x \/ exists y, u = ESeq x y).
  { destruct rest as [|z rest']; [inversion Hu; auto|].
    destruct (seq_of (z :: rest')); inversion Hu; eauto. }
  destruct Hc as [->|[y ->]]; auto.
  intros m a emit p sg p' sg' f' Hm Hp H. destruct m as [|m]; [discriminate|]. cbn [Spec.eval] in H.
  destruct (eval m a emit x p sg) as [p1 sg1 f1| |] eqn:E1; try discriminate.
  destruct (skip_with G _ m a emit p1 sg1) as [p2 sg2 f2| |] eqn:E2; try discriminate.
  destruct (eval m a emit y p2 sg2) as [p3 sg3 f3| |] eqn:E3; try discriminate.
  inversion H; subst.
  assert (p < p1) by (eapply Hx; [|exact Hp|exact E1]; lia).
  pose proof (eval_range _ _ _ _ _ _ _ _ _ E1 Hp).
  pose proof (skip_range _ _ _ _ _ _ _ _ _ E2 ltac:(lia)).
  pose proof (eval_range _ _ _ _ _ _ _ _ _ E3 ltac:(lia)). lia.
Qed.

(* Induction on the evaluation fuel.  The `trace` cut ("a rule already on the trace counts as
   progressing") is justified by the induction hypothesis at smaller fuel, so no assumption about
   left recursion is needed.  Leaves: one that does not move is nullable (leaf_match), which the
   validator does not call progressing (Null_np). *)
Theorem np_sound n : forall f t e, stack_free e = true -> np G f t e = Some false ->
  (forall x, In x t -> Prog n (EIdent x)) -> Prog n e.
Proof.
  induction n as [|n IH]; intros f t e Hst Hnp Ht m a emit p sg p' sg' f' Hm Hp H.
  { assert (m = 0) by lia. subst. discriminate. }
  destruct m as [|m]; [discriminate|]. assert (Hmn : m <= n) by lia.
  assert (Ht' : forall x, In x t -> Prog n (EIdent x)) by (intros x Hx m0 a0 emit0 p0 sg0 q0 sg0' f0' Hm0; apply (Ht x Hx); lia).
  destruct (leaf G e) eqn:L.
  { rewrite eval_leaf in H by exact L. destruct (leaf_match t _ _ _ _ _ _ _ _ L H Hp) as [R Z].
    assert (p' <> p); [|lia]. intros E. exact (Null_np G f t e (Z E Hst) Hnp). }
  destruct f as [|f]; [discriminate|].
  assert (SUB : forall x, stack_free x = true -> np_e G (np G f) t x = Some false -> Prog n x).
  { intros x Hsx Hx. apply (IH (S f) t x Hsx); auto. }
  cbn [np] in Hnp.
  destruct e; try discriminate L; cbn [np_e] in Hnp; cbn [stack_free] in Hst; try discriminate Hnp.
  - destruct (_ || _) eqn:Es; [discriminate|]. destruct (mem n0 t) eqn:Em.
    { (* the trace cut: the rule is on the trace, it progresses by assumption *)
      apply mem_In in Em. exact (Ht _ Em (S m) a emit p sg p' sg' f' Hm Hp H). }
    apply negb_false_iff in L. unfold lookup in Hnp. destruct (find_rule G n0) as [rl|] eqn:Ef;
      [|unfold calls_rule, has_rule in L; rewrite Ef, andb_false_r in L; discriminate].
    rewrite (eval_call G extras uprop w m a emit n0 rl p sg L Ef) in H.
    destruct (eval m _ emit (rexpr rl) p sg) as [q sg2 f2| |] eqn:E; inversion H; subst.
    assert (HP : Prog n (rexpr rl)); [|eapply HP; [|exact Hp|exact E]; lia].
    apply (IH f (n0 :: t)); [eapply body_stack_free; eauto|exact Hnp|].
    intros x [<-|Hx]; [|auto].
    (* the rule itself, at smaller evaluation fuel: the induction hypothesis again *)
    apply (IH (S f) t (EIdent n0)); auto.
    cbn [np np_e]. rewrite Es, Em. unfold lookup. now rewrite Ef.
  - apply andb_true_iff in Hst as [Hs1 Hs2]. cbn [Spec.eval] in H.
    destruct (eval m a emit e1 p sg) as [p1 sg1 f1| |] eqn:E1; try discriminate.
    destruct (skip_with G _ m a emit p1 sg1) as [p2 sg2 f2| |] eqn:E2; try discriminate.
    destruct (eval m a emit e2 p2 sg2) as [p3 sg3 f3| |] eqn:E3; inversion H; subst.
    pose proof (eval_range _ _ _ _ _ _ _ _ _ E1 Hp) as R1.
    pose proof (skip_range _ _ _ _ _ _ _ _ _ E2 ltac:(lia)) as R2.
    pose proof (eval_range _ _ _ _ _ _ _ _ _ E3 ltac:(lia)) as R3.
    destruct (np_e G (np G f) t e1) as [[|]|] eqn:N1; cbn [oand] in Hnp; try discriminate.
    + assert (p2 < p') by (eapply (SUB e2 Hs2 Hnp); [| |exact E3]; lia). lia.
    + assert (p < p1) by (eapply (SUB e1 Hs1 N1); [|exact Hp|exact E1]; lia). lia.
  - apply andb_true_iff in Hst as [Hs1 Hs2]. cbn [Spec.eval] in H.
    destruct (np_e G (np G f) t e1) as [[|]|] eqn:N1; cbn [oor] in Hnp; try discriminate.
    destruct (eval m a emit e1 p sg) as [p1 sg1 f1| |] eqn:E1; try discriminate.
    + inversion H; subst. eapply (SUB e1 Hs1 N1); [|exact Hp|exact E1]; lia.
    + eapply (SUB e2 Hs2 Hnp); [|exact Hp|exact H]; lia.
  - destruct (Bool.bool_dec (negb extras) false) as [X|X]; [|apply not_false_is_true in X].
    + rewrite eval_rep1_x in H by exact X.
      destruct (eval m a emit e p sg) as [p1 sg1 f1| |] eqn:E1; try discriminate.
      assert (p < p1) by (eapply (SUB e Hst Hnp); [|exact Hp|exact E1]; lia).
      pose proof (eval_range _ _ _ _ _ _ _ _ _ E1 Hp). apply rep_from_range in H; lia.
    + rewrite eval_rep1_d in H by exact X.
      eapply (seq_first_progress n e [ERep e] _ (SUB e Hst Hnp) eq_refl); [|exact Hp|exact H]; lia.
  - destruct (n_is_zero n0) eqn:Ez; [discriminate|]. cbn [Spec.eval unroll_node] in H.
    destruct (N.to_nat n0) as [|k] eqn:Hk; [apply N.eqb_neq in Ez; lia|].
    destruct (seq_of (repeatn (S k) e)) as [u|] eqn:Eu; [|discriminate].
    eapply (seq_first_progress n e _ u (SUB e Hst Hnp) Eu); [|exact Hp|exact H]; lia.
  - destruct (n_is_zero n0) eqn:Ez; [discriminate|]. cbn [Spec.eval unroll_node] in H.
    destruct (N.to_nat n0) as [|k] eqn:Hk; [apply N.eqb_neq in Ez; lia|].
    destruct (seq_of (repeatn (S k) e ++ [ERep e])) as [u|] eqn:Eu; [|discriminate].
    eapply (seq_first_progress n e _ u (SUB e Hst Hnp) Eu); [|exact Hp|exact H]; lia.
  - destruct (n_is_zero m0) eqn:Ez; [discriminate|]. cbn [Spec.eval unroll_node] in H.
    destruct (N.to_nat m0) as [|k] eqn:Hk; [apply N.eqb_neq in Ez; lia|].
    destruct (N.to_nat n0) as [|k2]; [discriminate|].
    destruct (seq_of _) as [u|] eqn:Eu; [|discriminate].
    eapply (seq_first_progress n e _ u (SUB e Hst Hnp) Eu); [|exact Hp|exact H]; lia.
  - cbn [Spec.eval] in H. destruct (eval m a emit e p sg) as [p1 sg1 f1| |] eqn:E1; inversion H; subst.
    eapply (SUB e Hst Hnp); [|exact Hp|exact E1]; lia.
  - cbn [Spec.eval] in H. destruct (eval m a emit e p sg) as [p1 sg1 f1| |] eqn:E1; inversion H; subst.
    eapply (SUB e Hst Hnp); [|exact Hp|exact E1]; lia.
Qed.

Corollary np_sound_nil f e m a emit p sg p' sg' f' :
  stack_free e = true -> np G f [] e = Some false -> p <= length w ->
  eval m a emit e p sg = SMatch p' sg' f' -> p < p'.
Proof.
  intros Hs Hn Hp H. eapply (np_sound m f [] e Hs Hn); [intros x []|apply le_n|exact Hp|exact H].
Qed.

End Sem.
