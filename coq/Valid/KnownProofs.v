(* The boolean `ws_reaches_nonatomic` (a DFS with the path as trace, as the validator's own
   searches) decides the known class `KnownWs` from above: whenever WHITESPACE / COMMENT reach a
   `!` rule, the boolean is true.  (Completeness of a path-cut DFS: take a path, cut it after
   the last occurrence of the node just entered.)                                            *)
From Coq Require Import String Ascii List Arith NArith ZArith Bool Lia.
Require Import PV.Peg.AstFacts.
Import ListNotations.
Require Import PV.Comb.PState PV.Peg.Ast PV.Peg.Spec PV.Valid.Validator PV.Valid.Known PV.Valid.Nullable PV.Valid.TermBase.

Section KP.
Variable G : grammar.

Inductive Path : expr -> list name -> Prop :=
| Path1 e x : In x (idents e) -> nonatomic_rule G x = true -> Path e [x]
| PathS e x r l : In x (idents e) -> find_rule G x = Some r -> Path (rexpr r) l -> Path e (x :: l).

Lemma path_idents e e' l : Path e l -> incl (idents e) (idents e') -> Path e' l.
Proof. intros H Hi. inversion H; subst; [apply Path1|eapply PathS]; eauto. Qed.

Lemma reach_path s x : Reach G s x -> nonatomic_rule G x = true -> exists l, Path (EIdent s) l.
Proof.
  induction 1; intros Hn.
  - exists [x]. apply Path1; cbn; auto.
  - destruct (IHReach Hn) as [l Hl]. exists (y :: l). eapply PathS; cbn; eauto.
    eapply path_idents; [exact Hl|]. intros z' [<-|[]]. assumption.
Qed.

Lemma path_last e l : Path e l -> exists l0 z, l = l0 ++ [z] /\ nonatomic_rule G z = true.
Proof.
  induction 1.
  - exists [], x. auto.
  - destruct IHPath as (l0 & z & -> & Hz). exists (x :: l0), z. auto.
Qed.

Lemma path_suffix l1 : forall e x l2, Path e (l1 ++ x :: l2) -> l2 <> [] -> exists r, find_rule G x = Some r /\ Path (rexpr r) l2.
Proof.
  induction l1 as [|y l1 IH]; intros e x l2 H Hne; cbn [app] in H; inversion H; subst.
  - congruence.
  - eauto.
  - destruct l1; discriminate.
  - eapply IH; eauto.
Qed.

Lemma path_avoid n : forall l, length l <= n -> forall x r, find_rule G x = Some r -> nonatomic_rule G x = false ->
  Path (rexpr r) l -> exists l', Path (rexpr r) l' /\ ~ In x l' /\ incl l' l.
Proof.
  induction n as [|n IH]; intros l Hlen x r Hf Hna Hp.
  - destruct l; [inversion Hp|cbn in Hlen; lia].
  - destruct (mem x l) eqn:Em.
    2:{ exists l. split; auto. split; [now apply mem_false_In|apply incl_refl]. }
    apply mem_In in Em. destruct (in_split _ _ Em) as (l1 & l2 & ->).
    destruct l2 as [|z l2].
    + exfalso. destruct (path_last _ _ Hp) as (l0 & z & E & Hz).
      apply app_inj_tail in E. destruct E as [_ <-]. congruence.
    + destruct (path_suffix _ _ _ _ Hp ltac:(discriminate)) as (r' & Hf' & Hp').
      rewrite Hf in Hf'. inversion Hf'; subst r'.
      destruct (IH (z :: l2)) with (x := x) (r := r) as (l' & A & B & C); auto.
      { rewrite app_length in Hlen. cbn [length] in *. lia. }
      exists l'. split; auto. split; auto. eapply incl_tran; [exact C|]. apply incl_appr. apply incl_tl. apply incl_refl.
Qed.

Lemma rna_complete f : forall t e l, Path e l -> (forall y, In y l -> mem y t = false) -> rna G f t e = true.
Proof.
  induction f as [|f IH]; intros t e l Hp Hav; [reflexivity|].
  cbn [rna]. apply existsb_exists.
  inversion Hp; subst.
  - exists x. split; auto. rewrite (Hav x) by now left. cbn [negb andb].
    pose proof H0 as Hn. unfold nonatomic_rule in H0. destruct (find_rule G x); [|discriminate]. now rewrite Hn.
  - exists x. split; auto. rewrite (Hav x) by now left. cbn [negb andb]. rewrite H0.
    destruct (nonatomic_rule G x) eqn:Hn; [reflexivity|]. cbn [orb].
    destruct (path_avoid (length l0) l0 (le_n _) x r H0 Hn H1) as (l' & A & B & C).
    apply (IH _ _ l'); auto. intros y Hy. rewrite mem_cons. apply orb_false_iff. split.
    + apply str_eqb_neq. intros ->. contradiction.
    + apply Hav. right. now apply C.
Qed.

Theorem ws_reaches_nonatomic_complete : KnownWs G -> ws_reaches_nonatomic G = true.
Proof.
  intros (s & x & Hs & Hh & Hr & Hn). unfold ws_reaches_nonatomic.
  destruct (reach_path _ _ Hr Hn) as [l Hl].
  assert (Hrna : rna G (S (length G)) [] (EIdent s) = true) by (eapply rna_complete; eauto).
  unfold is_special in Hs. apply orb_true_iff in Hs. destruct Hs as [Hs|Hs]; apply str_eqb_eq in Hs; subst s;
    cbn [existsb]; rewrite Hh, Hrna; cbn; auto. now rewrite orb_true_r.
Qed.

Corollary not_known_ws : ws_reaches_nonatomic G = false -> ~ KnownWs G.
Proof. intros H Hk. apply ws_reaches_nonatomic_complete in Hk. congruence. Qed.

End KP.
