(* Termination of Layer S on grammars accepted by the REPAIRED validator, part 2: at a fixed
   position p, assuming that everything terminates at later positions (Later) and that the implicit
   skip terminates (Hskip).  Each constructor preserves `Sem` (termination + "a match that does not
   move is explained by the validator's nullability"); `inner` is the induction on (rules not yet
   on the chain of calls made at p, expression).  A rule call at p extends the chain;
   LeftRec.no_reentry says that it cannot be a rule of the chain.                              *)
From Coq Require Import String Ascii List Arith NArith ZArith Bool Lia.
Require Import PV.Peg.AstFacts.
Import ListNotations.
Require Import PV.Comb.PState PV.Comb.Bytes PV.Iter.Queue PV.Peg.Ast PV.Peg.Spec PV.Opt.Sem.
Require Import PV.Valid.Validator PV.Valid.Known PV.Valid.Nullable PV.Valid.Progress PV.Valid.LeftRec PV.Valid.TermBase.

Section Cons.
Variable cfg : vcfg.
Variable G : grammar.
Variable extras : bool.
Variable uprop : name -> option (N -> bool).
Variable w : list byte.
Hypothesis Hfix : fix_lr cfg = true.
Hypothesis HS : no_stack_builtins G = true.
Hypothesis HLR : lr_ok cfg G.
Hypothesis HRep : forall r, In r G -> reps_ok G (rexpr r).

Notation bs := (bs G extras uprop w).
Notation good := (good G).
Notation Null := (Null G).

Variable ph : bool.
Variable p : nat.
Hypothesis Hp : p <= length w.
Notation Sem := (Sem G extras uprop w ph).
Hypothesis Later : forall q, p < q <= length w -> forall e, good ph e -> Sem [] q e.
Hypothesis Hskip : SkipTerm G extras uprop w ph.

Lemma Sem_leaf V e : leaf G e = true -> good ph e -> Sem V p e.
Proof.
  intros L Hg a emit sg _. eexists. split; [now apply bs_leaf|]. intros sg' f' E.
  apply (leaf_match G extras uprop w V) in E as [_ E]; auto. apply E; [reflexivity|]. eapply good_stack_free; eauto.
Qed.

(* evaluation at position q >= p: at p through the given Sem, later through Later *)
Lemma at_or_later V e q : p <= q <= length w -> good ph e -> (q = p -> Sem V p e) ->
  forall a emit sg, ModeOK ph a ->
  exists r, bs a emit (JE e) q sg r /\ (forall sg' f', r = SMatch p sg' f' -> q = p /\ Null V e).
Proof.
  intros Hq Hg Hs a emit sg Hm.
  destruct (Nat.eq_dec q p) as [->|Hne].
  - destruct (Hs eq_refl a emit sg Hm) as (r & B & Z). eauto.
  - destruct (Later q ltac:(lia) e Hg a emit sg Hm) as (r & B & _). exists r. split; [exact B|].
    intros sg' f' ->. apply bs_match_range in B; lia.
Qed.

Lemma Sem_seq V l r : good ph r -> Sem V p l -> (Null V l -> Sem V p r) -> Sem V p (ESeq l r).
Proof.
  intros Hg Hl Hr a emit sg Hm.
  destruct (Hl a emit sg Hm) as ([p1 sg1 f1| |] & B1 & Z1); [|exists SFail; split; [now apply bs_seq_l|discriminate]|now apply bs_not_fuel in B1].
  pose proof (bs_match_range _ _ _ _ _ _ _ _ _ _ _ _ B1 Hp) as R1.
  destruct (Hskip a emit p1 sg1 Hm ltac:(lia)) as (p2 & sg2 & f2 & B2).
  pose proof (bs_match_range _ _ _ _ _ _ _ _ _ _ _ _ B2 ltac:(lia)) as R2.
  assert (Z1' : p2 = p -> Null V l) by (intros ->; assert (p1 = p) by lia; subst p1; eauto).
  destruct (at_or_later V r p2 ltac:(lia) Hg (fun E => Hr (Z1' E)) a emit sg2 Hm) as (r3 & B3 & Z3).
  eexists. split; [eapply bs_seq; eauto|].
  intros sg' f' E. destruct r3; inversion E; subst. destruct (Z3 _ _ eq_refl). constructor; auto.
Qed.

Lemma Sem_cho V l r : Sem V p l -> Sem V p r -> Sem V p (EChoice l r).
Proof.
  intros Hl Hr a emit sg Hm. destruct (Hl a emit sg Hm) as ([p1 sg1 f1| |] & B1 & Z1).
  - eexists. split; [apply bs_cho_l, B1|]. intros sg' f' E. apply NChoL. eauto.
  - destruct (Hr a emit sg Hm) as (r2 & B2 & Z2). exists r2. split; [now apply bs_cho_r|]. intros sg' f' E. apply NChoR. eauto.
  - now apply bs_not_fuel in B1.
Qed.

Lemma Sem_opt V x : Sem V p x -> Sem V p (EOpt x).
Proof. intros Hx a emit sg Hm. destruct (Hx a emit sg Hm) as (r & B & _). eexists. split; [apply bs_opt, B|constructor]. Qed.
Lemma Sem_pos V x : Sem V p x -> Sem V p (EPosPred x).
Proof. intros Hx a emit sg Hm. destruct (Hx a false sg Hm) as (r & B & _). eexists. split; [apply bs_pos, B|constructor]. Qed.
Lemma Sem_neg V x : Sem V p x -> Sem V p (ENegPred x).
Proof. intros Hx a emit sg Hm. destruct (Hx a false sg Hm) as (r & B & _). eexists. split; [apply bs_neg, B|constructor]. Qed.
Lemma Sem_push V x : Sem V p x -> Sem V p (EPush x).
Proof.
  intros Hx a emit sg Hm. destruct (Hx a emit sg Hm) as (r & B & Z). eexists. split; [apply bs_push, B|].
  intros sg' f' E. destruct r; inversion E; subst. constructor. eauto.
Qed.
Lemma Sem_tag V x t : Sem V p x -> Sem V p (ENodeTag x t).
Proof.
  intros Hx a emit sg Hm. destruct (Hx a emit sg Hm) as (r & B & Z). eexists. split; [apply bs_tag, B|].
  intros sg' f' E. destruct r; inversion E; subst. constructor. eauto.
Qed.

(* repetitions: the body moves (it is not nullable), so the loop runs on later positions *)
Lemma rep_from_term x f0 a emit : good ph x -> np G f0 [] x = Some false -> ModeOK ph a ->
  forall q, q <= length w -> p < q -> forall sg acc, exists q' sg' f', bs a emit (JRep x acc) q sg (SMatch q' sg' f').
Proof.
  intros Hg Hnp Hm. apply (input_ind w (fun q => p < q -> forall sg acc, exists q' sg' f', bs a emit (JRep x acc) q sg (SMatch q' sg' f'))).
  intros q Hq IH Hpq sg acc.
  destruct (Hskip a emit q sg Hm Hq) as (q1 & sg1 & f1 & B1).
  pose proof (bs_match_range _ _ _ _ _ _ _ _ _ _ _ _ B1 Hq) as R1.
  destruct (Later q1 ltac:(lia) x Hg a emit sg1 Hm) as ([q2 sg2 f2| |] & B2 & Z2).
  - pose proof (bs_match_range _ _ _ _ _ _ _ _ _ _ _ _ B2 ltac:(lia)) as R2.
    assert (q2 <> q1) by (intros ->; eapply progressing; eauto).
    destruct (IH q2 ltac:(lia) ltac:(lia) sg2 (acc ++ f1 ++ f2)) as (q' & sg' & f' & B3).
    do 3 eexists. eapply bs_rep_step; eauto.
  - do 3 eexists. eapply bs_rep_stop; eauto.
  - now apply bs_not_fuel in B2.
Qed.

(* the common part of `*` and `+` (grammar-extras): after a first match of the body *)
Lemma rep_after_first V x f0 a emit sg p1 sg1 f1 : good ph x -> np G f0 [] x = Some false -> ModeOK ph a ->
  bs a emit (JE x) p sg (SMatch p1 sg1 f1) -> (forall sg' f', SMatch p1 sg1 f1 = SMatch p sg' f' -> Null V x) ->
  exists q' sg' f', bs a emit (JRep x f1) p1 sg1 (SMatch q' sg' f') /\ p < q'.
Proof.
  intros Hg Hnp Hm B1 Z1. pose proof (bs_match_range _ _ _ _ _ _ _ _ _ _ _ _ B1 Hp) as R1.
  assert (p1 <> p) by (intros ->; eapply progressing; eauto).
  destruct (rep_from_term x f0 a emit Hg Hnp Hm p1 ltac:(lia) ltac:(lia) sg1 f1) as (q' & sg' & f' & B2).
  pose proof (bs_match_range _ _ _ _ _ _ _ _ _ _ _ _ B2 ltac:(lia)). do 3 eexists. split; [exact B2|lia].
Qed.

Lemma Sem_rep V x f0 : good ph x -> np G f0 [] x = Some false -> Sem V p x -> Sem V p (ERep x).
Proof.
  intros Hg Hnp Hx a emit sg Hm. destruct (Hx a emit sg Hm) as ([p1 sg1 f1| |] & B1 & Z1).
  - destruct (rep_after_first V x f0 a emit sg p1 sg1 f1) as (q' & sg' & f' & B2 & _); eauto.
    eexists. split; [eapply bs_rep; eauto|constructor].
  - eexists. split; [apply bs_rep_0, B1|constructor].
  - now apply bs_not_fuel in B1.
Qed.

Lemma Sem_reponce V x : good ph x -> np G (vfuel G) [] x = Some false -> Sem V p x -> Sem V p (ERepOnce x).
Proof.
  intros Hg Hnp Hx. destruct (negb extras) eqn:Ex.
  - (* read as x ~ x* *)
    assert (Hs : Sem V p (ESeq x (ERep x))) by (apply Sem_seq; [split; assumption|exact Hx|intros _; eapply Sem_rep; eauto]).
    intros a emit sg Hm. destruct (Hs a emit sg Hm) as (r & B & Z). exists r. split; [now apply bs_rep1d|].
    intros sg' f' E. specialize (Z _ _ E). inversion Z. now constructor.
  - intros a emit sg Hm. destruct (Hx a emit sg Hm) as ([p1 sg1 f1| |] & B1 & Z1).
    + destruct (rep_after_first V x (vfuel G) a emit sg p1 sg1 f1) as (q' & sg' & f' & B2 & Hq); eauto.
      eexists. split; [eapply bs_rep1x; eauto|]. intros sg'' f'' E. inversion E. lia.
    + exists SFail. split; [now apply bs_rep1x_0|discriminate].
    + now apply bs_not_fuel in B1.
Qed.

Lemma Sem_seq_of V l : (forall y, In y l -> good ph y /\ Sem V p y) -> forall u, seq_of l = Some u -> good ph u /\ Sem V p u.
Proof.
  induction l as [|y l IH]; intros H u E; [discriminate|]. cbn [seq_of] in E.
  destruct (H y (or_introl eq_refl)) as [Gy Sy].
  destruct l as [|z l']; [inversion E; subst; auto|].
  destruct (seq_of (z :: l')) as [u'|]; inversion E; subst; auto.
  destruct (IH (fun y' Hy' => H y' (or_intror Hy')) u' eq_refl) as [Gu Su].
  split; [split; assumption|apply Sem_seq; auto].
Qed.

Lemma Null_seq_hd V x l u : seq_of (x :: l) = Some u -> Null V u -> Null V x.
Proof.
  cbn [seq_of]. destruct l as [|z l']; [now intros [= <-]|].
  destruct (seq_of (z :: l')); intros [= <-] N; [now inversion N|exact N].
Qed.

Lemma Sem_bounded V e l : is_bounded e = true -> unroll_node extras e = seq_of l ->
  (forall y, In y l -> good ph y /\ Sem V p y) -> (forall u, seq_of l = Some u -> Null V u -> Null V e) -> Sem V p e.
Proof.
  intros Hb Hu Hl HN a emit sg Hm. destruct (seq_of l) as [u|] eqn:Eu.
  - destruct (Sem_seq_of V l Hl u Eu) as [_ Su]. destruct (Su a emit sg Hm) as (r & B & Z).
    exists r. split; [eapply bs_bounded; eauto|]. intros sg' f' E. eapply HN; eauto.
  - exists SFail. split; [now apply bs_bounded_none|discriminate].
Qed.

Lemma in_repeatn k (x y : expr) : In y (repeatn k x) -> y = x.
Proof. unfold repeatn. apply repeat_spec. Qed.
Lemma zero_to_nat k : N.to_nat k = 0 -> n_is_zero k = true.
Proof. intros H. apply N.eqb_eq. lia. Qed.

Lemma Sem_repexact V x k : good ph x -> Sem V p x -> Sem V p (ERepExact x k).
Proof.
  intros Hg Hx. apply (Sem_bounded V _ (repeatn (N.to_nat k) x)); try reflexivity.
  - intros y Hy. apply in_repeatn in Hy as ->. auto.
  - intros u Eu N. apply NRepExact. destruct (N.to_nat k); [discriminate|]. exact (Null_seq_hd V x _ u Eu N).
Qed.
Lemma Sem_repmax V x k : good ph x -> Sem V p x -> Sem V p (ERepMax x k).
Proof.
  intros Hg Hx. apply (Sem_bounded V _ (repeatn (N.to_nat k) (EOpt x))); try reflexivity; [|constructor].
  intros y Hy. apply in_repeatn in Hy as ->. split; [exact Hg|now apply Sem_opt].
Qed.
Lemma Sem_repmin V x k : good ph x -> np G (vfuel G) [] x = Some false -> Sem V p x -> Sem V p (ERepMin x k).
Proof.
  intros Hg Hnp Hx. apply (Sem_bounded V _ (repeatn (N.to_nat k) x ++ [ERep x])); try reflexivity.
  - intros y Hy. apply in_app_or in Hy as [Hy|[<-|[]]]; [apply in_repeatn in Hy as ->; auto|].
    split; [split; assumption|now apply (Sem_rep V x (vfuel G))].
  - intros u Eu N. destruct (N.to_nat k) eqn:Ek; [now apply NRepMin0, zero_to_nat|]. apply NRepMin. exact (Null_seq_hd V x _ u Eu N).
Qed.
Lemma Sem_repminmax V x m k : good ph x -> Sem V p x -> Sem V p (ERepMinMax x m k).
Proof.
  intros Hg Hx.
  apply (Sem_bounded V _ (repeatn (Nat.min (N.to_nat m) (N.to_nat k)) x ++ repeatn (N.to_nat k - N.to_nat m) (EOpt x))); try reflexivity.
  - intros y Hy. apply in_app_or in Hy as [Hy|Hy]; apply in_repeatn in Hy as ->; auto. split; [exact Hg|now apply Sem_opt].
  - intros u Eu N. destruct (N.to_nat m) eqn:Em; [now apply NRepMinMax0, zero_to_nat|]. apply NRepMinMax.
    destruct (N.to_nat k); [discriminate|]. exact (Null_seq_hd V x _ u Eu N).
Qed.

Lemma mode_ok_rule a emit x r : ModeOK ph a -> (ph = true -> nonatomic_rule G x = false) -> find_rule G x = Some r ->
  ModeOK ph (snd (rule_mode (is_special x) (rty r) a emit)).
Proof.
  intros Hm Hna Hf E. specialize (Hm E). specialize (Hna E). unfold nonatomic_rule in Hna. rewrite Hf in Hna.
  unfold rule_mode. destruct (is_special x); destruct (rty r); cbn in *; try discriminate; auto.
Qed.

Lemma good_body x r : good ph (EIdent x) -> find_rule G x = Some r -> good ph (rexpr r).
Proof.
  intros [_ H] Hf. apply good_intro; [eapply body_stack_free; eauto|apply HRep; now apply find_rule_In in Hf|].
  intros E y Hy z Hz. apply (H E). eapply ReachS; eauto.
Qed.

Lemma inner d : forall V, length G < d + length V -> NoDup V -> chain G V ->
  forall e, LeftIn G V e -> good ph e -> Sem V p e.
Proof.
  induction d as [|d IH]; intros V Hd Hnd Hch.
  { pose proof (trace_bound G V Hnd (chain_defs G V Hch)). cbn in Hd. lia. }
  induction e; intros HL Hg; try (now apply Sem_leaf).
  - destruct (calls_rule G n) eqn:Ec; [|apply Sem_leaf; [cbn; now rewrite Ec|exact Hg]].
    destruct (find_rule G n) as [r|] eqn:Ef; [|unfold calls_rule, has_rule in Ec; rewrite Ef, andb_false_r in Ec; discriminate].
    assert (Hlk : lookup G n = Some (rexpr r)) by (unfold lookup; now rewrite Ef).
    (* a user rule: extend the chain *)
    assert (Hch' : chain G (n :: V)).
    { split; [eauto|]. split; [|exact Hch]. destruct V; [exact I|]. apply HL. now left. }
    pose proof (no_reentry cfg G Hfix HLR V n Hnd Hch') as Hni.
    assert (HS' : Sem (n :: V) p (rexpr r)).
    { apply IH; [cbn [length]; lia|now constructor|exact Hch'| |eapply good_body; eauto].
      intros y Hy. exists (rexpr r). auto. }
    intros a emit sg Hm.
    destruct (HS' (snd (rule_mode (is_special n) (rty r) a emit)) emit sg) as (r1 & B & Z).
    { apply mode_ok_rule; auto. intros E. apply (proj2 Hg E), Reach0. }
    eexists. split; [eapply bs_call; eauto|].
    intros sg' f' E. destruct r1; inversion E; subst.
    eapply NIdent; [exact (calls_rule_soi G n Ec)|now apply mem_false_In|exact Hlk|eauto].
  - apply Sem_pos, IHe; assumption.
  - apply Sem_neg, IHe; assumption.
  - destruct Hg as [Hg1 Hg2]. apply Sem_seq; [exact Hg2| |].
    + apply IHe1; [|exact Hg1]. eapply LeftIn_seq_l; eauto.
    + intros HN. apply IHe2; [|exact Hg2]. eapply LeftIn_seq_r; eauto.
  - destruct Hg as [Hg1 Hg2]. apply Sem_cho.
    + apply IHe1; [|exact Hg1]. eapply LeftIn_sub; [|exact HL]. intros cur. apply incl_appl, incl_refl.
    + apply IHe2; [|exact Hg2]. eapply LeftIn_sub; [|exact HL]. intros cur. apply incl_appr, incl_refl.
  - apply Sem_opt, IHe; assumption.
  - destruct Hg as [Hnp Hg]. eapply Sem_rep; eauto.
  - destruct Hg as [Hnp Hg]. apply Sem_reponce; auto.
  - apply Sem_repexact; auto.
  - destruct Hg as [Hnp Hg]. apply Sem_repmin; auto.
  - apply Sem_repmax; auto.
  - apply Sem_repminmax; auto.
  - apply Sem_push, IHe; assumption.
  - apply Sem_tag, IHe; assumption.
Qed.

End Cons.
