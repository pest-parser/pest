(* Facts about the validator's two over-approximations that do not involve the semantics:
   names / traces, the fuel of is_non_progressing / is_non_failing never runs out, and the
   inductive reading `Null trace e` of "is_non_progressing returns true" (least fixed point with
   the rules on the trace cut), which is antitone in the trace.                               *)
From Coq Require Import String Ascii List Arith NArith ZArith Bool Lia.
Import ListNotations.
Require Import PV.Comb.PState PV.Peg.Ast PV.Peg.AstFacts PV.Valid.Validator.

Lemma str_eqb_sym a b : str_eqb a b = str_eqb b a.
Proof. apply AstFacts.str_eqb_sym. Qed.

Lemma mem_In n t : mem n t = true <-> In n t.
Proof.
  unfold mem. rewrite existsb_exists. split.
  - intros (x & Hx & E). apply str_eqb_eq in E. now subst.
  - intros H. exists n. split; auto. apply str_eqb_refl.
Qed.
Lemma mem_false_In n t : mem n t = false <-> ~ In n t.
Proof.
  split; intros H.
  - intros Hi. apply mem_In in Hi. congruence.
  - destruct (mem n t) eqn:E; auto. apply mem_In in E. contradiction.
Qed.
Lemma mem_cons n x t : mem n (x :: t) = str_eqb n x || mem n t.
Proof. reflexivity. Qed.

Lemma find_rule_defined G r : In r G -> exists r', find_rule G (rname r) = Some r'.
Proof.
  induction G as [|x G IH]; cbn; [tauto|].
  intros [H|H].
  - subst. destruct (find_rule G (rname r)) as [y|]; [eauto|]. rewrite str_eqb_refl. eauto.
  - destruct (IH H) as [r' Hr']. rewrite Hr'. eauto.
Qed.

Lemma lookup_In G n b : lookup G n = Some b -> exists r, In r G /\ rname r = n /\ rexpr r = b /\ find_rule G n = Some r.
Proof.
  unfold lookup. destruct (find_rule G n) as [r|] eqn:E; [|discriminate].
  intros H. inversion H; subst. destruct (find_rule_In _ _ _ E). eauto.
Qed.
Lemma lookup_defs G n b : lookup G n = Some b -> In n (defs G).
Proof.
  intros H. destruct (lookup_In _ _ _ H) as (r & Hr & Hn & _). subst. unfold defs. now apply in_map.
Qed.
Lemma lookup_rule G r : In r G -> exists b, lookup G (rname r) = Some b.
Proof. intros H. destruct (find_rule_defined _ _ H) as [r' Hr']. unfold lookup. rewrite Hr'. eauto. Qed.

Lemma defs_length G : length (defs G) = length G.
Proof. apply map_length. Qed.

Lemma trace_bound G t : NoDup t -> incl t (defs G) -> length t <= length G.
Proof. intros H1 H2. rewrite <- defs_length. now apply NoDup_incl_length. Qed.

Section Fuel.
Variable G : grammar.

Lemma oand_not_none a b : a <> None -> (a = Some true -> b tt <> None) -> oand a b <> None.
Proof. destruct a as [[|]|]; cbn; auto; congruence. Qed.
Lemma oor_not_none a b : a <> None -> (a = Some false -> b tt <> None) -> oor a b <> None.
Proof. destruct a as [[|]|]; cbn; auto; congruence. Qed.

Lemma np_nf_e_not_none rec t e :
  (forall n b, mem n t = false -> lookup G n = Some b -> rec (n :: t) b <> None) ->
  np_e G rec t e <> None /\ nf_e G rec t e <> None.
Proof.
  intros Hrec. induction e; cbn [np_e nf_e]; try (split; congruence); auto;
    try (destruct IHe; destruct (n_is_zero _); split; congruence).
  - destruct (_ || _), (mem n t) eqn:Em; try (split; congruence);
      (destruct (lookup G n) eqn:El; [|split; congruence]); specialize (Hrec n e Em El); split; congruence.
  - destruct IHe; split; congruence.
  - destruct IHe1, IHe2. split; apply oand_not_none; auto.
  - destruct IHe1, IHe2. split; apply oor_not_none; auto.
Qed.

(* a search that keeps its path as `trace`, unfolds only rules that are not on it and spends one unit
   of fuel per unfolding: S (length G) units are never used up *)
Definition trace_step {A} (ok : list name -> A -> Prop) (run : nat -> list name -> expr -> A) : Prop :=
  forall f t e, incl t (defs G) ->
  (forall n b, mem n t = false -> lookup G n = Some b -> ok (n :: t) (run f (n :: t) b)) -> ok t (run (S f) t e).

Section TraceFuel.
Context {A} (ok : list name -> A -> Prop) (run : nat -> list name -> expr -> A) (Hstep : trace_step ok run).

Lemma trace_fuel f : forall t e, NoDup t -> incl t (defs G) -> length G < f + length t -> ok t (run f t e).
Proof.
  induction f as [|f IH]; intros t e Hnd Hin Hlen.
  - pose proof (trace_bound G t Hnd Hin). cbn in Hlen. lia.
  - apply Hstep; [exact Hin|]. intros n b Hm Hl. apply IH.
    + constructor; auto. now apply mem_false_In.
    + intros x [<-|Hx]; [eapply lookup_defs; eauto|auto].
    + cbn [length]. lia.
Qed.
Lemma trace_fuel_nil e : ok [] (run (vfuel G) [] e).
Proof. apply trace_fuel; [constructor|intros x []|unfold vfuel; cbn; lia]. Qed.
Lemma trace_fuel_one cur e : In cur (defs G) -> ok [cur] (run (vfuel G) [cur] e).
Proof. intros Hc. apply trace_fuel; [repeat constructor; auto|intros x [<-|[]]; exact Hc|unfold vfuel; cbn; lia]. Qed.
End TraceFuel.

Lemma np_step : trace_step (fun _ r => r <> None) (np G).
Proof. intros f t e _ H. now apply np_nf_e_not_none. Qed.
Lemma nf_step : trace_step (fun _ r => r <> None) (nf G).
Proof. intros f t e _ H. now apply np_nf_e_not_none. Qed.
Definition np_vfuel_nil := trace_fuel_nil _ _ np_step.
Definition nf_vfuel_nil := trace_fuel_nil _ _ nf_step.
Definition np_vfuel_one := trace_fuel_one _ _ np_step.
Definition nf_vfuel_one := trace_fuel_one _ _ nf_step.

Lemma nullable_seeded_some cur l : In cur (defs G) -> nullable_seeded G cur l <> None.
Proof.
  intros Hc. unfold nullable_seeded. pose proof (nf_vfuel_one cur l Hc). pose proof (np_vfuel_one cur l Hc).
  destruct (nf G (vfuel G) [cur] l) as [[|]|]; cbn [oor]; congruence.
Qed.

Definition soi_eoi (n : name) : bool := str_eqb n (nm "SOI") || str_eqb n (nm "EOI").

Inductive Null : list name -> expr -> Prop :=
| NStr t : Null t (EStr [])
| NInsens t : Null t (EInsens [])
| NSoi t n : soi_eoi n = true -> Null t (EIdent n)
| NIdent t n b : soi_eoi n = false -> mem n t = false -> lookup G n = Some b -> Null (n :: t) b -> Null t (EIdent n)
| NSeq t l r : Null t l -> Null t r -> Null t (ESeq l r)
| NChoL t l r : Null t l -> Null t (EChoice l r)
| NChoR t l r : Null t r -> Null t (EChoice l r)
| NPos t x : Null t (EPosPred x)
| NNeg t x : Null t (ENegPred x)
| NRep t x : Null t (ERep x)
| NOpt t x : Null t (EOpt x)
| NRepMax t x n : Null t (ERepMax x n)
| NRepExact0 t x n : n_is_zero n = true -> Null t (ERepExact x n)
| NRepExact t x n : Null t x -> Null t (ERepExact x n)
| NRepMin0 t x n : n_is_zero n = true -> Null t (ERepMin x n)
| NRepMin t x n : Null t x -> Null t (ERepMin x n)
| NRepMinMax0 t x m n : n_is_zero m = true -> Null t (ERepMinMax x m n)
| NRepMinMax t x m n : Null t x -> Null t (ERepMinMax x m n)
| NPush t x : Null t x -> Null t (EPush x)
| NPushLit t s : Null t (EPushLiteral s)
| NRepOnce t x : Null t x -> Null t (ERepOnce x)
| NTag t x tg : Null t x -> Null t (ENodeTag x tg)
| NSkip t ss : Null t (ESkip ss).

Lemma np_e_true_Null rec t e :
  (forall n b, rec (n :: t) b = Some true -> Null (n :: t) b) ->
  np_e G rec t e = Some true -> Null t e.
Proof.
  intros Hrec. induction e; cbn [np_e]; intros H; try discriminate; try (constructor; auto; fail).
  - destruct s; [constructor|discriminate].
  - destruct s; [constructor|discriminate].
  - destruct (_ || _) eqn:Es; [now apply NSoi|].
    destruct (mem n t) eqn:Em; [discriminate|].
    destruct (lookup G n) eqn:El; [|discriminate].
    eapply NIdent; eauto.
  - destruct (np_e G rec t e1) as [[|]|]; cbn in H; try discriminate. constructor; auto.
  - destruct (np_e G rec t e1) as [[|]|]; cbn in H; try discriminate; [apply NChoL|apply NChoR]; auto.
  - destruct (n_is_zero n) eqn:E; [now apply NRepExact0|apply NRepExact; auto].
  - destruct (n_is_zero n) eqn:E; [now apply NRepMin0|apply NRepMin; auto].
  - destruct (n_is_zero m) eqn:E; [now apply NRepMinMax0|apply NRepMinMax; auto].
Qed.
Lemma np_true_Null f : forall t e, np G f t e = Some true -> Null t e.
Proof.
  induction f as [|f IH]; intros t e; cbn [np]; [discriminate|].
  apply np_e_true_Null. intros n b. apply IH.
Qed.

Lemma Null_np_e t e :
  Null t e -> forall rec, (forall t' n b, Null (n :: t') b -> rec (n :: t') b <> Some false) ->
  np_e G rec t e <> Some false.
Proof.
  induction 1; intros rec Hrec; cbn [np_e]; try discriminate; auto.
  - unfold soi_eoi in H. rewrite H. discriminate.
  - unfold soi_eoi in H. rewrite H, H0, H1. now apply Hrec.
  - specialize (IHNull1 rec Hrec). specialize (IHNull2 rec Hrec).
    destruct (np_e G rec t l) as [[|]|]; cbn; congruence.
  - specialize (IHNull rec Hrec). destruct (np_e G rec t l) as [[|]|]; cbn; congruence.
  - specialize (IHNull rec Hrec). destruct (np_e G rec t l) as [[|]|]; cbn; congruence.
  - rewrite H. discriminate.
  - destruct (n_is_zero n); [discriminate|auto].
  - rewrite H. discriminate.
  - destruct (n_is_zero n); [discriminate|auto].
  - rewrite H. discriminate.
  - destruct (n_is_zero m); [discriminate|auto].
Qed.
Lemma Null_np f : forall t e, Null t e -> np G f t e <> Some false.
Proof.
  induction f as [|f IH]; intros t e H; cbn [np]; [discriminate|].
  apply Null_np_e; auto.
Qed.

Lemma Null_antitone t e : Null t e -> forall t', (forall x, mem x t' = true -> mem x t = true) -> Null t' e.
Proof.
  induction 1; intros t' Hsub; try (constructor; auto; fail).
  - eapply NIdent; eauto.
    + destruct (mem n t') eqn:E; auto. apply Hsub in E. congruence.
    + apply IHNull. intros x. rewrite !mem_cons. intros Hx. apply orb_true_iff in Hx. apply orb_true_iff.
      destruct Hx as [Hx|Hx]; auto.
Qed.

End Fuel.
