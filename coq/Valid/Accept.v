(* (<=) Acceptance of well-formed grammars.
   starts_with_char e : e begins by matching at least one character through a non-empty literal,
   a range or a single-character built-in (closed under the left operand of `~`, both operands of
   `|`, `+`, `{n}` / `{n,}` / `{m,n}` with a positive lower bound, PUSH, node tags, and references
   to rules whose body starts with a character).
   If names are well-formed, counts are legal, and every unbounded-repetition body, the
   WHITESPACE / COMMENT bodies, every non-final alternative starts with a character, and no cycle
   of rule references consists of UNGUARDED references only (a reference is guarded when, in its
   body, an element that starts with a character precedes it in a sequence), then `validate`
   reports nothing - for the validator as it is and for the repaired one.                     *)
From Coq Require Import String Ascii List Arith NArith ZArith Bool Lia.
Require Import PV.Peg.AstFacts.
Import ListNotations.
Require Import PV.Comb.PState PV.Peg.Ast PV.Peg.Spec PV.Valid.Validator PV.Valid.Known PV.Valid.Nullable PV.Valid.LeftRec.

Fixpoint subexprs (e : expr) : list expr :=
  e :: match e with
       | EPosPred x | ENegPred x | ERep x | ERepOnce x | ERepExact x _ | ERepMin x _ | ERepMax x _
       | ERepMinMax x _ _ | EOpt x | EPush x | ENodeTag x _ => subexprs x
       | ESeq l r | EChoice l r => subexprs l ++ subexprs r
       | _ => []
       end.

Lemma subnodes_subexprs cfg e : incl (subnodes cfg e) (subexprs e).
Proof.
  induction e; cbn [subnodes subexprs]; try apply incl_refl;
    try (apply incl_cons; [now left|apply incl_tl; auto]; fail).
  - apply incl_cons; [now left|]. apply incl_tl. apply incl_app; [apply incl_appl|apply incl_appr]; auto.
  - apply incl_cons; [now left|]. apply incl_tl. apply incl_app; [apply incl_appl|apply incl_appr]; auto.
  - apply incl_cons; [now left|]. apply incl_tl. destruct (fix_tag cfg); [auto|intros x []].
Qed.

Section Accept.
Variable kw builtin uprop_name : name -> bool.
Variable G : grammar.

Inductive starts_with_char : expr -> Prop :=
| SwStr s : s <> [] -> starts_with_char (EStr s)
| SwInsens s : s <> [] -> starts_with_char (EInsens s)
| SwRange lo hi : starts_with_char (ERange lo hi)
| SwBuiltin n : find_rule G n = None -> char_builtin uprop_name n = true -> starts_with_char (EIdent n)
| SwRule n r : soi_eoi n = false -> find_rule G n = Some r -> starts_with_char (rexpr r) -> starts_with_char (EIdent n)
| SwSeq l r : starts_with_char l -> starts_with_char (ESeq l r)
| SwCho l r : starts_with_char l -> starts_with_char r -> starts_with_char (EChoice l r)
| SwRepOnce x : starts_with_char x -> starts_with_char (ERepOnce x)
| SwRepExact x n : n_is_zero n = false -> starts_with_char x -> starts_with_char (ERepExact x n)
| SwRepMin x n : n_is_zero n = false -> starts_with_char x -> starts_with_char (ERepMin x n)
| SwRepMinMax x m n : n_is_zero m = false -> starts_with_char x -> starts_with_char (ERepMinMax x m n)
| SwPush x : starts_with_char x -> starts_with_char (EPush x)
| SwTag x t : starts_with_char x -> starts_with_char (ENodeTag x t).

Lemma swc_not_true e : starts_with_char e -> forall f tr, np G f tr e <> Some true /\ nf G f tr e <> Some true.
Proof.
  induction 1; intros [|f] tr; try (split; discriminate); cbn [np nf np_e nf_e]; try (split; discriminate);
    try (rewrite ?H; apply (IHstarts_with_char (S f) tr)).
  - destruct s; [congruence|split; discriminate].
  - destruct s; [congruence|split; discriminate].
  - unfold char_builtin in H0. apply andb_true_iff in H0 as [H0 _]. apply negb_true_iff in H0. rewrite H0.
    destruct (mem n tr); [split; discriminate|]. unfold lookup. rewrite H. split; discriminate.
  - unfold soi_eoi in H. rewrite H. destruct (mem n tr); [split; discriminate|]. unfold lookup. rewrite H0. apply IHstarts_with_char.
  - destruct (IHstarts_with_char (S f) tr) as [A B]. cbn [np nf] in A, B.
    destruct (np_e G (np G f) tr l) as [[|]|], (nf_e G (nf G f) tr l) as [[|]|]; cbn; split; congruence.
  - destruct (IHstarts_with_char1 (S f) tr) as [A1 B1], (IHstarts_with_char2 (S f) tr) as [A2 B2]. cbn [np nf] in *.
    destruct (np_e G (np G f) tr l) as [[|]|], (nf_e G (nf G f) tr l) as [[|]|]; cbn; split; congruence.
Qed.

Lemma swc_np_false e : starts_with_char e -> np G (vfuel G) [] e = Some false.
Proof.
  intros H. pose proof (proj1 (swc_not_true e H (vfuel G) [])). pose proof (np_vfuel_nil G e).
  destruct (np G (vfuel G) [] e) as [[|]|]; congruence.
Qed.
Lemma swc_nf_false e : starts_with_char e -> nf G (vfuel G) [] e = Some false.
Proof.
  intros H. pose proof (proj2 (swc_not_true e H (vfuel G) [])). pose proof (nf_vfuel_nil G e).
  destruct (nf G (vfuel G) [] e) as [[|]|]; congruence.
Qed.
Lemma swc_not_nullable cur e : In cur (defs G) -> starts_with_char e -> nullable_seeded G cur e = Some false.
Proof.
  intros Hc H. unfold nullable_seeded. destruct (swc_not_true e H (vfuel G) [cur]).
  pose proof (nf_vfuel_one G cur e Hc). pose proof (np_vfuel_one G cur e Hc).
  destruct (nf G (vfuel G) [cur] e) as [[|]|]; try congruence. cbn [oor].
  destruct (np G (vfuel G) [cur] e) as [[|]|]; congruence.
Qed.


Inductive Ung : expr -> name -> Prop :=
| UgIdent y : Ung (EIdent y) y
| UgSeqL l r y : Ung l y -> Ung (ESeq l r) y
| UgSeqR l r y : ~ starts_with_char l -> Ung r y -> Ung (ESeq l r) y
| UgChoL l r y : Ung l y -> Ung (EChoice l r) y
| UgChoR l r y : Ung r y -> Ung (EChoice l r) y
| UgRep x y : Ung x y -> Ung (ERep x) y
| UgRepOnce x y : Ung x y -> Ung (ERepOnce x) y
| UgOpt x y : Ung x y -> Ung (EOpt x) y
| UgPos x y : Ung x y -> Ung (EPosPred x) y
| UgNeg x y : Ung x y -> Ung (ENegPred x) y
| UgPush x y : Ung x y -> Ung (EPush x) y
| UgRepExact x n y : Ung x y -> Ung (ERepExact x n) y
| UgRepMin x n y : Ung x y -> Ung (ERepMin x n) y
| UgRepMax x n y : Ung x y -> Ung (ERepMax x n) y
| UgRepMinMax x m n y : Ung x y -> Ung (ERepMinMax x m n) y
| UgTag x t y : Ung x y -> Ung (ENodeTag x t) y.

Definition uedge (v y : name) : Prop := exists b, lookup G v = Some b /\ Ung b y.
Inductive UPath : name -> name -> Prop :=
| UP1 v y : uedge v y -> UPath v y
| UPS v m y : uedge v m -> UPath m y -> UPath v y.

Variable cfg : vcfg.

Lemma vec_first_cons x T : T <> [] -> vec_first (x :: T) = vec_first T.
Proof. destruct T; [congruence|reflexivity]. Qed.

Lemma lefts_Ung fx cur e y : In cur (defs G) -> In y (lefts G fx cur e) -> Ung e y.
Proof.
  intros Hc. induction e; cbn [lefts]; intros Hy; try (destruct Hy; fail); try (constructor; auto; fail);
    try (destruct fx; [constructor; auto|destruct Hy]).
  - destruct Hy as [<-|[]]. constructor.
  - assert (HL : In y (if fx then lefts G fx cur e1 else []) -> Ung (ESeq e1 e2) y)
      by (destruct fx; [intros; apply UgSeqL; auto|intros []]).
    destruct (nullable_seeded G cur e1) as [[|]|] eqn:En; [| now apply UgSeqL; auto |];
      (apply in_app_or in Hy as [Hy|Hy]; [auto|]); apply UgSeqR; auto;
      intros Hs; rewrite (swc_not_nullable cur e1 Hc Hs) in En; discriminate.
  - apply in_app_or in Hy as [Hy|Hy]; [apply UgChoL|apply UgChoR]; auto.
Qed.

(* an error of the DFS is a path of unguarded references to the root *)
Lemma check_e_err rec cur T e c root :
  In cur (defs G) -> vec_first (cur :: T) = Some root ->
  (forall y b c', lookup G y = Some b -> rec (y :: cur :: T) b = CErr c' -> exists z, Ung b z /\ (z = root \/ UPath z root)) ->
  check_e cfg G rec (cur :: T) e = CErr c -> exists z, Ung e z /\ (z = root \/ UPath z root).
Proof.
  intros Hcur Hroot Hrec H. rewrite check_e_lefts in H by exact Hcur.
  destruct (first_res_spec (fun y => check_e cfg G rec (cur :: T) (EIdent y)) (lefts G (fix_lr cfg) cur e))
    as [[E _]|(y & Hy & E & _)]; [congruence|]. rewrite E in H.
  exists y. split; [eapply lefts_Ung; eauto|]. cbn [check_e] in H. rewrite Hroot in H.
  destruct (str_eqb root y) eqn:Er; [left; symmetry; now apply str_eqb_eq|].
  destruct (mem y (cur :: T)); [discriminate|]. destruct (lookup G y) as [b|] eqn:El; [|discriminate].
  destruct (Hrec _ _ _ El H) as (z & Hz & Hp). right.
  destruct Hp as [->|Hp]; [apply UP1|eapply UPS; [|exact Hp]]; exists b; auto.
Qed.

Lemma check_err f : forall cur T e c root, In cur (defs G) -> vec_first (cur :: T) = Some root ->
  check cfg G f (cur :: T) e = CErr c -> exists z, Ung e z /\ (z = root \/ UPath z root).
Proof.
  induction f as [|f IH]; intros cur T e c root Hcur Hroot H; [discriminate|].
  cbn [check] in H. eapply check_e_err; eauto.
  intros y b c' Hb Hc. eapply (IH y (cur :: T)); [eapply lookup_defs; eauto| |exact Hc].
  rewrite vec_first_cons by discriminate. exact Hroot.
Qed.

Definition definite (r : cres) : Prop := r <> CFuel /\ r <> CPanic.

Lemma check_step : trace_step G (fun t r => t <> [] -> definite r) (check cfg G).
Proof.
  intros f [|cur T] e Hin Hrec Hne; [congruence|]. cbn [check]. rewrite check_e_lefts by (apply Hin; now left).
  destruct (first_res_spec (fun y => check_e cfg G (check cfg G f) (cur :: T) (EIdent y)) (lefts G (fix_lr cfg) cur e))
    as [[-> _]|(y & _ & -> & _)]; [split; discriminate|]. cbn [check_e].
  destruct (vec_first (cur :: T)) eqn:Ev; [|now apply vec_first_some in Ev].
  destruct (str_eqb n y); [split; discriminate|]. destruct (mem y (cur :: T)) eqn:Em; [split; discriminate|].
  destruct (lookup G y) eqn:El; [apply Hrec; auto; discriminate|split; discriminate].
Qed.

Definition wellformed_names : Prop :=
  (forall r, In r G -> kw (rname r) = false) /\
  NoDup (defs G) /\
  (forall r n, In r G -> In n (idents (rexpr r)) -> In n (defs G) \/ builtin n = true).
Definition legal_counts : Prop := forall r, In r G -> zero_count (rexpr r) = false.
(* the bodies of the unbounded repetitions `*`, `+`, `{n,}` (bounded ones need no condition) *)
Definition rep_body (e x : expr) : Prop :=
  In (ERep x) (subexprs e) \/ In (ERepOnce x) (subexprs e) \/ exists n, In (ERepMin x n) (subexprs e).
Definition tags_ok : Prop := forall r x t, In r G -> In (ENodeTag x t) (subexprs (rexpr r)) -> check_silent_builtin builtin G x = [].
Definition starts_with_char_everywhere : Prop :=
  (forall r x, In r G -> rep_body (rexpr r) x -> starts_with_char x) /\
  (forall r, In r G -> is_ws_or_comment (rname r) = true -> starts_with_char (rexpr r)) /\
  (forall r l r', In r G -> In (EChoice l r') (subexprs (rexpr r)) -> starts_with_char l) /\
  (forall x, ~ UPath x x).

Lemma flat_map_all_nil {A B} (f : A -> list B) l : (forall x, In x l -> f x = []) -> flat_map f l = [].
Proof.
  induction l as [|y l IH]; cbn; intros H; [reflexivity|]. rewrite (H y) by now left. apply IH. intros x Hx. apply H. now right.
Qed.

Lemma app_nil2 {A} (a b : list A) : a = [] -> b = [] -> a ++ b = [].
Proof. now intros -> ->. Qed.

Lemma already_defined_nil l : forall seen, NoDup l -> (forall x, In x l -> ~ In x seen) -> already_defined seen l = [].
Proof.
  induction l as [|n l IH]; intros seen Hnd Hs; [reflexivity|]. cbn [already_defined].
  inversion Hnd; subst.
  destruct (mem n seen) eqn:Em.
  - apply mem_In in Em. exfalso. apply (Hs n); [now left|exact Em].
  - apply IH; auto. intros x Hx [<-|Hin]; [contradiction|]. apply (Hs x); [now right|exact Hin].
Qed.

Lemma swc_no_errors x e1 e2 : starts_with_char x -> nf_np_errors G x e1 e2 = [].
Proof. intros H. unfold nf_np_errors. now rewrite (swc_nf_false x H), (swc_np_false x H). Qed.

Theorem acceptance : wellformed_names -> legal_counts -> tags_ok -> starts_with_char_everywhere ->
  validate kw builtin cfg G = [].
Proof.
  intros (Hkw & Hnd & Hdef) Hcnt Htag (Hrep & Hws & Hcho & Hcyc).
  assert (P1 : validate_pairs kw builtin G = []).
  { unfold validate_pairs, validate_pest_keywords, validate_already_defined, validate_undefined.
    rewrite flat_map_all_nil, already_defined_nil, flat_map_all_nil; auto.
    - intros r Hr. apply flat_map_all_nil. intros n Hn. destruct (Hdef r n Hr Hn) as [Hd|Hb].
      + apply mem_In in Hd. now rewrite Hd.
      + rewrite Hb. now rewrite orb_true_r.
    - intros n Hn. unfold defs in Hn. apply in_map_iff in Hn. destruct Hn as (r & <- & Hr). now rewrite Hkw. }
  assert (P2 : reader_errors G = []).
  { unfold reader_errors. destruct (existsb _ G) eqn:E; auto. apply existsb_exists in E. destruct E as (r & Hr & Hz).
    rewrite Hcnt in Hz by auto. discriminate. }
  unfold validate. rewrite P1, P2. unfold validate_ast.
  repeat apply app_nil2; apply flat_map_all_nil; intros r Hr.
  - apply flat_map_all_nil. intros node Hn. apply subnodes_subexprs in Hn.
    destruct node; cbn [rep_node_errors]; auto; apply swc_no_errors, (Hrep r); unfold rep_body; eauto.
  - apply flat_map_all_nil. intros node Hn. apply subnodes_subexprs in Hn.
    destruct node; cbn [cho_node_errors]; auto.
    pose proof (Hcho r _ _ Hr Hn) as Hs.
    assert (Ha : starts_with_char (match node1 with EChoice _ rhs => rhs | _ => node1 end)).
    { destruct node1; auto. now inversion Hs. }
    now rewrite (swc_nf_false _ Ha).
  - destruct (is_ws_or_comment (rname r)) eqn:E; auto. now apply swc_no_errors, Hws.
  - unfold check_root. destruct (lookup G (rname r)) as [b|] eqn:El; auto.
    assert (Hd : In (rname r) (defs G)) by (eapply lookup_defs; eauto).
    destruct (trace_fuel_one G _ _ check_step (rname r) b Hd ltac:(discriminate)) as [F1 F2].
    destruct (check cfg G (vfuel G) [rname r] b) as [|c| |] eqn:Ec; try congruence.
    exfalso. destruct (check_err (vfuel G) (rname r) [] b c (rname r) Hd eq_refl Ec) as (z & Hz & Hp).
    apply (Hcyc (rname r)). destruct Hp as [->|Hp]; [apply UP1|eapply UPS; [|exact Hp]]; exists b; auto.
  - apply flat_map_all_nil. intros node Hn. apply subnodes_subexprs in Hn.
    destruct node; cbn [tag_node_errors]; auto. eapply Htag; eauto.
Qed.


Definition refers (x y : name) : Prop := exists b, lookup G x = Some b /\ In y (idents b).
Inductive RefReach : name -> name -> Prop :=
| RR0 x : RefReach x x
| RRS x m y : refers x m -> RefReach m y -> RefReach x y.

Lemma Ung_idents e y : Ung e y -> In y (idents e).
Proof. induction 1; cbn [idents]; auto; try (apply in_or_app; auto); now left. Qed.

Lemma UPath_RefReach x y : UPath x y -> RefReach x y.
Proof.
  induction 1.
  - destruct H as (b & Hb & Hu). apply (RRS v y y); [exists b; split; [exact Hb|now apply Ung_idents]|apply RR0].
  - destruct H as (b & Hb & Hu). apply (RRS v m y); [exists b; split; [exact Hb|now apply Ung_idents]|exact IHUPath].
Qed.

(* "every path from a rule back to itself begins by matching at least one character": a reference
   that can lead back to the rule is never unguarded *)
Definition every_cycle_starts_with_char : Prop := forall r x, uedge r x -> ~ RefReach x r.

Lemma cycles_text : every_cycle_starts_with_char -> forall x, ~ UPath x x.
Proof.
  intros H x Hp. inversion Hp; subst.
  - apply (H x x H0). apply RR0.
  - apply (H x m H0). now apply UPath_RefReach.
Qed.

Definition clean (e : verr) : bool := match e with VFuel | VPanic => false | _ => true end.

Lemma Forall_flat_map {A B} (P : B -> Prop) (f : A -> list B) l : (forall x, In x l -> Forall P (f x)) -> Forall P (flat_map f l).
Proof.
  induction l as [|y l IH]; cbn; intros H; [constructor|]. apply Forall_app. split; [apply H; now left|apply IH; intros x Hx; apply H; now right].
Qed.

Lemma nf_np_errors_clean x e1 e2 : clean e1 = true -> clean e2 = true -> Forall (fun e => clean e = true) (nf_np_errors G x e1 e2).
Proof.
  intros A B. unfold nf_np_errors.
  pose proof (nf_vfuel_nil G x). pose proof (np_vfuel_nil G x).
  destruct (nf G (vfuel G) [] x) as [[|]|]; try congruence; [now repeat constructor|].
  destruct (np G (vfuel G) [] x) as [[|]|]; try congruence; now repeat constructor.
Qed.

Theorem validate_clean : Forall (fun e => clean e = true) (validate kw builtin cfg G).
Proof.
  assert (HP : Forall (fun e => clean e = true) (validate_pairs kw builtin G)).
  { repeat (apply Forall_app; split).
    - apply Forall_flat_map. intros n _. destruct (kw n); now repeat constructor.
    - unfold validate_already_defined. generalize (@nil name) as seen.
      induction (defs G) as [|n l IH]; intros seen; cbn [already_defined]; [constructor|].
      destruct (mem n seen); [constructor; [reflexivity|apply IH]|apply IH].
    - apply Forall_flat_map. intros r _. apply Forall_flat_map. intros n _. destruct (_ || _); now repeat constructor. }
  assert (HR : Forall (fun e => clean e = true) (reader_errors G)) by (unfold reader_errors; destruct (existsb _ G); now repeat constructor).
  assert (HV : Forall (fun e => clean e = true) (validate_ast builtin cfg G)).
  { repeat (apply Forall_app; split); apply Forall_flat_map; intros r _.
    - apply Forall_flat_map. intros node _. destruct node; try constructor; now apply nf_np_errors_clean.
    - apply Forall_flat_map. intros node _. destruct node; try constructor. cbn [cho_node_errors].
      match goal with |- Forall _ (match nf G (vfuel G) [] ?a with _ => _ end) => pose proof (nf_vfuel_nil G a); destruct (nf G (vfuel G) [] a) as [[|]|] end;
        try congruence; now repeat constructor.
    - destruct (is_ws_or_comment (rname r)); [now apply nf_np_errors_clean|constructor].
    - unfold check_root. destruct (lookup G (rname r)) as [b|] eqn:El; [|constructor].
      destruct (trace_fuel_one G _ _ check_step (rname r) b (lookup_defs _ _ _ El) ltac:(discriminate)) as [F1 F2].
      destruct (check cfg G (vfuel G) [rname r] b); try congruence; now repeat constructor.
    - apply Forall_flat_map. intros node _. destruct node; try constructor. cbn [tag_node_errors].
      induction node; cbn [check_silent_builtin]; try constructor; auto.
      destruct (find_rule G n) as [r0|]; [destruct (rty r0)|]; try destruct (builtin n); now repeat constructor. }
  unfold validate. destruct (validate_pairs kw builtin G); [destruct (reader_errors G); auto|auto].
Qed.

(* the model's fuel never runs out and no panic site of validator.rs is reached *)
Corollary validate_total : ~ In VFuel (validate kw builtin cfg G) /\ ~ In VPanic (validate kw builtin cfg G).
Proof.
  pose proof validate_clean as H. rewrite Forall_forall in H.
  split; intros Hin; discriminate (H _ Hin).
Qed.

End Accept.
