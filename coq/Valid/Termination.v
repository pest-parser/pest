(* Termination of Layer S on grammars accepted by the REPAIRED validator, part 3: all positions
   (induction on the remaining input), the implicit skip, and the theorem.  The skip is handled in
   two phases: inside WHITESPACE / COMMENT the atomicity is never NonAtomic again (outside the known
   class), so there the skip is trivial; outside, it terminates because WHITESPACE / COMMENT
   terminate (phase 1) and move.                                                              *)
From Coq Require Import String Ascii List Arith NArith ZArith Bool Lia.
Require Import PV.Peg.AstFacts.
Import ListNotations.
Require Import PV.Comb.PState PV.Comb.Bytes PV.Iter.Queue PV.Peg.Ast PV.Peg.Spec PV.Opt.Sem PV.Opt.SemProofs.
Require Import PV.Valid.Validator PV.Valid.Known PV.Valid.Nullable PV.Valid.Progress PV.Valid.LeftRec
               PV.Valid.TermBase PV.Valid.TermCons.

Section Term.
Variable cfg : vcfg.
Variable G : grammar.
Variable extras : bool.
Variable uprop : name -> option (N -> bool).
Variable w : list byte.
Hypothesis Hfix : fix_lr cfg = true.
Hypothesis HS : no_stack_builtins G = true.
Hypothesis HLR : lr_ok cfg G.
Hypothesis HRep : forall r, In r G -> reps_ok G (rexpr r).
Hypothesis HWs : forall r, In r G -> is_ws_or_comment (rname r) = true -> np G (vfuel G) [] (rexpr r) = Some false.

Notation bs := (bs G extras uprop w).
Notation good := (good G).
Notation Sem := (Sem G extras uprop w).
Notation WS := (nm "WHITESPACE").
Notation CM := (nm "COMMENT").

Theorem term_generic ph : SkipTerm G extras uprop w ph ->
  forall p, p <= length w -> forall e, good ph e -> Sem ph [] p e.
Proof.
  intros Hskip. apply (input_ind w (fun p => forall e, good ph e -> Sem ph [] p e)). intros p Hp Later e Hg.
  apply (inner cfg G extras uprop w Hfix HS HLR HRep ph p Hp Later Hskip (S (length G))); [cbn; lia|constructor|exact I|exact I|exact Hg].
Qed.

(* phase 1: no implicit skip *)
Lemma skip_term_atomic : SkipTerm G extras uprop w true.
Proof.
  intros a emit p sg Hm Hp. do 3 eexists. apply bs_skip_atomic. specialize (Hm eq_refl). now destruct a.
Qed.
Definition term_atomic := term_generic true skip_term_atomic.

Hypothesis HK : ~ KnownWs G.

Lemma special_cases s : is_special s = true -> s = WS \/ s = CM.
Proof. unfold is_special. intros H. apply orb_true_iff in H. destruct H as [H|H]; apply str_eqb_eq in H; auto. Qed.

Lemma special_ident s a emit q sg : is_special s = true -> has_rule G s = true -> q <= length w ->
  exists r, bs a emit (JE (EIdent s)) q sg r /\ forall q' sg' f', r = SMatch q' sg' f' -> q < q' <= length w.
Proof.
  intros Hs Hh Hq. pose proof Hh as Hf. unfold has_rule in Hf. destruct (find_rule G s) as [r|] eqn:Ef; [|discriminate].
  pose proof (find_rule_In _ _ _ Ef) as [Hin Hname].
  assert (Hg : good true (rexpr r)).
  { apply good_intro; [eapply body_stack_free; eauto|now apply HRep|]. intros _ y Hy x Hx.
    destruct (nonatomic_rule G x) eqn:E; [|reflexivity]. exfalso. apply HK. exists s, x. repeat split; auto. eapply ReachS; eauto. }
  destruct (term_atomic q Hq (rexpr r) Hg (snd (rule_mode (is_special s) (rty r) a emit)) emit sg) as (r0 & B & Z).
  { intros _. rewrite Hs. unfold rule_mode. destruct (rty r); discriminate. }
  eexists. split; [eapply bs_call; [|exact Ef|exact B]|].
  - unfold calls_rule. rewrite Hh. now destruct (special_cases s Hs) as [-> | ->].
  - intros q' sg' f' E. destruct r0 as [q0 sg0 f0| |]; inversion E; subst q0.
    pose proof (bs_match_range _ _ _ _ _ _ _ _ _ _ _ _ B Hq). assert (q' <> q); [|lia].
    intros ->. eapply progressing; [apply (HWs r Hin); now rewrite Hname|eauto].
Qed.

Lemma many_term s a emit : is_special s = true -> has_rule G s = true ->
  forall q, q <= length w -> forall sg acc, exists q' sg' f', bs a emit (JMany s acc) q sg (SMatch q' sg' f').
Proof.
  intros Hs Hh. apply (input_ind w (fun q => forall sg acc, exists q' sg' f', bs a emit (JMany s acc) q sg (SMatch q' sg' f'))).
  intros q Hq IH sg acc. destruct (special_ident s a emit q sg Hs Hh Hq) as ([q1 sg1 f1| |] & B & Z).
  - destruct (IH q1 (Z _ _ _ eq_refl) sg1 (acc ++ f1)) as (q' & sg' & f' & B2). do 3 eexists. eapply bs_many_step; eauto.
  - do 3 eexists. now apply bs_many_stop.
  - now apply bs_not_fuel in B.
Qed.

Lemma cw_term a emit : has_rule G WS = true -> has_rule G CM = true ->
  forall q, q <= length w -> forall sg acc, exists q' sg' f', bs a emit (JCW acc) q sg (SMatch q' sg' f').
Proof.
  intros Hw Hc. apply (input_ind w (fun q => forall sg acc, exists q' sg' f', bs a emit (JCW acc) q sg (SMatch q' sg' f'))).
  intros q Hq IH sg acc. destruct (special_ident CM a emit q sg eq_refl Hc Hq) as ([q1 sg1 f1| |] & B & Z).
  - specialize (Z _ _ _ eq_refl).
    destruct (many_term WS a emit eq_refl Hw q1 ltac:(lia) sg1 f1) as (q2 & sg2 & f2 & B2).
    pose proof (bs_match_range _ _ _ _ _ _ _ _ _ _ _ _ B2 ltac:(lia)).
    destruct (IH q2 ltac:(lia) sg2 (acc ++ f2)) as (q' & sg' & f' & B3). do 3 eexists. eapply bs_cw_step; eauto.
  - do 3 eexists. now apply bs_cw_stop.
  - now apply bs_not_fuel in B.
Qed.

Lemma skip_term_nonatomic : SkipTerm G extras uprop w false.
Proof.
  intros a emit p sg _ Hp.
  destruct (atom_eqb a NonAtomic) eqn:Ea; [|do 3 eexists; now apply bs_skip_atomic].
  destruct (has_rule G WS) eqn:Hw, (has_rule G CM) eqn:Hc.
  - destruct (many_term WS a emit eq_refl Hw p Hp sg []) as (p1 & sg1 & f1 & B1).
    pose proof (bs_match_range _ _ _ _ _ _ _ _ _ _ _ _ B1 Hp).
    destruct (cw_term a emit Hw Hc p1 ltac:(lia) sg1 f1) as (p2 & sg2 & f2 & B2). do 3 eexists. eapply bs_skip_both; eauto.
  - destruct (many_term WS a emit eq_refl Hw p Hp sg []) as (p1 & sg1 & f1 & B1). do 3 eexists. eapply bs_skip_ws; eauto.
  - destruct (many_term CM a emit eq_refl Hc p Hp sg []) as (p1 & sg1 & f1 & B1). do 3 eexists. eapply bs_skip_cm; eauto.
  - do 3 eexists. now apply bs_skip_none.
Qed.
Definition term_nonatomic := term_generic false skip_term_nonatomic.

Lemma stack_builtin n : stack_name n = true -> calls_rule G n = false.
Proof.
  unfold stack_name, calls_rule, builtin_name. intros H.
  repeat (apply orb_true_iff in H as [H|H]); rewrite H, ?orb_true_r; reflexivity.
Qed.

Theorem terminates_from_every_name r : exists fuel, eval G extras uprop w fuel NonAtomic true (EIdent r) 0 [] <> SFuel.
Proof.
  assert (H : exists res, bs NonAtomic true (JE (EIdent r)) 0 [] res).
  { destruct (stack_name r) eqn:Es.
    - (* a stack built-in as start symbol: evaluated in one step *)
      eexists. apply bs_leaf. cbn. now rewrite stack_builtin.
    - destruct (term_nonatomic 0 ltac:(lia) (EIdent r)) with (a := NonAtomic) (emit := true) (sg := @nil str) as (res & B & _); [split; [exact Es|]|..]; eauto; discriminate. }
  destruct H as (res & B). destruct (bs_sound _ _ _ _ _ _ _ _ _ _ B) as [D [n E]]. exists n. cbn in E. now rewrite E.
Qed.

End Term.
